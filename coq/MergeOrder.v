(* MergeOrder.v — the iteration order over the members of a merge patch does not matter.

   The Go implementation (merge.go, mergeDocs / MergeMergePatches / CreateMergePatch) iterates
   over Go maps, i.e. in an unspecified, run-to-run varying order.  The reference semantics of
   Rfc7396.v (merge_patch, mm, diff) folds over the members of the patch in LIST order.  This file
   proves that, as long as results are compared as VALUES (jeq: objects are finite maps, member
   order ignored), the order in which the members are visited is irrelevant:

     - merge_patch is a congruence for jeq in both arguments (merge_patch_jeq_congr);
     - permuting the members of the patch object (at the top level: merge_patch_perm, at every
       level of nesting: operm / merge_patch_operm) yields a jeq-equal result;
     - the same for mm (MergeMergePatches; mm_jeq_congr, mm_perm) and for diff (CreateMergePatch;
       diff_jeq_congr).

   This is what makes the model's fixed (patch-order) iteration a sound stand-in for Go's random
   map iteration order whenever outputs are compared up to jeq: any visiting order Go could choose
   is a permutation of the patch's members, and every permutation gives a jeq-equal value.
   All statements are under onodup (no duplicate member names anywhere), the standing domain of
   the merge properties. *)
From Coq Require Import Lia Permutation.
From JP Require Import Bytes Json JsonFacts Rfc7396 MergeFacts.

Local Notation J := (fun x y : ojson => jeq x y = true).

Lemma mo_is_obj_jeq a b : jeq a b = true -> is_obj a = is_obj b.
Proof. destruct a, b; intro H; try discriminate H; reflexivity. Qed.

Lemma mo_jeq_nil_iff l m : jeq (OObj l) (OObj m) = true -> (l = [] <-> m = []).
Proof.
  rewrite jeq_obj. intro H. apply andb_prop in H as [H _]. apply Nat.eqb_eq in H.
  destruct l, m; try discriminate H; split; intro E; try reflexivity; discriminate E.
Qed.

(* equal as Go values: no duplicate member names on either side, and the same value *)
Definition OJ (a b : ojson) : Prop := onodup a = true /\ onodup b = true /\ jeq a b = true.

Lemma OJ_refl a : onodup a = true -> OJ a a.
Proof. intro N. repeat split; auto using jeq_refl. Qed.

Lemma OJ_null a b : OJ a b -> a = ONull /\ b = ONull \/ a <> ONull /\ b <> ONull.
Proof. intros [_ [_ E]]. apply jeq_null_iff in E. destruct (null_dec a); tauto. Qed.

Lemma OJ_is_obj a b : OJ a b -> is_obj a = is_obj b.
Proof. intros [_ [_ E]]. apply mo_is_obj_jeq, E. Qed.

Lemma OJ_obj l l' :
  OJ (OObj l) (OObj l') <->
  NoDup (map fst l) /\ NoDup (map fst l') /\ forall k, lookup_rel OJ (aget k l) (aget k l').
Proof.
  unfold OJ. rewrite !onodup_obj. split.
  - intros [[N F] [[N' F'] E]]. rewrite jeq_obj_char in E by assumption. repeat split; auto.
    intro k. specialize (E k). destruct (aget k l) eqn:G, (aget k l') eqn:G'; try exact E.
    exact (conj (Forall_aget _ _ _ _ F G) (conj (Forall_aget _ _ _ _ F' G') E)).
  - intros [N [N' H]].
    assert (F : Forall (fun kv => onodup (snd kv) = true) l).
    { apply Forall_forall. intros [k v] Hin. apply (In_aget_nodup _ _ _ N) in Hin. specialize (H k). rewrite Hin in H.
      destruct (aget k l'); [apply H | contradiction]. }
    assert (F' : Forall (fun kv => onodup (snd kv) = true) l').
    { apply Forall_forall. intros [k v] Hin. apply (In_aget_nodup _ _ _ N') in Hin. specialize (H k). rewrite Hin in H.
      destruct (aget k l); [apply H | contradiction]. }
    repeat split; auto. apply jeq_obj_char; auto. intro k. specialize (H k).
    destruct (aget k l), (aget k l'); try exact H. apply H.
Qed.

Lemma OJ_kset l m k o o' :
  OJ (OObj l) (OObj m) -> lookup_rel OJ o o' -> OJ (OObj (kset k o l)) (OObj (kset k o' m)).
Proof.
  rewrite !OJ_obj. intros [N [N' H]] Ho. split; [apply NoDup_keys_kset, N|]. split; [apply NoDup_keys_kset, N'|].
  intro k'. rewrite !aget_kset. destruct (bseq k' k); [exact Ho | apply H].
Qed.

Lemma OJ_amem l m k : OJ (OObj l) (OObj m) -> amem k l = amem k m.
Proof.
  intro V. apply OJ_obj in V as [_ [_ H]]. specialize (H k). unfold amem.
  destruct (aget k l), (aget k m); auto; contradiction.
Qed.

Lemma OJ_members d d' : OJ d d' ->
  NoDup (map fst (members_of d)) /\ NoDup (map fst (members_of d')) /\
  forall k, lookup_rel OJ (aget k (members_of d)) (aget k (members_of d')).
Proof.
  intro H. destruct d, d'; try (destruct H as [_ [_ E]]; discriminate E);
    try (split; [constructor | split; [constructor | intro; exact I]]).
  apply OJ_obj, H.
Qed.

Lemma mo_or_null_rel (a b : option ojson) : lookup_rel J a b -> jeq (or_null a) (or_null b) = true.
Proof. destruct a, b; simpl; intro H; try contradiction; auto. Qed.

Lemma OJ_or_null (a b : option ojson) : lookup_rel OJ a b -> OJ (or_null a) (or_null b).
Proof. destruct a, b; intro H; try contradiction; [exact H | repeat split]. Qed.

Lemma merge_patch_OJ p : forall p' d d', OJ p p' -> OJ d d' -> OJ (merge_patch d p) (merge_patch d' p').
Proof.
  induction p using ojson_rect'; intros p' d d' Ep Ed;
    (destruct p' as [| | | | |ms']; try (destruct Ep as [_ [_ E]]; discriminate E));
    try (rewrite !merge_patch_nonobj by (intros; discriminate); exact Ep).
  rewrite !merge_patch_obj. apply OJ_obj in Ep as [N [N' Ep]]. apply OJ_members in Ed as [Nd [Nd' Ed]].
  apply OJ_obj. split; [apply merge_members_nodup, Nd | split; [apply merge_members_nodup, Nd'|]]. intro k.
  rewrite !merge_members_lookup by assumption. specialize (Ep k). specialize (Ed k).
  destruct (aget k ms) as [v|] eqn:G, (aget k ms') as [v'|]; try contradiction; [|exact Ed].
  cbn [lookup_rel] in Ep. destruct (OJ_null _ _ Ep) as [[-> ->]|[NN NN']]; [exact I|].
  rewrite !merge_lookup_nonnull by assumption. apply (Forall_aget _ _ _ _ H G); [exact Ep | apply OJ_or_null, Ed].
Qed.

Theorem merge_patch_jeq_congr p : forall p' d d',
  onodup p = true -> onodup p' = true -> onodup d = true -> onodup d' = true ->
  jeq p p' = true -> jeq d d' = true ->
  jeq (merge_patch d p) (merge_patch d' p') = true.
Proof. intros p' d d' Np Np' Nd Nd' Ep Ed. apply (merge_patch_OJ p p' d d'); repeat split; assumption. Qed.

Lemma aget_perm {A} k (l l' : list (bytes * A)) :
  NoDup (map fst l) -> Permutation l l' -> aget k l = aget k l'.
Proof.
  intros N P.
  assert (N' : NoDup (map fst l')) by (eapply Permutation_NoDup; [apply Permutation_map; exact P | exact N]).
  destruct (aget k l) as [x|] eqn:E.
  - apply aget_In in E. symmetry. apply In_aget_nodup; auto. eapply Permutation_in; eauto.
  - destruct (aget k l') as [y|] eqn:E'; auto.
    apply aget_In in E'. apply Permutation_sym in P. pose proof (Permutation_in _ P E') as Hin.
    apply In_aget_nodup in Hin; auto. congruence.
Qed.

Lemma mo_onodup_perm ms ms' : Permutation ms ms' -> onodup (OObj ms) = true -> onodup (OObj ms') = true.
Proof.
  intros P N. apply onodup_obj in N as [N1 N2]. apply onodup_obj. split.
  - eapply Permutation_NoDup; [apply Permutation_map; exact P | exact N1].
  - eapply Permutation_Forall; eauto.
Qed.

Lemma jeq_perm ms ms' : Permutation ms ms' -> onodup (OObj ms) = true -> jeq (OObj ms) (OObj ms') = true.
Proof.
  intros P N. pose proof (mo_onodup_perm _ _ P N) as N'.
  apply onodup_obj in N as [N1 N2]. apply onodup_obj in N' as [N1' N2'].
  apply jeq_obj_char; auto. intro k. rewrite <- (aget_perm k ms ms') by auto.
  destruct (aget k ms) as [v|] eqn:E; simpl; auto. apply jeq_refl, (Forall_aget _ _ _ _ N2 E).
Qed.

Lemma perm_OJ ms ms' : Permutation ms ms' -> onodup (OObj ms) = true -> OJ (OObj ms) (OObj ms').
Proof. intros P N. split; [exact N | split; [eapply mo_onodup_perm; eauto | apply jeq_perm; assumption]]. Qed.

(* any visiting order of the patch's members gives the same value *)
Theorem merge_patch_perm d ms ms' :
  Permutation ms ms' -> NoDup (map fst ms) -> Forall (fun kv => onodup (snd kv) = true) ms ->
  onodup d = true ->
  jeq (merge_patch d (OObj ms)) (merge_patch d (OObj ms')) = true.
Proof.
  intros P N1 N2 Nd. apply merge_patch_OJ; [apply perm_OJ; [exact P | apply onodup_obj; auto] | apply OJ_refl, Nd].
Qed.

Inductive operm : ojson -> ojson -> Prop :=
| operm_null : operm ONull ONull
| operm_bool b : operm (OBool b) (OBool b)
| operm_num l : operm (ONum l) (ONum l)
| operm_str s : operm (OStr s) (OStr s)
| operm_arr l l' : operm_list l l' -> operm (OArr l) (OArr l')
| operm_obj ms ms1 ms' : operm_members ms ms1 -> Permutation ms1 ms' -> operm (OObj ms) (OObj ms')
with operm_list : list ojson -> list ojson -> Prop :=
| operm_lnil : operm_list [] []
| operm_lcons x y l l' : operm x y -> operm_list l l' -> operm_list (x :: l) (y :: l')
with operm_members : list (bytes * ojson) -> list (bytes * ojson) -> Prop :=
| operm_mnil : operm_members [] []
| operm_mcons k x y l l' : operm x y -> operm_members l l' -> operm_members ((k, x) :: l) ((k, y) :: l').

Scheme operm_ind' := Minimality for operm Sort Prop
  with operm_list_ind' := Minimality for operm_list Sort Prop
  with operm_members_ind' := Minimality for operm_members Sort Prop.
Combined Scheme operm_mutind from operm_ind', operm_list_ind', operm_members_ind'.

Definition mo_vals_ok (ms : list (bytes * ojson)) : Prop := Forall (fun kv => onodup (snd kv) = true) ms.
Definition mo_mrel (a b : bytes * ojson) : Prop := fst a = fst b /\ jeq (snd a) (snd b) = true.

Lemma mo_mrel_keys ms ms' : Forall2 mo_mrel ms ms' -> map fst ms = map fst ms'.
Proof. induction 1 as [|a b l l' [E _] _ IH]; simpl; congruence. Qed.

Lemma mo_mrel_lookup ms ms' : Forall2 mo_mrel ms ms' ->
  forall k, lookup_rel J (aget k ms) (aget k ms').
Proof.
  induction 1 as [|[k1 x] [k2 y] l l' [E1 E2] _ IH]; intro k; simpl; auto.
  simpl in E1, E2. subst k2. destruct (bseq k k1); simpl; auto.
Qed.

Lemma operm_sound :
  (forall a b, operm a b -> onodup a = true -> onodup b = true /\ jeq a b = true) /\
  (forall l l', operm_list l l' -> Forall (fun x => onodup x = true) l ->
     Forall (fun x => onodup x = true) l' /\ Forall2 J l l') /\
  (forall ms ms', operm_members ms ms' -> mo_vals_ok ms -> mo_vals_ok ms' /\ Forall2 mo_mrel ms ms').
Proof.
  apply operm_mutind.
  - intros _. split; reflexivity.
  - intros b _. split; [reflexivity | destruct b; reflexivity].
  - intros l _. split; [reflexivity | simpl; apply bseq_refl].
  - intros s _. split; [reflexivity | simpl; apply bseq_refl].
  - intros l l' _ IH N. apply onodup_arr in N. destruct (IH N) as [N' F]. split.
    + apply onodup_arr. exact N'.
    + rewrite jeq_arr. apply jeq_list_spec. exact F.
  - intros ms ms1 ms' _ IH P N. apply onodup_obj in N as [N1 N2].
    destruct (IH N2) as [N2' F].
    assert (K1 : NoDup (map fst ms1)) by (rewrite <- (mo_mrel_keys _ _ F); exact N1).
    pose proof (mo_onodup_perm _ _ P (proj2 (onodup_obj ms1) (conj K1 N2'))) as Nm'.
    split; [exact Nm'|]. apply onodup_obj in Nm' as [K' _]. apply jeq_obj_char; auto.
    (* a permutation keeps every lookup, and ms1 has the names of ms in the same places *)
    intro k. rewrite <- (aget_perm k ms1 ms') by assumption. apply mo_mrel_lookup, F.
  - intros _. split; constructor.
  - intros x y l l' _ IH1 _ IH2 N. inversion N; subst.
    destruct (IH1 H1) as [A1 A2]. destruct (IH2 H2) as [B1 B2]. split; constructor; auto.
  - intros _. split; constructor.
  - intros k x y l l' _ IH1 _ IH2 N. inversion N; subst. simpl in H1.
    destruct (IH1 H1) as [A1 A2]. destruct (IH2 H2) as [B1 B2]. split; constructor; auto.
    split; auto.
Qed.

Lemma operm_onodup a b : operm a b -> onodup a = true -> onodup b = true.
Proof. intros P N. apply (proj1 operm_sound a b P N). Qed.

Lemma operm_OJ a b : operm a b -> onodup a = true -> OJ a b.
Proof. intros P N. exact (conj N (proj1 operm_sound a b P N)). Qed.

Lemma operm_refl a : operm a a.
Proof.
  induction a using ojson_rect'; try constructor.
  - induction H; constructor; auto.
  - apply (operm_obj ms ms ms); [|apply Permutation_refl].
    induction H as [|[k x] l Hx _ IH]; constructor; auto.
Qed.

Lemma operm_of_perm ms ms' : Permutation ms ms' -> operm (OObj ms) (OObj ms').
Proof.
  intro P. pose proof (operm_refl (OObj ms)) as R. inversion R as [| | | | |? ms1 ? M P1]; subst.
  exact (operm_obj ms ms1 ms' M (perm_trans P1 P)).
Qed.

(* Go may visit the members of the patch, and of every nested patch object, in any order; and the
   target document it reads may have its members in any order: the merged VALUE is the same *)
Theorem merge_patch_operm d d' p p' :
  operm d d' -> operm p p' -> onodup d = true -> onodup p = true ->
  jeq (merge_patch d p) (merge_patch d' p') = true.
Proof. intros Pd Pp Nd Np. apply merge_patch_OJ; apply operm_OJ; assumption. Qed.

Lemma mm_OJ p2 : forall p2' p1 p1', OJ p1 p1' -> OJ p2 p2' -> OJ (mm p1 p2) (mm p1' p2').
Proof.
  induction p2 using ojson_rect'; intros p2' p1 p1' E1 E2;
    (destruct p2' as [| | | | |ms']; try (destruct E2 as [_ [_ E]]; discriminate E));
    try (rewrite !mm_nonobj2 by (intros; discriminate); exact E2).
  pose proof (OJ_is_obj _ _ E1) as O1. destruct (is_obj p1) eqn:O.
  2:{ rewrite !mm_nonobj1 by (apply is_obj_false; auto). exact E2. }
  apply is_obj_true in O as [ms1 ->]. symmetry in O1. apply is_obj_true in O1 as [ms1' ->].
  rewrite !mm_obj. apply OJ_obj in E1 as [N1 [N1' E1]]. apply OJ_obj in E2 as [N2 [N2' E2]].
  apply OJ_obj. split; [apply mm_members_nodup, N1 | split; [apply mm_members_nodup, N1'|]]. intro k.
  rewrite !mm_members_lookup by assumption. specialize (E1 k). specialize (E2 k).
  destruct (aget k ms) as [v|] eqn:G, (aget k ms') as [v'|]; try contradiction; [|exact E1].
  cbn [lookup_rel] in E2. destruct (OJ_null _ _ E2) as [[-> ->]|[NN NN']]; [repeat split|].
  destruct (aget k ms1) as [c|], (aget k ms1') as [c'|]; try contradiction;
    [|rewrite !mm_lookup_fresh by auto; exact E2].
  cbn [lookup_rel] in E1. destruct (OJ_null _ _ E1) as [[-> ->]|[NC NC']]; [rewrite !mm_lookup_fresh by auto; exact E2|].
  rewrite !mm_lookup_both by assumption. apply (Forall_aget _ _ _ _ H G); assumption.
Qed.

Theorem mm_jeq_congr p2 : forall p2' p1 p1',
  onodup p1 = true -> onodup p1' = true -> onodup p2 = true -> onodup p2' = true ->
  jeq p1 p1' = true -> jeq p2 p2' = true ->
  jeq (mm p1 p2) (mm p1' p2') = true.
Proof. intros p2' p1 p1' N1 N1' N2 N2' E1 E2. apply (mm_OJ p2 p2' p1 p1'); repeat split; assumption. Qed.

(* any visiting order of the members of the second patch (the map Go ranges over) *)
Theorem mm_perm p1 ms ms' :
  Permutation ms ms' -> NoDup (map fst ms) -> Forall (fun kv => onodup (snd kv) = true) ms ->
  onodup p1 = true ->
  jeq (mm p1 (OObj ms)) (mm p1 (OObj ms')) = true.
Proof.
  intros P N1 N2 Np. apply mm_OJ; [apply OJ_refl, Np | apply perm_OJ; [exact P | apply onodup_obj; auto]].
Qed.

Theorem mm_operm p1 p1' p2 p2' :
  operm p1 p1' -> operm p2 p2' -> onodup p1 = true -> onodup p2 = true ->
  jeq (mm p1 p2) (mm p1' p2') = true.
Proof. intros P1 P2 N1 N2. apply mm_OJ; apply operm_OJ; assumption. Qed.

Lemma OJ_jeq_transfer a a' b b' : OJ a a' -> OJ b b' -> jeq a b = jeq a' b'.
Proof.
  intros [Na [Na' Ea]] [Nb [Nb' Eb]].
  destruct (jeq a b) eqn:E1, (jeq a' b') eqn:E2; auto.
  - rewrite <- E2. symmetry. apply (jeq_trans _ a); auto. { apply jeq_sym; auto. }
    apply (jeq_trans _ b); auto.
  - rewrite <- E1. apply (jeq_trans _ a'); auto. apply (jeq_trans _ b'); auto. apply jeq_sym; auto.
Qed.

Lemma diff_OJ b : forall b' a a', OJ a a' -> OJ b b' -> OJ (diff a b) (diff a' b').
Proof.
  induction b using ojson_rect'; intros b' a a' Ea Eb;
    (destruct b' as [| | | | |bms']; try (destruct Eb as [_ [_ E]]; discriminate E));
    try (rewrite !diff_nonobj by (apply andb_false_r); exact Eb).
  rename ms into bms. pose proof (OJ_is_obj _ _ Ea) as Oa. destruct (is_obj a) eqn:O.
  2:{ rewrite !diff_nonobj by (rewrite ?O, <- ?Oa; reflexivity). exact Eb. }
  apply is_obj_true in O as [ams ->]. symmetry in Oa. apply is_obj_true in Oa as [ams' ->].
  rewrite !diff_obj. apply OJ_obj in Ea as [Na [Na' Ea]]. apply OJ_obj in Eb as [Nb [Nb' Eb]].
  apply OJ_obj. split; [apply diff_patch_nodup; assumption | split; [apply diff_patch_nodup; assumption|]]. intro k.
  rewrite !diff_patch_lookup by assumption. specialize (Ea k). specialize (Eb k).
  destruct (aget k bms) as [bv|] eqn:Gb, (aget k bms') as [bv'|]; try contradiction.
  2:{ destruct (aget k ams), (aget k ams'); try contradiction; repeat split. }
  cbn [lookup_rel] in Eb.
  destruct (aget k ams) as [av|], (aget k ams') as [av'|]; try contradiction; [|exact Eb].
  cbn [lookup_rel] in Ea. unfold diff_entry.
  rewrite <- (OJ_is_obj _ _ Ea), <- (OJ_is_obj _ _ Eb), <- (OJ_jeq_transfer _ _ _ _ Ea Eb).
  destruct (is_obj av && is_obj bv) eqn:OO; [|destruct (jeq av bv); [exact I | exact Eb]].
  pose proof (Forall_aget _ _ _ _ H Gb _ _ _ Ea Eb) as IHv. cbn [snd] in IHv.
  apply andb_prop in OO as [O1 O2]. apply is_obj_true in O1 as [x ->]. apply is_obj_true in O2 as [y ->].
  pose proof (OJ_is_obj _ _ Ea) as O1. pose proof (OJ_is_obj _ _ Eb) as O2. symmetry in O1, O2.
  apply is_obj_true in O1 as [x' ->]. apply is_obj_true in O2 as [y' ->].
  destruct (diff_is_obj x y) as [dm D]. destruct (diff_is_obj x' y') as [dm' D']. rewrite D, D' in *.
  pose proof (mo_jeq_nil_iff _ _ (proj2 (proj2 IHv))) as Z.
  destruct dm as [|e dm], dm' as [|e' dm']; try exact IHv; try exact I; exfalso;
    [destruct Z as [Z _]; discriminate (Z eq_refl) | destruct Z as [_ Z]; discriminate (Z eq_refl)].
Qed.

Theorem diff_jeq_congr b : forall b' a a',
  onodup a = true -> onodup a' = true -> onodup b = true -> onodup b' = true ->
  jeq a a' = true -> jeq b b' = true ->
  jeq (diff a b) (diff a' b') = true.
Proof. intros b' a a' Na Na' Nb Nb' Ea Eb. apply (diff_OJ b b' a a'); repeat split; assumption. Qed.

Theorem diff_operm a a' b b' :
  operm a a' -> operm b b' -> onodup a = true -> onodup b = true ->
  jeq (diff a b) (diff a' b') = true.
Proof. intros P1 P2 N1 N2. apply diff_OJ; apply operm_OJ; assumption. Qed.

(* non-vacuity: two visiting orders of the same patch give differently ORDERED but jeq-equal
   results (so the statement is about jeq, not about syntactic equality) *)
Example merge_order_witness :
  let d := OObj [(B "a", ONum (B "1"))] in
  let p := OObj [(B "x", ONum (B "2")); (B "y", OObj [(B "u", OBool true); (B "w", ONull)])] in
  let p' := OObj [(B "y", OObj [(B "w", ONull); (B "u", OBool true)]); (B "x", ONum (B "2"))] in
  operm p p' /\
  oeqb (merge_patch d p) (merge_patch d p') = false /\
  jeq (merge_patch d p) (merge_patch d p') = true.
Proof.
  split; [|vm_compute; split; reflexivity].
  eapply operm_obj.
  - apply operm_mcons; [apply operm_num|]. apply operm_mcons; [|apply operm_mnil].
    eapply operm_obj; [|apply perm_swap].
    apply operm_mcons; [apply operm_bool|]. apply operm_mcons; [apply operm_null | apply operm_mnil].
  - apply perm_swap.
Qed.

Print Assumptions merge_patch_jeq_congr.
Print Assumptions merge_patch_perm.
Print Assumptions merge_patch_operm.
Print Assumptions mm_jeq_congr.
Print Assumptions mm_perm.
Print Assumptions mm_operm.
Print Assumptions diff_jeq_congr.
Print Assumptions diff_operm.
Print Assumptions merge_order_witness.
