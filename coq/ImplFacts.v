(* ImplFacts.v — facts about the container methods of the v5 model: the array index arithmetic of
   partialArray.get/set/add/remove against the reference's list operations, for EVERY length and
   index, and the absence of the panics the Go slice expressions could raise. *)
From Coq Require Import Lia.
From JP Require Import Bytes Pointer Rfc6902 ImplV5 JsonFacts RefFacts.

Local Open Scope Z_scope.

(* ---- strconv.Atoi on canonical index spellings ---- *)
Lemma digit_not_dash c : is_digit c = true -> Byte.eqb c x2d = false.
Proof. intro H. apply (eqb_differ is_digit). rewrite H. discriminate. Qed.

Definition in_int64 (v : Z) : option Z :=
  if (int64_min <=? v) && (v <=? int64_max) then Some v else None.

Lemma atoi_nosign c r : Byte.eqb c x2d = false -> Byte.eqb c x2b = false ->
  atoi (c :: r) = match digits_val 0 (c :: r) with Some v => in_int64 v | None => None end.
Proof. destruct c; try discriminate; reflexivity. Qed.

Lemma atoi_unsigned c r : is_digit c = true ->
  atoi (c :: r) = match digits_val 0 (c :: r) with Some v => in_int64 v | None => None end.
Proof. intro H. apply atoi_nosign; apply (eqb_differ is_digit); rewrite H; discriminate. Qed.

Lemma atoi_minus c r :
  atoi (x2d :: c :: r) = match digits_val 0 (c :: r) with Some v => in_int64 (- v) | None => None end.
Proof. reflexivity. Qed.

Lemma atoi_nat t n : canonical_nat t = Some n -> 0 <= n /\ atoi t = if n <=? int64_max then Some n else None.
Proof.
  intro H. apply canonical_nat_digits in H as (D & N0 & c & r & -> & Dc). split; [exact N0|].
  rewrite atoi_unsigned, D by exact Dc. unfold in_int64.
  replace (int64_min <=? n) with true by (symmetry; apply Z.leb_le; unfold int64_min; lia). reflexivity.
Qed.

Lemma atoi_canonical_nat t n : canonical_nat t = Some n -> n <= int64_max -> atoi t = Some n.
Proof. intros H Hn. rewrite (proj2 (atoi_nat t n H)). now apply Z.leb_le in Hn as ->. Qed.

Lemma atoi_neg t k : canonical_neg t = Some k -> 0 < k /\ atoi t = in_int64 (- k).
Proof. intro H. apply canonical_neg_inv in H as (P & c & r & -> & D). split; [exact P|]. now rewrite atoi_minus, D. Qed.

Lemma atoi_canonical_neg t k : canonical_neg t = Some k -> k <= int64_max -> atoi t = Some (- k) /\ 0 < k.
Proof.
  intros H Hk. destruct (atoi_neg t k H) as [P A]. split; [|exact P]. rewrite A. unfold in_int64.
  replace (int64_min <=? - k) with true by (symmetry; apply Z.leb_le; unfold int64_min, int64_max in *; lia).
  replace (- k <=? int64_max) with true by (symmetry; apply Z.leb_le; unfold int64_max; lia). reflexivity.
Qed.

Lemma canonical_nat_not_neg t n k : canonical_nat t = Some n -> canonical_neg t = Some k -> False.
Proof.
  intros H1 H2. apply canonical_nat_digits in H1 as (_ & _ & c & r & -> & Dc).
  rewrite canonical_neg_cons, (digit_not_dash c Dc) in H2. discriminate H2.
Qed.

Lemma canonical_not_dash t n : canonical_nat t = Some n -> bseq t [x2d] = false.
Proof.
  intro H. apply canonical_nat_digits in H as (_ & _ & c & r & -> & Dc). cbn [bseq]. now rewrite (digit_not_dash c Dc).
Qed.

Lemma canonical_neg_not_dash t k : canonical_neg t = Some k -> bseq t [x2d] = false.
Proof. intro H. apply canonical_neg_inv in H as (_ & c & r & -> & _). reflexivity. Qed.

Definition dia (o : opts) : dialect := mkDialect (o_neg o).

(* numeric reference tokens fit a 64-bit integer (strconv.Atoi); a condition on the patch *)
Definition tok_small (t : bytes) : Prop :=
  (forall n, canonical_nat t = Some n -> n <= int64_max) /\ (forall k, canonical_neg t = Some k -> k <= int64_max).

Lemma zlen_eq {A} (l : list A) : ImplV5.zlen l = Rfc6902.zlen l.
Proof. reflexivity. Qed.

Definition tok_canonical (t : bytes) : Prop :=
  (exists n, canonical_nat t = Some n) \/ (exists k, canonical_neg t = Some k).

Lemma atoi_canonical t : tok_canonical t ->
  (exists n, canonical_nat t = Some n /\ canonical_neg t = None /\ 0 <= n /\
             atoi t = if n <=? int64_max then Some n else None) \/
  (exists k, canonical_nat t = None /\ canonical_neg t = Some k /\ 0 < k /\
             (atoi t = Some (- k) \/ int64_max < k /\ atoi t = None)).
Proof.
  intros [[n Hn]|[k Hk]].
  - left. exists n. destruct (atoi_nat t n Hn) as [N0 A]. split; [exact Hn|]. split; [|split; [exact N0 | exact A]].
    destruct (canonical_neg t) eqn:E; [exfalso; eapply canonical_nat_not_neg; eauto | reflexivity].
  - right. exists k. destruct (atoi_neg t k Hk) as [P A]. split; [|split; [exact Hk | split; [exact P|]]].
    + destruct (canonical_nat t) eqn:E; [exfalso; eapply canonical_nat_not_neg; eauto | reflexivity].
    + rewrite A. unfold in_int64. destruct ((int64_min <=? - k) && (- k <=? int64_max)) eqn:B; [left; reflexivity|].
      right. split; [|reflexivity]. apply andb_false_iff in B as [B|B]; apply Z.leb_gt in B; unfold int64_min, int64_max in *; lia.
Qed.

(* whatever strconv.Atoi reads as a number is spelled canonically (a condition on the patch) *)
Definition tok_num (t : bytes) : Prop := forall z, atoi t = Some z -> tok_canonical t.

Lemma add_tok_num t : t = [x2d] \/ tok_canonical t -> tok_num t.
Proof. intros [->|C] z H; [discriminate H | exact C]. Qed.

(* ... so a token is a canonical spelling, or a number on neither side *)
Lemma atoi_num t : tok_num t ->
  (exists n, canonical_nat t = Some n /\ canonical_neg t = None /\ 0 <= n /\
             atoi t = if n <=? int64_max then Some n else None) \/
  (exists k, canonical_nat t = None /\ canonical_neg t = Some k /\ 0 < k /\
             (atoi t = Some (- k) \/ int64_max < k /\ atoi t = None)) \/
  (canonical_nat t = None /\ canonical_neg t = None /\ atoi t = None).
Proof.
  intro N. assert (C : tok_canonical t \/ (canonical_nat t = None /\ canonical_neg t = None)).
  { unfold tok_canonical. destruct (canonical_nat t); [eauto|]. destruct (canonical_neg t); eauto. }
  destruct C as [C|[Hn Hk]]; [destruct (atoi_canonical t C); auto|].
  right. right. split; [exact Hn|]. split; [exact Hk|]. destruct (atoi t) as [z|] eqn:A; [|reflexivity].
  destruct (N z A) as [[n H]|[k H]]; congruence.
Qed.

(* ---- the bytes of a numeric spelling; undoing ~0 ~1 neither creates nor destroys one ---- *)
Definition numch (c : byte) : bool := is_digit c || Byte.eqb c x2d || Byte.eqb c x2b.

Lemma digits_numch s : forallb is_digit s = true -> forallb numch s = true.
Proof.
  induction s as [|c s IH]; cbn [forallb]; [reflexivity|]. intro H. apply andb_prop in H as [H1 H2].
  unfold numch at 1. rewrite H1, (IH H2). reflexivity.
Qed.

Lemma digits_val_all : forall s acc v, digits_val acc s = Some v -> forallb is_digit s = true.
Proof.
  induction s as [|c s IH]; intros acc v H; [reflexivity|].
  cbn [digits_val] in H. cbn [forallb]. destruct (is_digit c); [|discriminate H]. exact (IH _ _ H).
Qed.

Lemma atoi_plus r : atoi (x2b :: r) =
  match r with [] => None | _ => match digits_val 0 r with Some v => in_int64 v | None => None end end.
Proof. destruct r; reflexivity. Qed.

Lemma atoi_numch s z : atoi s = Some z -> forallb numch s = true.
Proof.
  assert (F : forall ds o, match digits_val 0 ds with Some v => o v | None => None end = Some z -> forallb numch ds = true).
  { intros ds o H. destruct (digits_val 0 ds) as [v|] eqn:E; [|discriminate H]. exact (digits_numch _ (digits_val_all _ _ _ E)). }
  destruct s as [|c r]; [discriminate|]. intro H.
  destruct (Byte.eqb c x2d) eqn:M; [apply Byte.byte_dec_bl in M; subst c|destruct (Byte.eqb c x2b) eqn:P].
  - destruct r as [|c' r']; [discriminate H|]. rewrite atoi_minus in H. exact (F _ _ H).
  - apply Byte.byte_dec_bl in P. subst c. rewrite atoi_plus in H. destruct r as [|c' r']; [discriminate H|]. exact (F _ _ H).
  - rewrite atoi_nosign in H by assumption. exact (F _ _ H).
Qed.

Lemma canonical_nat_numch s n : canonical_nat s = Some n -> forallb numch s = true.
Proof. intro H. apply canonical_nat_digits in H as [D _]. exact (digits_numch _ (digits_val_all _ _ _ D)). Qed.

Lemma canonical_neg_numch s k : canonical_neg s = Some k -> forallb numch s = true.
Proof.
  intro H. apply canonical_neg_inv in H as [_ [c [r [-> D]]]]. exact (digits_numch _ (digits_val_all _ _ _ D)).
Qed.

Definition decode_tilde (r : bytes) : bytes :=
  match r with
  | x31 :: r' => x2f :: decode_token r'
  | x30 :: r' => x7e :: decode_token r'
  | _ => x7e :: decode_token r
  end.

(* decode_token over an arbitrary continuation: the model is the loop over it up to conversion, and a step of the loop
   does not unfold to a match whose every branch holds the fixpoint *)
Definition dt_body (k : bytes -> bytes) (s : bytes) : bytes :=
  match s with
  | x7e :: x31 :: r => x2f :: k r
  | x7e :: x30 :: r => x7e :: k r
  | c :: r => c :: k r
  | [] => []
  end.

Fixpoint dt_iter (s : bytes) : bytes := dt_body dt_iter s.

Lemma decode_token_iter : decode_token = dt_iter.
Proof. reflexivity. Qed.

Lemma match_tilde {T} (a d : byte -> T) c :
  match c with x7e => a c | _ => d c end = if Byte.eqb c x7e then a x7e else d c.
Proof. destruct c; reflexivity. Qed.

Lemma decode_token_cons c r :
  decode_token (c :: r) = if Byte.eqb c x7e then decode_tilde r else c :: decode_token r.
Proof.
  unfold decode_tilde. rewrite decode_token_iter.
  exact (match_tilde (fun c => match r with x31 :: r' => x2f :: dt_iter r' | x30 :: r' => x7e :: dt_iter r' | _ => c :: dt_iter r end)
                     (fun c => c :: dt_iter r) c).
Qed.

Lemma match_10 {T} (a b d : T) c :
  match c with x31 => a | x30 => b | _ => d end = if Byte.eqb c x31 then a else if Byte.eqb c x30 then b else d.
Proof. destruct c; reflexivity. Qed.

Lemma decode_tilde_head r : exists h tl, (h = x7e \/ h = x2f) /\ decode_tilde r = h :: tl.
Proof.
  unfold decode_tilde. destruct r as [|c' r']; [eauto|]. rewrite match_10.
  destruct (Byte.eqb c' x31); [eauto|]. destruct (Byte.eqb c' x30); eauto.
Qed.

Lemma numch_not_tilde c : numch c = true -> Byte.eqb c x7e = false.
Proof. intro H. apply (eqb_differ numch). rewrite H. discriminate. Qed.

(* a decoded token that consists of digits and signs only was not produced by unescaping:
   the two escapes produce a slash or a tilde, and a tilde that is not part of an escape stays *)
Lemma decode_token_numch_out t : forallb numch (decode_token t) = true -> decode_token t = t.
Proof.
  induction t as [|c r IH]; [reflexivity|]. rewrite decode_token_cons.
  destruct (Byte.eqb c x7e) eqn:E.
  - intro H. exfalso.
    destruct (decode_tilde_head r) as [h [tl [Hh G]]]. rewrite G in H. cbn [forallb] in H. apply andb_prop in H as [H _].
    destruct Hh; subst h; discriminate H.
  - cbn [forallb]. intro H. apply andb_prop in H as [_ H]. rewrite (IH H). reflexivity.
Qed.

Lemma decode_token_numch_in t : forallb numch t = true -> decode_token t = t.
Proof.
  induction t as [|c r IH]; [reflexivity|]. cbn [forallb]. intro H. apply andb_prop in H as [H1 H2].
  rewrite decode_token_cons, (numch_not_tilde _ H1), (IH H2). reflexivity.
Qed.

Theorem decode_token_atoi t z : atoi (decode_token t) = Some z -> decode_token t = t.
Proof. intro H. apply decode_token_numch_out. eapply atoi_numch; eauto. Qed.

Theorem decode_token_canonical_nat t n : canonical_nat (decode_token t) = Some n -> decode_token t = t.
Proof. intro H. apply decode_token_numch_out. eapply canonical_nat_numch; eauto. Qed.

Theorem decode_token_canonical_neg t k : canonical_neg (decode_token t) = Some k -> decode_token t = t.
Proof. intro H. apply decode_token_numch_out. eapply canonical_neg_numch; eauto. Qed.

(* a reading of tokens that accepts numeric spellings only does not see whether ~0 ~1 were undone *)
Lemma decode_numeric {A} (f : bytes -> option A) :
  (forall s a, f s = Some a -> forallb numch s = true) -> forall t, f (decode_token t) = f t.
Proof.
  intros N t. destruct (f t) as [a|] eqn:E.
  - rewrite (decode_token_numch_in t (N t a E)). exact E.
  - destruct (f (decode_token t)) as [a|] eqn:D; [|reflexivity].
    rewrite (decode_token_numch_out t (N _ a D)) in D. congruence.
Qed.

Definition canonical_nat_decode := decode_numeric canonical_nat canonical_nat_numch.
Definition canonical_neg_decode := decode_numeric canonical_neg canonical_neg_numch.
Definition atoi_decode := decode_numeric atoi atoi_numch.

Lemma dash_decode p : bseq (decode_token p) [x2d] = bseq p [x2d].
Proof.
  destruct (bseq p [x2d]) eqn:A.
  - apply bseq_eq in A. subst p. reflexivity.
  - destruct (bseq (decode_token p) [x2d]) eqn:E; [|reflexivity]. apply bseq_eq in E.
    rewrite (decode_token_numch_out p) in E by (rewrite E; reflexivity). subst p. discriminate.
Qed.

(* every canonical spelling of t that is at most b fits a 64-bit integer: true when the token is small
   (a condition on the patch), and when b is (a Go slice is shorter than 2^63) *)
Definition idx_fits (t : bytes) (b : Z) : Prop :=
  forall v, canonical_nat t = Some v \/ canonical_neg t = Some v -> v <= b -> v <= int64_max.

Lemma tok_small_fits t b : tok_small t -> idx_fits t b.
Proof. intros [S1 S2] v [H|H] _; [exact (S1 v H) | exact (S2 v H)]. Qed.

Lemma bound_fits t b : b <= int64_max -> idx_fits t b.
Proof. intros B v _ L. lia. Qed.

Theorem resolve_idx_get_fits o {A} (l : list A) t :
  idx_fits t (Rfc6902.zlen l) -> tok_num t ->
  match idx_existing (dia o) (Rfc6902.zlen l) t with
  | Some i => resolve_idx_get o (ImplV5.zlen l) t = Ok i /\ (i < length l)%nat
  | None => exists e, resolve_idx_get o (ImplV5.zlen l) t = Err e /\ (e = EInvalidIndex \/ e = EAtoi)
  end.
Proof.
  intros F Num. unfold idx_existing, resolve_idx_get, Rfc6902.zlen, ImplV5.zlen, dia in *. cbn [neg_idx].
  destruct (atoi_num t Num) as [[n [Hn [Hk [N0 At]]]]|[[k [Hn [Hk [K0 At]]]]|[Hn [Hk At]]]]; rewrite Hn, ?Hk; [| |rewrite At; eauto].
  - specialize (F n (or_introl Hn)). rewrite At.
    destruct (Z.ltb_spec n (Z.of_nat (length l))), (Z.leb_spec n int64_max); try lia; eauto.
    all: destruct (Z.ltb_spec n 0), (Z.leb_spec (Z.of_nat (length l)) n); try lia; eauto. split; [reflexivity | lia].
  - specialize (F k (or_intror Hk)). destruct At as [At|[B At]]; rewrite At.
    + destruct (Z.ltb_spec (- k) 0); [|lia]. destruct (o_neg o); cbn [andb negb]; [|eauto].
      destruct (Z.leb_spec k (Z.of_nat (length l))), (Z.ltb_spec (- k) (- Z.of_nat (length l))); try lia; eauto.
      destruct (Z.leb_spec (Z.of_nat (length l)) (- k + Z.of_nat (length l))); [lia|]. split; [do 2 f_equal; lia | lia].
    + destruct (Z.leb_spec k (Z.of_nat (length l))); [lia|]. rewrite andb_false_r. eauto.
Qed.

Definition resolve_idx_get_ref o {A} (l : list A) t (S : tok_small t) (C : tok_canonical t) :=
  resolve_idx_get_fits o l t (tok_small_fits t _ S) (fun _ _ => C).

Definition add_tok (t : bytes) : Prop := t = [x2d] \/ tok_canonical t.

(* what the three methods of partialArray that change it can return, whatever the token: the list with the value
   inserted, put or taken out at some index (remove: or the list as it is, when the option lets it pass), one of
   the two index errors, and a panic only from the unchecked set *)
Lemma ary_add_cases o ns key v :
  match ary_add o ns key v with
  | Ok ns' => exists i, ns' = insert_at i v ns
  | Err e => e = EAtoi \/ e = EInvalidIndex
  | Panic => False
  end.
Proof.
  unfold ary_add, insert_at. destruct (bseq key [x2d]).
  { exists (length ns). now rewrite firstn_all, skipn_all. }
  destruct (atoi key) as [idx|]; [|now left].
  destruct (ImplV5.zlen ns + 1 <=? idx) eqn:E1; [now right|].
  destruct (idx <? 0) eqn:E2; [|eauto].
  destruct (negb (o_neg o)); [now right|]. destruct (idx <? - (ImplV5.zlen ns + 1)) eqn:E3; [now right|].
  destruct (ImplV5.zlen ns <? idx + (ImplV5.zlen ns + 1)) eqn:E4; [|eauto].
  apply Z.leb_gt in E1. apply Z.ltb_lt in E2, E4. lia.
Qed.

Lemma ary_set_cases o ns key v :
  match ary_set o ns key v with
  | Ok ns' => exists i, ns' = set_at i v ns
  | Err e => e = EAtoi \/ e = EInvalidIndex
  | Panic => True
  end.
Proof.
  unfold ary_set, set_at. destruct (atoi key) as [idx|]; [|now left].
  destruct (idx <? 0).
  - destruct (negb (o_neg o)); [now right|]. destruct (idx <? - ImplV5.zlen ns); [now right|].
    destruct (ImplV5.zlen ns <=? idx + ImplV5.zlen ns); [exact I | eauto].
  - destruct (ImplV5.zlen ns <=? idx); [exact I | eauto].
Qed.

Lemma ary_remove_cases o ns key :
  match ary_remove o ns key with
  | Ok ns' => ns' = ns \/ exists i, ns' = remove_at i ns
  | Err e => e = EAtoi \/ e = EInvalidIndex
  | Panic => False
  end.
Proof.
  unfold ary_remove, remove_at. destruct (atoi key) as [idx|]; [|now left].
  destruct (ImplV5.zlen ns <=? idx); [destruct (o_allow o); [now left | now right]|].
  destruct (idx <? 0); [|eauto].
  destruct (negb (o_neg o)); [now right|].
  destruct (idx <? - ImplV5.zlen ns); [destruct (o_allow o); [now left | now right] | eauto].
Qed.

Lemma Forall_doc_set_keys (P : bytes -> Prop) keys (obj : list (bytes * node)) k v :
  Forall P keys -> P k -> Forall P (fst (doc_set keys obj k v)).
Proof.
  intros U Uk. unfold doc_set. cbn [fst]. destruct (kmem k keys); [exact U|].
  apply Forall_app. split; [exact U | constructor; [exact Uk | constructor]].
Qed.

Theorem ary_add_never_panics o ns key v : ary_add o ns key v <> Panic.
Proof. intro H. pose proof (ary_add_cases o ns key v) as C. now rewrite H in C. Qed.

Theorem ary_add_fits o (ns : list node) t v :
  idx_fits t (Rfc6902.zlen ns + 1) -> tok_num t ->
  match idx_insert (dia o) (Rfc6902.zlen ns) t with
  | Some i => ary_add o ns t v = Ok (insert_at i v ns) /\ (i <= length ns)%nat
  | None => exists e, ary_add o ns t v = Err e /\ (e = EInvalidIndex \/ e = EAtoi)
  end.
Proof.
  intros F Num. unfold idx_insert, ary_add, Rfc6902.zlen, ImplV5.zlen, dia, insert_at in *; cbn [neg_idx].
  destruct (bseq t [x2d]).
  { split; [|lia]. rewrite Nat2Z.id, firstn_all, skipn_all. reflexivity. }
  destruct (atoi_num t Num) as [[n [Hn [Hk [N0 At]]]]|[[k [Hn [Hk [K0 At]]]]|[Hn [Hk At]]]]; rewrite Hn, ?Hk; [| |rewrite At; eauto].
  - specialize (F n (or_introl Hn)). rewrite At.
    destruct (Z.leb_spec n (Z.of_nat (length ns))), (Z.leb_spec n int64_max); try lia; eauto.
    all: destruct (Z.leb_spec (Z.of_nat (length ns) + 1) n), (Z.ltb_spec n 0); try lia; eauto. split; [reflexivity | lia].
  - specialize (F k (or_intror Hk)). destruct At as [At|[B At]]; rewrite At.
    + destruct (Z.leb_spec (Z.of_nat (length ns) + 1) (- k)), (Z.ltb_spec (- k) 0); try lia.
      destruct (o_neg o); cbn [andb negb]; [|eauto].
      destruct (Z.leb_spec k (Z.of_nat (length ns) + 1)), (Z.ltb_spec (- k) (- (Z.of_nat (length ns) + 1))); try lia; eauto.
      destruct (Z.ltb_spec (Z.of_nat (length ns)) (- k + (Z.of_nat (length ns) + 1))); [lia|].
      replace (- k + (Z.of_nat (length ns) + 1)) with (Z.of_nat (length ns) + 1 - k) by lia. split; [reflexivity | lia].
    + destruct (Z.leb_spec k (Z.of_nat (length ns) + 1)); [lia|]. rewrite andb_false_r. eauto.
Qed.

Definition ary_add_ref o ns t v (S : tok_small t) (A : add_tok t) :=
  ary_add_fits o ns t v (tok_small_fits t _ S) (add_tok_num t A).

(* remove: an index that exists is removed, whatever AllowMissingPathOnRemove says *)
Theorem ary_remove_fits o (ns : list node) t :
  idx_fits t (Rfc6902.zlen ns) -> tok_num t ->
  match idx_existing (dia o) (Rfc6902.zlen ns) t with
  | Some i => ary_remove o ns t = Ok (remove_at i ns) /\ (i < length ns)%nat
  | None => o_allow o = false -> exists e, ary_remove o ns t = Err e /\ (e = EInvalidIndex \/ e = EAtoi)
  end.
Proof.
  intros F Num. unfold idx_existing, ary_remove, Rfc6902.zlen, ImplV5.zlen, dia, remove_at in *. cbn [neg_idx].
  destruct (atoi_num t Num) as [[n [Hn [Hk [N0 At]]]]|[[k [Hn [Hk [K0 At]]]]|[Hn [Hk At]]]]; rewrite Hn, ?Hk; [| |rewrite At; eauto].
  - specialize (F n (or_introl Hn)). rewrite At.
    destruct (Z.ltb_spec n (Z.of_nat (length ns))), (Z.leb_spec n int64_max); try lia; try (intro Al; rewrite ?Al; eauto; fail).
    + destruct (Z.leb_spec (Z.of_nat (length ns)) n), (Z.ltb_spec n 0); try lia. split; [reflexivity | lia].
    + intros ->. destruct (Z.leb_spec (Z.of_nat (length ns)) n); [eauto | lia].
  - specialize (F k (or_intror Hk)). destruct At as [At|[B At]]; rewrite At.
    + destruct (Z.leb_spec (Z.of_nat (length ns)) (- k)), (Z.ltb_spec (- k) 0); try lia.
      destruct (o_neg o); cbn [andb negb]; [|eauto].
      destruct (Z.leb_spec k (Z.of_nat (length ns))), (Z.ltb_spec (- k) (- Z.of_nat (length ns))); try lia; try (intro Al; rewrite ?Al; eauto; fail).
      replace (- k + Z.of_nat (length ns)) with (Z.of_nat (length ns) - k) by lia. split; [reflexivity | lia].
    + destruct (Z.leb_spec k (Z.of_nat (length ns))); [lia|]. rewrite andb_false_r. eauto.
Qed.

Theorem ary_remove_ref o (ns : list node) t :
  o_allow o = false -> tok_small t -> tok_canonical t ->
  match idx_existing (dia o) (Rfc6902.zlen ns) t with
  | Some i => ary_remove o ns t = Ok (remove_at i ns) /\ (i < length ns)%nat
  | None => exists e, ary_remove o ns t = Err e /\ (e = EInvalidIndex \/ e = EAtoi)
  end.
Proof.
  intros Al S C. pose proof (ary_remove_fits o ns t (tok_small_fits t _ S) (fun _ _ => C)) as R.
  destruct (idx_existing (dia o) (Rfc6902.zlen ns) t); [exact R | exact (R Al)].
Qed.

(* ---- set, after a successful get (Patch.replace calls get first) ---- *)
Theorem ary_set_after_get o (ns : list node) t v i :
  resolve_idx_get o (ImplV5.zlen ns) t = Ok i -> ary_set o ns t v = Ok (set_at i v ns).
Proof.
  unfold resolve_idx_get, ary_set, set_at. destruct (atoi t) as [idx|]; [|discriminate].
  destruct (idx <? 0).
  - destruct (negb (o_neg o)); [discriminate|].
    destruct (idx <? - ImplV5.zlen ns); [discriminate|].
    destruct (ImplV5.zlen ns <=? idx + ImplV5.zlen ns); [discriminate|]. intro H; inversion H. reflexivity.
  - destruct (ImplV5.zlen ns <=? idx); [discriminate|]. intro H; inversion H. reflexivity.
Qed.

(* ---- strconv.Itoa and strconv.Atoi: what is written is read back; appending through the index it spells ---- *)
Lemma digit_byte m : (m < 10)%N ->
  is_digit (nb (48 + m)) = true /\ Z.of_N (bn (nb (48 + m)) - 48) = Z.of_N m.
Proof.
  intro H. do 10 (destruct m as [|m _] using N.peano_ind; [split; reflexivity|]). lia.
Qed.

Lemma itoa_go_S f n acc :
  itoa_go (S f) n acc =
  if (n <? 10)%N then nb (48 + n mod 10) :: acc else itoa_go f (n / 10) (nb (48 + n mod 10) :: acc).
Proof. reflexivity. Qed.

Lemma itoa_go_spec : forall f n acc, (n < 10 ^ N.of_nat (S f))%N ->
  exists c ds, itoa_go (S f) n acc = (c :: ds) ++ acc /\ is_digit c = true /\
    forall rest, digits_val 0 ((c :: ds) ++ rest) = digits_val (Z.of_N n) rest.
Proof.
  induction f as [|f IH]; intros n acc Hn; rewrite itoa_go_S; destruct (n <? 10)%N eqn:L.
  1, 3: apply N.ltb_lt in L; rewrite (N.mod_small n 10 L); destruct (digit_byte n L) as [D1 D2];
    exists (nb (48 + n)), []; split; [reflexivity|]; split; [exact D1|];
    intro rest; cbn [app digits_val]; rewrite D1, D2; reflexivity.
  - apply N.ltb_ge in L. change (10 ^ N.of_nat 1)%N with 10%N in Hn. lia.
  - assert (Hq : (n / 10 < 10 ^ N.of_nat (S f))%N).
    { apply N.div_lt_upper_bound; [discriminate|].
      replace (N.of_nat (S (S f))) with (N.succ (N.of_nat (S f))) in Hn by lia.
      rewrite N.pow_succ_r' in Hn. exact Hn. }
    destruct (IH (n / 10)%N (nb (48 + n mod 10) :: acc) Hq) as [c [ds [E1 [E2 E3]]]].
    assert (Lm : (n mod 10 < 10)%N) by (apply N.mod_lt; discriminate).
    destruct (digit_byte (n mod 10) Lm) as [D1 D2].
    exists c, (ds ++ [nb (48 + n mod 10)]). split; [|split; [exact E2|]].
    + rewrite E1. simpl. rewrite <- app_assoc. reflexivity.
    + intro rest.
      replace ((c :: ds ++ [nb (48 + n mod 10)]) ++ rest) with ((c :: ds) ++ nb (48 + n mod 10) :: rest)
        by (simpl; rewrite <- app_assoc; reflexivity).
      rewrite E3. cbn [digits_val]. rewrite D1, D2. f_equal.
      pose proof (N.div_mod n 10). lia.
Qed.

Lemma itoa_shape n : (Z.of_nat n <= int64_max)%Z ->
  exists c ds, itoa (N.of_nat n) = c :: ds /\ is_digit c = true /\ atoi (c :: ds) = Some (Z.of_nat n).
Proof.
  intro H. unfold itoa.
  assert (P : (10 ^ N.of_nat 30 = 1000000000000000000000000000000)%N) by reflexivity.
  destruct (itoa_go_spec 29 (N.of_nat n) []) as [c [ds [E1 [E2 E3]]]].
  { rewrite P. unfold int64_max in H. lia. }
  rewrite app_nil_r in E1. exists c, ds. split; [exact E1|]. split; [exact E2|].
  rewrite atoi_unsigned by exact E2. specialize (E3 []). rewrite app_nil_r in E3. rewrite E3. cbn [digits_val].
  unfold in_int64.
  replace (int64_min <=? Z.of_N (N.of_nat n))%Z with true by (symmetry; apply Z.leb_le; unfold int64_min; lia).
  replace (Z.of_N (N.of_nat n) <=? int64_max)%Z with true by (symmetry; apply Z.leb_le; lia).
  cbn [andb]. f_equal. lia.
Qed.

Lemma ary_add_append o ns v : (Z.of_nat (length ns) <= int64_max)%Z ->
  ary_add o ns (itoa (N.of_nat (length ns))) v = Ok (ns ++ [v]).
Proof.
  intro H. destruct (itoa_shape (length ns) H) as [c [ds [E1 [E2 E3]]]]. rewrite E1.
  unfold ary_add. cbn [bseq]. rewrite (digit_not_dash c E2). cbn [andb]. rewrite E3.
  unfold ImplV5.zlen.
  replace (Z.of_nat (length ns) + 1 <=? Z.of_nat (length ns))%Z with false by (symmetry; apply Z.leb_gt; lia).
  replace (Z.of_nat (length ns) <? 0)%Z with false by (symmetry; apply Z.ltb_ge; lia).
  rewrite Nat2Z.id, firstn_all, skipn_all. reflexivity.
Qed.

(* ---- canonical index spellings are unique ---- *)
Lemma dig_inj c c' : is_digit c = true -> is_digit c' = true -> dig c = dig c' -> c = c'.
Proof.
  unfold is_digit, dig. intros H H' E. apply andb_prop in H as [H _], H' as [H' _]. apply N.leb_le in H, H'.
  apply bn_inj. lia.
Qed.

Lemma digits_val_snoc : forall s acc c, is_digit c = true ->
  digits_val acc (s ++ [c]) = option_map (fun v => v * 10 + dig c)%Z (digits_val acc s).
Proof.
  induction s as [|x s IH]; intros acc c Hc; cbn [app digits_val].
  - rewrite Hc. reflexivity.
  - destruct (is_digit x); [apply IH; exact Hc | reflexivity].
Qed.

Lemma digits_val_bounds : forall s acc v, (0 <= acc)%Z -> digits_val acc s = Some v ->
  (acc * 10 ^ Z.of_nat (length s) <= v < (acc + 1) * 10 ^ Z.of_nat (length s))%Z.
Proof.
  induction s as [|c s IH]; intros acc v Ha H.
  - cbn in *. inversion H; subst. lia.
  - cbn [digits_val] in H. destruct (is_digit c) eqn:Dc; [|discriminate].
    pose proof (dig_range c Dc) as R. fold (dig c) in H.
    apply IH in H; [|lia]. cbn [length]. rewrite Nat2Z.inj_succ, Z.pow_succ_r by lia.
    assert (P : (0 < 10 ^ Z.of_nat (length s))%Z) by (apply Z.pow_pos_nonneg; lia).
    nia.
Qed.

Lemma digits_same_length : forall a b va vb,
  length a = length b -> digits_val 0 a = Some va -> digits_val 0 b = Some vb -> va = vb -> a = b.
Proof.
  induction a as [|ca a IH] using rev_ind; intros b va vb L Ha Hb E.
  - destruct b; [reflexivity | discriminate].
  - destruct b as [|cb b _] using rev_ind; [rewrite app_length in L; cbn in L; lia|].
    rewrite !app_length in L. cbn [length] in L.
    pose proof (digits_val_all _ _ _ Ha) as Fa. pose proof (digits_val_all _ _ _ Hb) as Fb.
    rewrite forallb_app in Fa, Fb. cbn [forallb] in Fa, Fb. rewrite andb_true_r in Fa, Fb.
    apply andb_prop in Fa as [_ Dca], Fb as [_ Dcb].
    rewrite digits_val_snoc in Ha, Hb by assumption.
    destruct (digits_val 0 a) as [xa|] eqn:Xa; [|discriminate].
    destruct (digits_val 0 b) as [xb|] eqn:Xb; [|discriminate].
    cbn [option_map] in Ha, Hb. inversion Ha; inversion Hb; subst.
    pose proof (dig_range ca Dca). pose proof (dig_range cb Dcb).
    assert (xa = xb) by lia. assert (dig ca = dig cb) by lia.
    f_equal; [eapply IH; eauto; lia | f_equal; apply dig_inj; auto].
Qed.

Lemma canonical_nat_inj a b n : canonical_nat a = Some n -> canonical_nat b = Some n -> a = b.
Proof.
  (* a spelling that does not begin with 0 is at most as long as any spelling of its number, and "0" is the shortest there is *)
  assert (Le : forall s t, canonical_nat s = Some n -> canonical_nat t = Some n -> (length s <= length t)%nat).
  { intros s t Hs Ht. pose proof (canonical_nat_digits _ _ Ht) as (Dt & _ & c' & r' & -> & _).
    apply digits_val_bounds in Dt; [|lia].
    destruct s as [|c r]; [discriminate|]. pose proof (canonical_nat_digits _ _ Hs) as (Ds & _).
    rewrite canonical_nat_cons in Hs. destruct (bseq (c :: r) [x30]) eqn:Z.
    - apply bseq_eq in Z. rewrite Z. cbn [length]. lia.
    - destruct (is_digit19 c && forallb is_digit r) eqn:E; [|discriminate]. apply andb_prop in E as [E _].
      destruct (digit19_digit c E) as [Dc D1]. cbn [digits_val] in Ds. rewrite Dc in Ds. fold (dig c) in Ds.
      apply digits_val_bounds in Ds; [|lia].
      assert (P : 0 < 10 ^ Z.of_nat (length r)) by (apply Z.pow_pos_nonneg; lia).
      assert (Q : 10 ^ Z.of_nat (length r) < 10 ^ Z.of_nat (length (c' :: r'))) by nia.
      apply Z.pow_lt_mono_r_iff in Q; [|lia..]. cbn [length] in *. lia. }
  intros Ha Hb. pose proof (canonical_nat_digits _ _ Ha) as [Da _]. pose proof (canonical_nat_digits _ _ Hb) as [Db _].
  exact (digits_same_length a b n n (Nat.le_antisymm _ _ (Le a b Ha Hb) (Le b a Hb Ha)) Da Db eq_refl).
Qed.
