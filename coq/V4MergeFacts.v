(* V4MergeFacts.v — the model of the legacy root package's merge.go (ImplV4.v: prune4_t,
   merge4_n, api_merge4) refines the RFC 7396 reference (merge_patch, mm), on the values the
   legacy nodes denote (the legacy Equal is V4EqualFacts.v).  A legacy partialDoc is a bare Go map:
   the model keeps it as an association list with an empty key list, so the abstraction used here
   (aval4) lists the members in the association list's order; the reference's member loop performs
   the same aset/adel steps, hence the refinement is an exact equality on aval4. *)
From Coq Require Import Lia Permutation.
From JP Require Import Bytes Json Text Strings Den ImplV5 ImplMerge ImplV4 Rfc7396 DecodeFacts JsonFacts MergeFacts
  MergeOrder Abs ImplMergeFacts Codec.

Fixpoint aval4 (n : node) : ojson :=
  match n with
  | NNil => ONull
  | NRaw t => den t
  | NDoc _ obj => OObj (map (fun kv => (fst kv, aval4 (snd kv))) obj)
  | NAry ns => OArr (map aval4 ns)
  end.

Definition mem4 (obj : list (bytes * node)) : list (bytes * ojson) :=
  map (fun kv => (fst kv, aval4 (snd kv))) obj.

Lemma aval4_doc keys obj : aval4 (NDoc keys obj) = OObj (mem4 obj).
Proof. reflexivity. Qed.

Lemma mem4_keys obj : map fst (mem4 obj) = map fst obj.
Proof. apply msnd_keys. Qed.

Lemma mem4_aset k v obj : mem4 (aset k v obj) = aset k (aval4 v) (mem4 obj).
Proof. symmetry. apply aset_msnd. Qed.

Lemma mem4_adel k obj : mem4 (adel k obj) = adel k (mem4 obj).
Proof. symmetry. apply adel_msnd. Qed.

Lemma aget_mem4 k obj : aget k (mem4 obj) = option_map aval4 (aget k obj).
Proof. apply aget_msnd. Qed.

Lemma aval4_child t : aval4 (child t) = den t.
Proof. destruct t; reflexivity. Qed.

Fixpoint nwf4 (n : node) : Prop :=
  match n with
  | NNil => True
  | NRaw t => tnodup t = true
  | NDoc ks obj =>
      (* a live map: the key list of a legacy partialDoc is always [] (a non-empty key list tags the
         two null-like nodes raw_null4 / nil_doc4 of ImplV4, which merge.go never makes) *)
      ks = [] /\
      NoDup (map fst obj) /\
      (fix all (m : list (bytes * node)) : Prop :=
         match m with [] => True | kv :: r => nwf4 (snd kv) /\ all r end) obj
  | NAry ns =>
      (fix all (l : list node) : Prop := match l with [] => True | x :: r => nwf4 x /\ all r end) ns
  end.

Definition nodes_wf4 (obj : list (bytes * node)) : Prop := Forall (fun kv => nwf4 (snd kv)) obj.

Lemma nwf4_doc keys obj : nwf4 (NDoc keys obj) <-> keys = [] /\ NoDup (map fst obj) /\ nodes_wf4 obj.
Proof. do 2 apply and_iff_compat_l. apply (all_fix_Forall (fun kv => nwf4 (snd kv))). Qed.

Lemma nwf4_ary ns : nwf4 (NAry ns) <-> Forall nwf4 ns.
Proof. apply all_fix_Forall. Qed.

Arguments nwf4 : simpl never.
Lemma nwf4_nil : nwf4 NNil. Proof. exact I. Qed.
Lemma nwf4_raw t : nwf4 (NRaw t) <-> tnodup t = true. Proof. reflexivity. Qed.

Lemma nwf4_child t : tnodup t = true -> nwf4 (child t).
Proof. destruct t; intro H; try exact I; exact H. Qed.

(* a well-formed legacy node denotes a value without duplicate member names *)
Lemma nwf4_onodup n : nwf4 n -> onodup (aval4 n) = true.
Proof.
  induction n using node_rect'; intro W.
  - reflexivity.
  - exact W.
  - apply nwf4_doc in W as [_ [N F]]. rewrite aval4_doc. apply onodup_obj. split.
    + rewrite mem4_keys. exact N.
    + unfold mem4. rewrite Forall_map. unfold nodes_wf4 in F. rewrite Forall_forall in *.
      intros kv Hin. simpl. apply H; auto.
  - apply nwf4_ary in W. cbn [aval4]. apply onodup_arr. rewrite Forall_map. rewrite Forall_forall in *.
    intros x Hin. apply H; auto.
Qed.

Fixpoint prune4_go (ms : list (bytes * tjson)) (acc : list (bytes * node)) : list (bytes * node) :=
  match ms with
  | [] => acc
  | (k, v) :: r =>
      match v with
      | TNull => prune4_go r (adel (unquote k) acc)
      | _ => prune4_go r (aset (unquote k) (prune4_t v) acc)
      end
  end.

Lemma prune4_t_obj ms : prune4_t (TObj ms) = NDoc [] (prune4_go ms []).
Proof.
  reflexivity.
Qed.

Lemma prune4_t_nonobj t : (forall ms, t <> TObj ms) -> prune4_t t = NRaw t.
Proof. destruct t; auto. intro H. exfalso. eapply H; eauto. Qed.

Lemma prune4_go_cons_nonnull k v r acc :
  v <> TNull -> prune4_go ((k, v) :: r) acc = prune4_go r (aset (unquote k) (prune4_t v) acc).
Proof. intro H. destruct v; try congruence; reflexivity. Qed.

Lemma prune4_go_Forall (P : bytes * node -> Prop) ms : forall acc,
  Forall P acc -> Forall (fun kv => P (unquote (fst kv), prune4_t (snd kv))) ms -> Forall P (prune4_go ms acc).
Proof.
  induction ms as [|[k v] ms IH]; intros acc Ha Hf; [exact Ha|].
  inversion Hf as [|? ? Hv Hr]; subst. cbn [fst snd] in Hv.
  destruct v; cbn [prune4_go]; apply IH; auto using Forall_adel, Forall_aset_key.
Qed.

Lemma prune4_go_spec ms : forall acc,
  NoDup (map fst acc ++ map (fun kv => unquote (fst kv)) ms) -> nodes_wf4 acc ->
  Forall (fun kv => tnodup (snd kv) = true ->
                    aval4 (prune4_t (snd kv)) = merge_patch ONull (den (snd kv)) /\ nwf4 (prune4_t (snd kv))) ms ->
  Forall (fun kv => tnodup (snd kv) = true) ms ->
  mem4 (prune4_go ms acc) = merge_members (den_members ms) (mem4 acc) /\
  NoDup (map fst (prune4_go ms acc)) /\ nodes_wf4 (prune4_go ms acc).
Proof.
  induction ms as [|[k v] ms IH]; intros acc N W H F.
  - simpl. simpl in N. rewrite app_nil_r in N. auto.
  - inversion H as [|? ? Hv Hr]; subst. inversion F as [|? ? Fv Fr]; subst. cbn [fst snd] in *.
    assert (Hk : ~ In (unquote k) (map fst acc)).
    { intro Hin. simpl in N. apply NoDup_remove_2 in N. apply N. apply in_or_app. now left. }
    assert (Hn : aget (unquote k) (mem4 acc) = None) by (apply aget_None_notin; rewrite mem4_keys; exact Hk).
    cbn [den_members map fst snd]. fold (den_members ms). rewrite merge_members_kfold. cbn [kfold].
    rewrite <- merge_members_kfold, Hn.
    destruct (tnull_dec v) as [->|NNv].
    + cbn [prune4_go den merge_lookup kset]. rewrite <- mem4_adel. rewrite !adel_notin by exact Hk.
      apply IH; auto. simpl in N. apply NoDup_remove_1 in N. exact N.
    + rewrite prune4_go_cons_nonnull by exact NNv.
      rewrite merge_lookup_nonnull by (rewrite den_null_iff; exact NNv). cbn [kset MergeFacts.or_null].
      destruct (Hv Fv) as [P1 P2]. rewrite <- P1, <- mem4_aset.
      apply IH; auto.
      * rewrite aset_notin by exact Hk. rewrite map_app. simpl. rewrite <- app_assoc. exact N.
      * apply Forall_aset; auto.
Qed.

Theorem prune4_t_spec t : tnodup t = true -> aval4 (prune4_t t) = merge_patch ONull (den t) /\ nwf4 (prune4_t t).
Proof.
  induction t using tjson_rect'; intro T;
    try (rewrite prune4_t_nonobj by (intros; discriminate); split; [reflexivity | exact T]).
  pose proof (den_obj_nodup ms T) as D. apply tnodup_obj in T as [N F].
  rewrite prune4_t_obj.
  destruct (prune4_go_spec ms [] N (Forall_nil _) H F) as [P1 [P2 P3]].
  split.
  - rewrite aval4_doc, P1, D, merge_patch_obj. reflexivity.
  - apply nwf4_doc. split; [reflexivity | split; auto].
Qed.

Lemma prune4_node_raw v : prune4_node (NRaw v) = prune4_t v.
Proof. reflexivity. Qed.

(* a legacy partialDoc is its Go map; merge4_n's inner loop with rec for the recursive call, named for
   the reason given at ImplMergeFacts.mloop5 *)
Definition mloop4 (rec : node -> tjson -> node) (mm : bool) :=
  fix go (es : list (bytes * tjson)) (obj : list (bytes * node)) :=
  match es with
  | [] => obj
  | (k, v) :: r =>
      match v with
      | TNull => if mm then go r (aset k NNil obj) else go r (adel k obj)
      | _ =>
          match aget k obj with
          | None | Some NNil => go r (aset k (if mm then NRaw v else prune4_node (NRaw v)) obj)
          | Some c => go r (aset k (rec c v) obj)
          end
      end
  end.

Lemma mloop4_fold rec mm es : forall obj,
  mloop4 rec mm es obj = fold_left (mstep (fun d => d) aset adel prune4_t rec mm) es obj.
Proof.
  induction es as [|[k v] es IH]; intro obj; [reflexivity|]. cbn [mloop4 fold_left mstep].
  destruct v; try (destruct mm; apply IH); destruct (aget k obj) as [[]|]; apply IH.
Qed.

Lemma merge4_n_fold f mm cur p :
  merge4_n (S f) mm cur p =
  match into_doc4 cur with
  | None => prune4_t p
  | Some d =>
      match p with
      | TObj pms => NDoc [] (fold_left (mstep (fun d => d) aset adel prune4_t (merge4_n f mm) mm) (patch_entries pms) d)
      | _ => NRaw p
      end
  end.
Proof.
  change (merge4_n (S f) mm cur p) with
    (match into_doc4 cur with
     | None => prune4_t p
     | Some obj => match p with TObj pms => NDoc [] (mloop4 (merge4_n f mm) mm (patch_entries pms) obj) | _ => NRaw p end
     end).
  destruct (into_doc4 cur) as [obj|]; [|reflexivity]. destruct p; try reflexivity. now rewrite mloop4_fold.
Qed.

Definition ok4 (obj : list (bytes * node)) : Prop := NoDup (map fst obj).

Lemma obj_of_nodup ms :
  NoDup (map (fun kv => unquote (fst kv)) ms) ->
  obj_of ms = map (fun kv => (unquote (fst kv), child (snd kv))) ms.
Proof. intro N. unfold obj_of. rewrite build_obj_nodup; auto. Qed.

Lemma parsed_obj4 ms :
  tnodup (TObj ms) = true ->
  den (TObj ms) = OObj (mem4 (obj_of ms)) /\ NoDup (map fst (obj_of ms)) /\ nodes_wf4 (obj_of ms).
Proof.
  intro T. pose proof (den_obj_nodup ms T) as D. apply tnodup_obj in T as [N F].
  rewrite obj_of_nodup by exact N. split; [|split].
  - rewrite D. f_equal. unfold mem4, den_members. rewrite map_map. apply map_ext. intros [k v]. simpl.
    now rewrite aval4_child.
  - rewrite map_map. exact N.
  - unfold nodes_wf4. rewrite Forall_map. rewrite Forall_forall in *. intros [k v] Hin. simpl.
    apply nwf4_child. apply (F _ Hin).
Qed.

Lemma into_doc4_spec cur : nwf4 cur ->
  match into_doc4 cur with
  | Some obj => aval4 cur = OObj (mem4 obj) /\ good (fun d => d) nwf4 ok4 obj
  | None => is_obj (aval4 cur) = false
  end.
Proof.
  intro W. destruct cur as [|t|keys obj|ns]; simpl into_doc4; try reflexivity.
  - destruct t; try reflexivity. apply nwf4_raw in W. exact (parsed_obj4 ms W).
  - apply nwf4_doc in W as [_ W]. split; [apply aval4_doc | exact W].
Qed.

Lemma wrap4_ok obj : good (fun d => d) nwf4 ok4 obj -> aval4 (NDoc [] obj) = OObj (mem4 obj) /\ nwf4 (NDoc [] obj).
Proof. intro G. split; [reflexivity | apply nwf4_doc; split; [reflexivity | exact G]]. Qed.

(* C19 (MergePatch): the legacy merge(cur, patch) computes RFC 7396's MergePatch on the values, at
   every depth; members in the order of the association list, which is the reference's order *)
Theorem merge4_n_spec : forall fuel p cur,
  (tsize p < fuel)%nat -> tnodup p = true -> nwf4 cur ->
  aval4 (merge4_n fuel false cur p) = merge_patch (aval4 cur) (den p) /\ nwf4 (merge4_n fuel false cur p).
Proof.
  apply (gmerge_spec _ (fun d => d) aset adel prune4_t aval4 nwf4 mem4 ok4) with (into := into_doc4) (wrap := NDoc []);
    auto using aget_mem4, nwf4_raw, prune4_t_spec, merge4_n_fold, prune4_t_nonobj, wrap4_ok.
  - intros k v d N. split; [apply mem4_aset | apply NoDup_keys_aset, N].
  - intros k d N. split; [apply mem4_adel | apply NoDup_keys_adel, N].
  - exact into_doc4_spec.
Qed.

(* merge4_n_spec read up to member order (jeq): reflexivity of jeq on the value of a node that satisfies nwf4 *)
Corollary merge4_n_jeq fuel p cur :
  (tsize p < fuel)%nat -> tnodup p = true -> nwf4 cur ->
  jeq (aval4 (merge4_n fuel false cur p)) (merge_patch (aval4 cur) (den p)) = true.
Proof.
  intros Hf Tp Wc. destruct (merge4_n_spec fuel p cur Hf Tp Wc) as [E W].
  rewrite <- E. apply jeq_refl. apply nwf4_onodup. exact W.
Qed.

(* ---- the mergeMerge mode (MergeMergePatches) refines mm, for compatible patches ---- *)
Lemma into_doc4_clean cur obj : nwf4 cur -> nclean cur = true -> into_doc4 cur = Some obj -> nodes_clean obj.
Proof.
  intros W C. destruct cur as [|t|ks ob|ns]; simpl; try discriminate.
  - destruct t; try discriminate. apply nwf4_raw in W. apply tnodup_obj in W as [N _].
    rewrite obj_of_nodup by exact N. intro H; inversion H; subst.
    unfold nodes_clean. rewrite Forall_map. apply Forall_forall. intros; apply nclean_child.
  - intro H; inversion H; subst. apply (proj1 (nclean_doc ks obj)). exact C.
Qed.

Lemma aval4_clean_nonnull c : nclean c = true -> c <> NNil -> aval4 c <> ONull.
Proof.
  destruct c as [|t|ks ob|ns]; simpl; try congruence; try discriminate.
  destruct t; simpl; try discriminate; congruence.
Qed.

Theorem merge4_n_mm_spec : forall fuel p cur,
  (tsize p < fuel)%nat -> tnodup p = true -> p <> TNull -> nwf4 cur -> nclean cur = true ->
  (is_obj (den p) = true -> compatible (aval4 cur) (den p) = true) ->
  aval4 (merge4_n fuel true cur p) = mm (aval4 cur) (den p) /\ nwf4 (merge4_n fuel true cur p) /\
  nclean (merge4_n fuel true cur p) = true.
Proof.
  apply (gmerge_mm_spec _ (fun d => d) aset adel prune4_t aval4 nwf4 mem4 ok4) with (into := into_doc4) (wrap := NDoc []);
    auto using aget_mem4, nwf4_raw, aval4_clean_nonnull, merge4_n_fold, prune4_t_nonobj, wrap4_ok.
  - intros k v d N. split; [apply mem4_aset | apply NoDup_keys_aset, N].
  - exact I.
  - exact into_doc4_spec.
  - exact into_doc4_clean.
  - intros d C. apply nclean_doc, C.
Qed.

(* ---- what marshal4 writes: the rendered tree denotes the node's value, up to member order ---- *)
Definition sort4 {A} (l : list (bytes * A)) : list (bytes * A) :=
  fold_left (fun acc kv => insert_sorted kv acc) l [].

Lemma render4_doc obj :
  render4 (NDoc [] obj) =
  TObj (map (fun kv => (quote true (fst kv), snd kv)) (sort4 (map (fun kv => (fst kv, render4 (snd kv))) obj))).
Proof. reflexivity. Qed.

Lemma aget_insert_sorted {A} k (kv : bytes * A) l :
  aget k (insert_sorted kv l) = if bseq k (fst kv) then Some (snd kv) else aget k l.
Proof.
  destruct kv as [k0 v0]. cbn [fst snd].
  induction l as [|[k' v'] l IH]; [reflexivity|]. cbn [insert_sorted fst snd].
  destruct (bytes_ltb k0 k'); [reflexivity|].
  destruct (bseq k0 k') eqn:E.
  - apply bseq_eq in E. subst k'. cbn [aget]. destruct (bseq k k0); reflexivity.
  - cbn [aget]. rewrite IH. destruct (bseq k k') eqn:E1, (bseq k k0) eqn:E2; try reflexivity.
    apply bseq_eq in E1, E2. subst. rewrite bseq_refl in E. discriminate.
Qed.

Lemma In_keys_insert_sorted {A} k (kv : bytes * A) l :
  In k (map fst (insert_sorted kv l)) <-> k = fst kv \/ In k (map fst l).
Proof.
  rewrite !In_keys_aget, aget_insert_sorted. destruct (bseq k (fst kv)) eqn:E.
  - apply bseq_eq in E. split; [auto | intros _; discriminate].
  - apply bseq_neq in E. split; [auto | intros [H|H]; [contradiction | exact H]].
Qed.

Lemma NoDup_app_split {A} (l m : list A) :
  NoDup (l ++ m) -> NoDup l /\ NoDup m /\ (forall x, In x l -> In x m -> False).
Proof.
  induction l as [|a l IH]; simpl; intro N.
  - split; [constructor | split; [exact N | intros x []]].
  - inversion N as [|? ? N1 N2]; subst. destruct (IH N2) as [I1 [I2 I3]]. split; [|split; auto].
    + constructor; auto. intro H. apply N1. apply in_or_app. now left.
    + intros x [->|H] Hm; [apply N1; apply in_or_app; now right | eapply I3; eauto].
Qed.

Lemma insert_sorted_perm {A} (kv : bytes * A) l :
  ~ In (fst kv) (map fst l) -> Permutation (insert_sorted kv l) (kv :: l).
Proof.
  induction l as [|kv' r IH]; intro N; cbn [insert_sorted]; [apply Permutation_refl|].
  destruct (bytes_ltb (fst kv) (fst kv')); [apply Permutation_refl|].
  destruct (bseq (fst kv) (fst kv')) eqn:E.
  - apply bseq_eq in E. exfalso. apply N. left. symmetry. exact E.
  - eapply perm_trans; [apply perm_skip, IH | apply perm_swap]. intro Hin. apply N. now right.
Qed.

Lemma sort4_go_perm {A} (l : list (bytes * A)) : forall acc,
  NoDup (map fst (l ++ acc)) -> Permutation (fold_left (fun a kv => insert_sorted kv a) l acc) (l ++ acc).
Proof.
  induction l as [|kv l IH]; intros acc N; [apply Permutation_refl|]. cbn [fold_left app].
  assert (P : Permutation (l ++ insert_sorted kv acc) (kv :: l ++ acc)).
  { eapply perm_trans; [apply Permutation_app_head, insert_sorted_perm | apply Permutation_sym, Permutation_middle].
    cbn [app map] in N. apply NoDup_cons_iff in N as [N _]. intro H. apply N. rewrite map_app. apply in_or_app. now right. }
  eapply perm_trans; [apply IH | exact P].
  eapply Permutation_NoDup; [apply Permutation_map, Permutation_sym, P | exact N].
Qed.

Lemma sort4_perm {A} (l : list (bytes * A)) : NoDup (map fst l) -> Permutation (sort4 l) l.
Proof. intro N. rewrite <- (app_nil_r l) at 2. apply sort4_go_perm. rewrite app_nil_r. exact N. Qed.

Lemma sort4_spec {A} (l : list (bytes * A)) :
  NoDup (map fst l) -> NoDup (map fst (sort4 l)) /\ forall k, aget k (sort4 l) = aget k l.
Proof.
  intro N. pose proof (Permutation_sym (sort4_perm l N)) as P. split.
  - eapply Permutation_NoDup; [apply Permutation_map, P | exact N].
  - intro k. symmetry. apply aget_perm; assumption.
Qed.

(* the members of the object text the encoder writes for a Go map (names sorted, then quoted; f writes
   a member's value), names decoded back and values read by g, are those of the map *)
Lemma sorted_members {A B} (f : A -> tjson) (g : tjson -> B) (ms : list (bytes * A)) :
  NoDup (map fst ms) -> Forall (fun kv => utf8 (fst kv)) ms ->
  let D := map (fun kv => (unquote (fst kv), g (snd kv)))
             (map (fun kv => (quote true (fst kv), snd kv)) (sort4 (map (fun kv => (fst kv, f (snd kv))) ms))) in
  NoDup (map fst D) /\ forall k, aget k D = option_map (fun v => g (f v)) (aget k ms).
Proof.
  intros N K D. set (R := map (fun kv => (fst kv, f (snd kv))) ms) in D.
  assert (NR : NoDup (map fst R)) by (unfold R; rewrite map_map; exact N).
  destruct (sort4_spec R NR) as [S1 S2].
  assert (E : D = map (fun kv => (fst kv, g (snd kv))) (sort4 R)).
  { unfold D. rewrite map_map. apply map_ext_in. intros kv Hin. cbn [fst snd]. f_equal.
    apply (Permutation_in _ (sort4_perm R NR)), in_map_iff in Hin as [kv0 [<- Hin]].
    rewrite Forall_forall in K. apply unquote_quote, K, Hin. }
  rewrite E. split.
  - rewrite map_map. exact S1.
  - intro k. rewrite aget_map_snd, S2. unfold R. rewrite aget_map_snd. destruct (aget k ms); reflexivity.
Qed.

(* so that text decodes to the map, members reordered, if f's texts decode to the members' values (h) *)
Lemma den_sorted_obj {A} (f : A -> tjson) (h : A -> ojson) (ms : list (bytes * A)) M :
  NoDup (map fst ms) -> (forall k, In k (map fst ms) -> utf8 k) ->
  NoDup (map fst M) -> (forall k, aget k M = option_map h (aget k ms)) ->
  (forall k v, In (k, v) ms -> onodup (den (f v)) = true /\ jeq (den (f v)) (h v) = true) ->
  let t := TObj (map (fun kv => (quote true (fst kv), snd kv)) (sort4 (map (fun kv => (fst kv, f (snd kv))) ms))) in
  onodup (den t) = true /\ jeq (den t) (OObj M) = true.
Proof.
  intros N Ku NM GM H.
  destruct (sorted_members f den ms N) as [ND GD]; [apply Forall_forall; intros kv Hin; apply Ku, in_map, Hin|].
  cbv zeta. cbn [den]. rewrite resolve_dups_nodup by exact ND. set (D := map _ (map _ (sort4 _))) in *. split.
  - apply onodup_obj. split; [exact ND|]. apply Forall_forall. intros [k x] Hin. cbn [snd].
    apply (In_aget_nodup k x D ND) in Hin. rewrite GD in Hin.
    destruct (aget k ms) as [v|] eqn:G; [|discriminate]. injection Hin as <-. apply aget_In in G. apply (H _ _ G).
  - apply jeq_obj_char; auto. intro k. rewrite GD, GM.
    destruct (aget k ms) as [v|] eqn:G; [|exact I]. apply aget_In in G. apply (H _ _ G).
Qed.

(* member names are valid UTF-8 (they are decoded from well-formed string bodies); raw texts have
   well-formed string bodies *)
Fixpoint nku (n : node) : Prop :=
  match n with
  | NNil => True
  | NRaw t => tsb t
  | NDoc _ obj =>
      (fix all (m : list (bytes * node)) : Prop :=
         match m with [] => True | kv :: r => (utf8 (fst kv) /\ nku (snd kv)) /\ all r end) obj
  | NAry ns =>
      (fix all (l : list node) : Prop := match l with [] => True | x :: r => nku x /\ all r end) ns
  end.

Definition nodes_ku (obj : list (bytes * node)) : Prop := Forall (fun kv => utf8 (fst kv) /\ nku (snd kv)) obj.

Lemma nku_doc keys obj : nku (NDoc keys obj) <-> nodes_ku obj.
Proof. apply (all_fix_Forall (fun kv => utf8 (fst kv) /\ nku (snd kv))). Qed.

Lemma nku_ary ns : nku (NAry ns) <-> Forall nku ns.
Proof. apply all_fix_Forall. Qed.
Arguments nku : simpl never.

Lemma jeq_list_refl_on (f g : node -> ojson) ns :
  Forall (fun x => jeq (f x) (g x) = true) ns -> jeq_list (map f ns) (map g ns) = true.
Proof. induction 1; simpl; auto. rewrite H. exact IHForall. Qed.

(* the tree marshal4 prints denotes the value of the node, members reordered (sorted by name): for
   any invariant inv of nodes under which raw parts repeat no name, a partialDoc is a live map with
   distinct, valid UTF-8 names, and the parts satisfy inv again *)
Lemma render4_den_inv (inv : node -> Prop) :
  (forall t, inv (NRaw t) -> tnodup t = true) ->
  (forall ks obj, inv (NDoc ks obj) ->
     ks = [] /\ NoDup (map fst obj) /\ Forall (fun kv => utf8 (fst kv) /\ inv (snd kv)) obj) ->
  (forall ns, inv (NAry ns) -> Forall inv ns) ->
  forall n, inv n -> onodup (den (render4 n)) = true /\ jeq (den (render4 n)) (aval4 n) = true.
Proof.
  intros Hraw Hdoc Hary. induction n using node_rect'; intro G.
  - split; reflexivity.
  - apply Hraw in G. cbn [render4 aval4]. split; [exact G | apply jeq_refl; exact G].
  - apply Hdoc in G as [-> [N K]]. rewrite Forall_forall in H, K. rewrite render4_doc, aval4_doc.
    apply (den_sorted_obj render4 aval4 obj (mem4 obj) N).
    + intros k Hin. apply in_map_iff in Hin as [kv [<- Hin]]. apply (K _ Hin).
    + rewrite mem4_keys. exact N.
    + intro k. apply aget_mem4.
    + intros k v Hin. apply (H _ Hin), (K _ Hin).
  - apply Hary in G. rewrite Forall_forall in H, G. cbn [render4 aval4 den]. rewrite map_map. split.
    + apply onodup_arr. rewrite Forall_map. apply Forall_forall. intros x Hin. apply (H x Hin); auto.
    + rewrite jeq_arr. apply jeq_list_refl_on. apply Forall_forall. intros x Hin. apply (H x Hin); auto.
Qed.

Theorem render4_den n : nwf4 n -> nku n ->
  onodup (den (render4 n)) = true /\ jeq (den (render4 n)) (aval4 n) = true.
Proof.
  intros W K. apply (render4_den_inv (fun n => nwf4 n /\ nku n)); [| | |exact (conj W K)].
  - intros t [T _]. exact T.
  - intros ks obj [Wd Kd]. apply nwf4_doc in Wd as [E [N Wo]]. apply nku_doc in Kd.
    split; [exact E | split; [exact N|]]. unfold nodes_wf4, nodes_ku in *. rewrite Forall_forall in *.
    intros kv Hin. destruct (Kd _ Hin). auto.
  - intros ns [Wa Ka]. apply nwf4_ary in Wa. apply nku_ary in Ka. rewrite Forall_forall in *. auto.
Qed.

(* ---- the invariant nku is kept by parsing, pruneNulls and merge ---- *)
Lemma utf8_unquote k : sbody k -> utf8 (unquote k).
Proof. exact (sbody_unquote_utf8 k). Qed.

Lemma nku_child t : tsb t -> nku (child t).
Proof. destruct t; intro H; try exact I; exact H. Qed.

Lemma build_obj_ku ms : forall acc,
  Forall (fun kv => sbody (fst kv) /\ tsb (snd kv)) ms -> nodes_ku acc -> nodes_ku (build_obj ms acc).
Proof.
  intros acc F Ha. rewrite build_obj_with. apply build_with_Forall; [exact Ha|].
  revert F. apply Forall_impl. intros kv [F1 F2]. split; [apply utf8_unquote, F1 | apply nku_child, F2].
Qed.

Lemma into_doc4_ku cur obj : nku cur -> into_doc4 cur = Some obj -> nodes_ku obj.
Proof.
  intros K. destruct cur as [|t|ks ob|ns]; simpl; try discriminate.
  - destruct t; try discriminate. intro H; inversion H; subst. unfold obj_of.
    apply build_obj_ku; [apply tsb_obj; exact K | constructor].
  - intro H; inversion H; subst. apply nku_doc in K. exact K.
Qed.

Lemma prune4_go_ku ms : forall acc,
  Forall (fun kv => tsb (snd kv) -> nku (prune4_t (snd kv))) ms ->
  Forall (fun kv => sbody (fst kv) /\ tsb (snd kv)) ms -> nodes_ku acc -> nodes_ku (prune4_go ms acc).
Proof.
  intros acc H F Ha. apply prune4_go_Forall; [exact Ha|]. rewrite Forall_forall in *. intros kv Hin.
  destruct (F kv Hin) as [F1 F2]. split; [apply utf8_unquote, F1 | apply (H kv Hin), F2].
Qed.

Lemma prune4_t_ku t : tsb t -> nku (prune4_t t).
Proof.
  induction t using tjson_rect'; intro S; try exact S.
  rewrite prune4_t_obj. apply nku_doc. apply prune4_go_ku; auto; [apply tsb_obj; exact S | constructor].
Qed.

Lemma patch_entries_ku pms :
  Forall (fun kv => sbody (fst kv) /\ tsb (snd kv)) pms ->
  Forall (fun kv => utf8 (fst kv) /\ tsb (snd kv)) (patch_entries pms).
Proof.
  intro F. rewrite patch_entries_with. apply build_with_Forall; [constructor|].
  revert F. apply Forall_impl. intros kv [F1 F2]. split; [apply utf8_unquote, F1 | exact F2].
Qed.

Lemma merge4_n_ku : forall fuel mm p cur, tsb p -> nku cur -> nku (merge4_n fuel mm cur p).
Proof.
  induction fuel as [|f IH]; intros mm p cur Sp Kc; [exact Sp|].
  rewrite merge4_n_fold. destruct (into_doc4 cur) as [obj|] eqn:Ei; [|apply prune4_t_ku, Sp].
  destruct p; try exact Sp. apply nku_doc.
  apply (mloop_Forall _ (fun d => d) aset adel prune4_t (fun _ _ _ => eq_refl) (fun _ _ => eq_refl));
    [eapply into_doc4_ku; eauto|].
  intros k v Hin. pose proof (patch_entries_ku ms (proj1 (tsb_obj ms) Sp)) as F.
  rewrite Forall_forall in F. destruct (F _ Hin) as [Uk Sv]. cbn [fst snd] in Uk, Sv.
  repeat split; try exact Uk; [destruct mm; [exact Sv | apply prune4_t_ku, Sv] | apply IH; [exact Sv | apply H]].
Qed.

(* ---- the exported functions, on bytes ---- *)
Lemma marshal4_raw t : marshal4 (NRaw t) = print true t.
Proof. reflexivity. Qed.

(* the node the legacy MergePatch / MergeMergePatches encode *)
Definition merge4_node (mm : bool) (td tp : tjson) : node :=
  match tp with
  | TObj pms =>
      match td with
      | TObj _ => merge4_n (S (tsize tp)) mm (NRaw td) tp
      | _ => if mm then NDoc [] (obj_of pms) else prune4_node (NRaw tp)
      end
  | _ => NRaw tp
  end.

Lemma api_merge4_node mm doc patch td tp :
  parse doc = Some td -> parse patch = Some tp -> td <> TNull -> scalar_text tp = false ->
  api_merge4 mm doc patch = MOut (marshal4 (merge4_node mm td tp)).
Proof.
  intros Pd Pp NN Sc. unfold api_merge4. rewrite Pd, Pp.
  destruct tp; try discriminate Sc; destruct td; try congruence; try reflexivity; destruct mm; reflexivity.
Qed.

Lemma merge4_node_merge td pms :
  merge4_node false td (TObj pms) = merge4_n (S (tsize (TObj pms))) false (NRaw td) (TObj pms).
Proof. destruct td; reflexivity. Qed.

Lemma merge4_node_spec td tp :
  td <> TNull -> tnodup td = true -> tnodup tp = true -> scalar_text tp = false ->
  nwf4 (merge4_node false td tp) /\ aval4 (merge4_node false td tp) = merge_patch (den td) (den tp).
Proof.
  intros _ Td Tp Sc. destruct tp; try discriminate Sc; [split; [exact Tp | reflexivity]|].
  rewrite merge4_node_merge. destruct (merge4_n_spec (S (tsize (TObj ms))) (TObj ms) (NRaw td)) as [S1 S2]; [lia | exact Tp | exact Td|].
  split; [exact S2 | exact S1].
Qed.

Lemma merge4_node_mm_spec ms1 t2 :
  tnodup (TObj ms1) = true -> tnodup t2 = true -> compatible (den (TObj ms1)) (den t2) = true -> scalar_text t2 = false ->
  nwf4 (merge4_node true (TObj ms1) t2) /\ aval4 (merge4_node true (TObj ms1) t2) = mm (den (TObj ms1)) (den t2).
Proof.
  intros T1 T2 C Sc. unfold merge4_node. destruct t2; try discriminate Sc.
  - split; [exact T2 | reflexivity].
  - assert (G : aval4 (merge4_n (S (tsize (TObj ms))) true (NRaw (TObj ms1)) (TObj ms)) = mm (aval4 (NRaw (TObj ms1))) (den (TObj ms)) /\
                nwf4 (merge4_n (S (tsize (TObj ms))) true (NRaw (TObj ms1)) (TObj ms)) /\
                nclean (merge4_n (S (tsize (TObj ms))) true (NRaw (TObj ms1)) (TObj ms)) = true)
      by (apply merge4_n_mm_spec; auto; try lia; try discriminate).
    destruct G as [G1 [G2 _]]. split; [exact G2 | exact G1].
Qed.

Lemma merge4_node_ku mm td tp : tsb td -> tsb tp -> nku (merge4_node mm td tp).
Proof.
  intros Sd Sp. unfold merge4_node. destruct tp; try exact Sp.
  destruct td; try (destruct mm; [apply nku_doc, build_obj_ku; [apply tsb_obj, Sp | constructor]
                               | rewrite prune4_node_raw; apply prune4_t_ku, Sp]).
  apply merge4_n_ku; assumption.
Qed.

(* legacy MergePatch: a scalar patch is rejected (the legacy package has no verbatim-patch rule);
   for an object or array patch and a non-null document the result is the encoding (marshal4:
   member names sorted, HTML-escaped) of a node whose value is RFC 7396's MergePatch(document, patch) *)
Theorem api_merge4_spec doc patch td tp :
  parse doc = Some td -> parse patch = Some tp -> td <> TNull -> tnodup td = true -> tnodup tp = true ->
  (scalar_text tp = true /\ api_merge4 false doc patch = MErr MBadPatch) \/
  (scalar_text tp = false /\ exists n, api_merge4 false doc patch = MOut (marshal4 n) /\ nwf4 n /\
                                       aval4 n = merge_patch (den td) (den tp)).
Proof.
  intros Pd Pp NNd Td Tp. destruct (scalar_text tp) eqn:Sc; [left | right]; (split; [reflexivity|]).
  - unfold api_merge4. rewrite Pd, Pp. destruct td; try congruence; destruct tp; try discriminate Sc; reflexivity.
  - exists (merge4_node false td tp). split; [apply api_merge4_node; assumption | apply merge4_node_spec; assumption].
Qed.

Theorem api_merge4_null_rejected mm doc patch td tp :
  parse doc = Some td -> parse patch = Some tp ->
  (td = TNull -> api_merge4 mm doc patch = MErr MBadDoc) /\
  (td <> TNull -> tp = TNull -> api_merge4 mm doc patch = MErr MBadPatch).
Proof.
  intros Pd Pp. unfold api_merge4. rewrite Pd, Pp. split.
  - intros ->. reflexivity.
  - intros NN ->. destruct td; congruence.
Qed.

(* legacy MergeMergePatches on an object P1: a scalar P2 is rejected, otherwise the encoding of a
   node whose value is mm P1 P2 — the combined patch of the composition law *)
Theorem api_mergemerge4_spec p1 p2 ms1 t2 :
  parse p1 = Some (TObj ms1) -> parse p2 = Some t2 -> tnodup (TObj ms1) = true -> tnodup t2 = true ->
  compatible (den (TObj ms1)) (den t2) = true ->
  (scalar_text t2 = true /\ api_merge4 true p1 p2 = MErr MBadPatch) \/
  (scalar_text t2 = false /\ exists n, api_merge4 true p1 p2 = MOut (marshal4 n) /\ nwf4 n /\
                                       aval4 n = mm (den (TObj ms1)) (den t2)).
Proof.
  intros P1 P2 T1 T2 C. destruct (scalar_text t2) eqn:Sc; [left | right]; (split; [reflexivity|]).
  - unfold api_merge4. rewrite P1, P2. destruct t2; try discriminate Sc; reflexivity.
  - exists (merge4_node true (TObj ms1) t2).
    split; [apply api_merge4_node; auto; discriminate | apply merge4_node_mm_spec; assumption].
Qed.

(* together with the reference's composition law: applying the legacy combined patch equals
   applying the two patches in turn (on values, up to member order) *)
Corollary api_mergemerge4_composes p1 p2 ms1 t2 d :
  parse p1 = Some (TObj ms1) -> parse p2 = Some t2 -> tnodup (TObj ms1) = true -> tnodup t2 = true ->
  compatible (den (TObj ms1)) (den t2) = true -> scalar_text t2 = false -> onodup d = true ->
  exists n, api_merge4 true p1 p2 = MOut (marshal4 n) /\
            jeq (merge_patch d (aval4 n)) (merge_patch (merge_patch d (den (TObj ms1))) (den t2)) = true.
Proof.
  intros P1 P2 T1 T2 C Sc Nd.
  destruct (api_mergemerge4_spec p1 p2 ms1 t2 P1 P2 T1 T2 C) as [[S _]|[_ [n [E [W A]]]]]; [congruence|].
  exists n. split; [exact E|]. rewrite A. apply compose_law; auto.
Qed.

(* the legacy MergePatch output is the (HTML-escaping) print of a tree that denotes RFC 7396's
   MergePatch(document, patch), up to the order of members *)
Theorem api_merge4_output doc patch td tp :
  parse doc = Some td -> parse patch = Some tp -> td <> TNull -> tnodup td = true -> tnodup tp = true ->
  tsb td -> tsb tp -> scalar_text tp = false ->
  exists t, api_merge4 false doc patch = MOut (print true t) /\
            onodup (den t) = true /\ jeq (den t) (merge_patch (den td) (den tp)) = true.
Proof.
  intros Pd Pp NNd Td Tp Sd Sp Sc. destruct (merge4_node_spec td tp NNd Td Tp Sc) as [W A].
  exists (render4 (merge4_node false td tp)). split; [apply api_merge4_node; assumption|].
  rewrite <- A. apply render4_den; [exact W | apply merge4_node_ku; assumption].
Qed.

Theorem api_mergemerge4_output p1 p2 ms1 t2 :
  parse p1 = Some (TObj ms1) -> parse p2 = Some t2 -> tnodup (TObj ms1) = true -> tnodup t2 = true ->
  tsb (TObj ms1) -> tsb t2 -> compatible (den (TObj ms1)) (den t2) = true -> scalar_text t2 = false ->
  exists t, api_merge4 true p1 p2 = MOut (print true t) /\
            onodup (den t) = true /\ jeq (den t) (mm (den (TObj ms1)) (den t2)) = true.
Proof.
  intros P1 P2 T1 T2 S1 S2 C Sc. destruct (merge4_node_mm_spec ms1 t2 T1 T2 C Sc) as [W A].
  exists (render4 (merge4_node true (TObj ms1) t2)). split; [apply api_merge4_node; auto; discriminate|].
  rewrite <- A. apply render4_den; [exact W | apply merge4_node_ku; assumption].
Qed.
