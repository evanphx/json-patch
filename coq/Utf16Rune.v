(* Utf16Rune.v -- hand-written MODELS of the standard-library functions and constants that
   unquoteBytes / getu4 (v5/internal/json/decode.go) call, next to Utf8Rune.decode_rune.  No proofs here.

   These functions are MODELLED, NOT TRANSLATED from their Go source.  gen/UnquoteGen.v (written by
   tools/gounquote2v) calls the functions where the Go code calls the library; the constants appear
   there as literal numbers (128, 65533), and rune_self / utf_max / replacement_char below only
   record them:

     utf8.RuneSelf = 128, utf8.UTFMax = 4, utf8.RuneError = unicode.ReplacementChar = 65533
     utf16.IsSurrogate(r)      is_surrogate_z r      0xd800 <= r < 0xe000
     utf16.DecodeRune(r1, r2)  decode_pair r1 r2     0x10000 + (r1-0xd800)*1024 + (r2-0xdc00) for a high
                                                     surrogate r1 followed by a low surrogate r2, else U+FFFD
     utf8.EncodeRune(p, r)     encode_rune_z r       the bytes written: Strings.encode_rune for a scalar
                                                     value (0 <= r < 0x110000, not a surrogate), else ef bf bd
                               encode_at b w r       utf8.EncodeRune(b[w:], r) on the buffer b: None is the
                                                     PANIC of the bounds checks of EncodeRune (p[0] = ... ,
                                                     _ = p[1], _ = p[2], _ = p[3]: fewer bytes than the
                                                     encoding needs remain in p); otherwise the buffer with
                                                     the encoding stored at w and the number of bytes written.
                                                     (the slice expression b[w:] itself is guarded by the
                                                     translator before encode_at is called)
   Runes are Go int32 values read as Coq integers; a negative rune is encoded as U+FFFD (Go converts to
   uint32 first).

   Compared once (2026-09-28, go1.23.5, by vm_compute on a generated scratch file, see
   tools/gounquote2v/gridcheck/main.go: 5199 runes, 1600 pairs) with utf8.EncodeRune, utf16.IsSurrogate and utf16.DecodeRune:
     EncodeRune / IsSurrogate on -5..300, on +-3 around every power of two up to 2^31 and around 0x7f 0x80
       0x7ff 0x800 0xd7ff 0xd800 0xdbff 0xdc00 0xdfff 0xe000 0xfffd 0xffff 0x10000 0x10ffff 0x110000
       0x7fffffff, on every 251st value up to 0x120000, and on min int32;
     EncodeRune into a slice that is 0..4 bytes long for one rune of every encoded length and for a
       surrogate (the panic or not, the bytes before and after the written ones unchanged);
     DecodeRune on all pairs of a grid of 40 values around the surrogate boundaries, -1 and others:
   equal on all of them.  That comparison is evidence, not proof: these definitions are trusted to be
   what the Go functions compute. *)
From JP Require Import Bytes Strings Utf8Rune.
Local Open Scope Z_scope.

Definition rune_self : Z := 128.            (* utf8.RuneSelf *)
Definition utf_max : Z := 4.                (* utf8.UTFMax *)
Definition replacement_char : Z := 65533.   (* unicode.ReplacementChar; utf8.RuneError is Utf8Rune.rune_error *)

Definition is_surrogate_z (r : Z) : bool := (55296 <=? r) && (r <? 57344).

Definition decode_pair (r1 r2 : Z) : Z :=
  if (55296 <=? r1) && (r1 <? 56320) && (56320 <=? r2) && (r2 <? 57344)
  then 65536 + (r1 - 55296) * 1024 + (r2 - 56320)
  else 65533.

Definition encode_rune_z (r : Z) : bytes :=
  if (0 <=? r) && (r <? 1114112) && negb (is_surrogate_z r) then encode_rune (Z.to_N r) else replacement.

(* utf8.EncodeRune(b[w:], r) *)
Definition encode_at (b : bytes) (w r : Z) : option (bytes * Z) :=
  let e := encode_rune_z r in
  let n := Z.of_nat (length e) in
  if w + n <=? Z.of_nat (length b)
  then Some (firstn (Z.to_nat w) b ++ e ++ skipn (Z.to_nat (w + n)) b, n)
  else None.

Example utf16rune_examples :
  encode_rune_z 65 = [x41] /\ encode_rune_z 233 = [xc3; xa9] /\ encode_rune_z 8364 = [xe2; x82; xac] /\
  encode_rune_z 128512 = [xf0; x9f; x98; x80] /\ encode_rune_z 55296 = [xef; xbf; xbd] /\
  encode_rune_z (-1) = [xef; xbf; xbd] /\ encode_rune_z 1114112 = [xef; xbf; xbd] /\
  is_surrogate_z 55295 = false /\ is_surrogate_z 55296 = true /\ is_surrogate_z 57343 = true /\
  is_surrogate_z 57344 = false /\
  decode_pair 55357 56832 = 128512 /\ decode_pair 55357 (-1) = 65533 /\ decode_pair 56320 56320 = 65533 /\
  decode_pair 56319 57343 = 1114111 /\ decode_pair 55296 57344 = 65533 /\
  encode_at [x01; x02; x03; x04] 1 233 = Some ([x01; xc3; xa9; x04], 2) /\
  encode_at [x01; x02; x03; x04] 3 233 = None /\ encode_at [x01] 1 65 = None.
Proof. vm_compute. repeat split. Qed.
