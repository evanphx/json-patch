(* SizeFacts.v — C12: the number a copy adds to the running total is the length of a spelling that
   occurs in the output.  The theorems are existential: a copy step that succeeds has a value v and
   the pair (cp, sz) deepCopy returns for it; the total grows by sz, cp is spelled like v, that
   spelling is a contiguous part of the compact output and, v not being null, sz is its length.
   That v is the value the `from` pointer designates is not part of these statements.

   1  escaping is idempotent: print esc (escape_tree esc t) = print esc t, hence the raw node a copy
      stores (NRaw (escape_tree esc (render esc v))) is printed, under the same escape setting, exactly
      as the source value: deep_copy_spelling, deep_copy_counts_spelling.
   2  what a copied null counts: deep_copy_null_* .
   3  the compact text of a tree contains the compact text of every member / element value, and so of
      every descendant, as a contiguous substring (infix): print_child, print_desc; on nodes:
      subnode cp root -> infix (print esc (render esc cp)) (print esc (render esc root))
      (subnode_output).  One copy: the node deepCopy made is in the tree the operation leaves behind
      (copy_step_in_tree), so its spelling is a contiguous part of the compact output of that tree and
      its length is what was added to the total (copy_step_spelling, copy_last_output).
      Hypothesis: no reference token of the destination path before the last one is empty; it cannot
      be dropped (copy_empty_token_counts_but_is_lost: the node for the empty token is handed out
      fresh on every get, what is added to it is not kept, yet the copy was counted). *)
From Coq Require Import Lia.
From JP Require Import Bytes Json Text Strings Den Pointer ImplV5 DecodeFacts JsonFacts Abs ImplFacts ApplyFacts
                       StrInv PrintParse Totality OutputFacts Scan ScanFacts.
From JP Require Codec CauseFacts.

(* ================================================================================================ *)
(* 1. escaping twice is escaping once                                                                *)
(* ================================================================================================ *)
Lemma esc_body_idem esc b : esc_body esc (esc_body esc b) = esc_body esc b.
Proof. destruct esc; [apply Codec.he_idem | reflexivity]. Qed.

Lemma escape_tree_idem esc t : escape_tree esc (escape_tree esc t) = escape_tree esc t.
Proof.
  induction t as [| | |l|s|l IH|ms IH] using tjson_rect'; try (destruct esc; reflexivity).
  - rewrite (escape_tree_eq esc (TStr s)). rewrite escape_tree_eq. now rewrite esc_body_idem.
  - rewrite (escape_tree_eq esc (TArr l)). rewrite escape_tree_eq. f_equal. rewrite map_map.
    apply map_ext_in. intros x Hx. rewrite Forall_forall in IH. apply (IH x Hx).
  - rewrite (escape_tree_eq esc (TObj ms)). rewrite escape_tree_eq. f_equal. rewrite map_map.
    apply map_ext_in. intros kv Hk. cbn [fst snd]. rewrite esc_body_idem. f_equal.
    rewrite Forall_forall in IH. apply (IH kv Hk).
Qed.

Theorem print_escape_tree esc t : print esc (escape_tree esc t) = print esc t.
Proof. rewrite (print_any esc (escape_tree esc t)), escape_tree_idem. symmetry. apply print_any. Qed.

Theorem pp_escape_tree esc ind k t : pp esc ind k (escape_tree esc t) = pp esc ind k t.
Proof. rewrite (pp_any esc ind k (escape_tree esc t)), escape_tree_idem. symmetry. apply pp_any. Qed.

(* what deepCopy stores is written as the escaped tree of the source *)
Lemma render_deep_copy o v : render (o_esc o) (fst (deep_copy o v)) = enc (o_esc o) v.
Proof. destruct v; [destruct (o_esc o)|..]; reflexivity. Qed.

(* the node deepCopy makes is spelled, under the same escape setting, exactly as its source *)
Theorem deep_copy_spelling o v :
  print (o_esc o) (render (o_esc o) (fst (deep_copy o v))) = print (o_esc o) (render (o_esc o) v).
Proof. rewrite render_deep_copy. apply print_escape_tree. Qed.

Theorem deep_copy_spelling_pp o ind k v :
  pp (o_esc o) ind k (render (o_esc o) (fst (deep_copy o v))) = pp (o_esc o) ind k (render (o_esc o) v).
Proof. rewrite render_deep_copy. apply pp_escape_tree. Qed.

(* deepCopy by cases: a value that is not a null is re-encoded and counted with the length of its spelling;
   the two nulls are deep_copy_nil and deep_copy_raw_null below *)
Lemma deep_copy_nonnull o v : is_null v = false ->
  deep_copy o v = (NRaw (enc (o_esc o) v), zlen (print (o_esc o) (render (o_esc o) v))).
Proof. destruct v as [|t|keys obj|ns]; try discriminate; try reflexivity. destruct t; try discriminate; reflexivity. Qed.

Theorem deep_copy_counts_spelling o v :
  is_null v = false ->
  snd (deep_copy o v) = zlen (print (o_esc o) (render (o_esc o) (fst (deep_copy o v)))).
Proof. intro N. rewrite deep_copy_spelling, (deep_copy_nonnull o v N). reflexivity. Qed.

(* ================================================================================================ *)
(* 2. the null cases                                                                                 *)
(* ================================================================================================ *)
Lemma is_null_cases v : is_null v = true -> v = NNil \/ v = NRaw TNull.
Proof. destruct v as [|t| |]; try discriminate; [|destruct t; try discriminate]; auto. Qed.

Lemma deep_copy_nil o :
  deep_copy o NNil = (NNil, match o_nullsz o with Some z => z | None => 0%Z end).
Proof. reflexivity. Qed.

Lemma deep_copy_raw_null o :
  deep_copy o (NRaw TNull) = (NRaw TNull, match o_nullsz o with Some z => z | None => 4%Z end).
Proof. unfold deep_copy. cbn [render]. destruct (o_esc o), (o_nullsz o); reflexivity. Qed.

(* as the code counts (o_nullsz = None): a nil node (a null the decoder read) counts 0, a stored raw
   null (the value null of an operation) counts the 4 bytes of its text *)
Theorem deep_copy_null_code o v :
  o_nullsz o = None -> is_null v = true ->
  snd (deep_copy o v) = match v with NNil => 0%Z | _ => 4%Z end.
Proof.
  intros E N. destruct (is_null_cases v N) as [->| ->]; [rewrite deep_copy_nil | rewrite deep_copy_raw_null]; rewrite E; reflexivity.
Qed.

Theorem deep_copy_null_fixed o v z :
  o_nullsz o = Some z -> is_null v = true -> snd (deep_copy o v) = z.
Proof.
  intros E N. destruct (is_null_cases v N) as [->| ->]; [rewrite deep_copy_nil | rewrite deep_copy_raw_null]; rewrite E; reflexivity.
Qed.

(* in every setting the judges accept (None, Some 0, Some 4) a copied null counts 0 or 4, and it is
   spelled with the 4 bytes null *)
Theorem deep_copy_null_0_or_4 o v :
  (o_nullsz o = None \/ o_nullsz o = Some 0%Z \/ o_nullsz o = Some 4%Z) -> is_null v = true ->
  (snd (deep_copy o v) = 0%Z \/ snd (deep_copy o v) = 4%Z) /\
  print (o_esc o) (render (o_esc o) (fst (deep_copy o v))) = B "null" /\ is_null (fst (deep_copy o v)) = true.
Proof.
  intros H N. split.
  - destruct H as [E|[E|E]].
    + rewrite (deep_copy_null_code o v E N). destruct v; auto.
    + rewrite (deep_copy_null_fixed o v _ E N). auto.
    + rewrite (deep_copy_null_fixed o v _ E N). auto.
  - destruct (is_null_cases v N) as [->| ->]; [|rewrite deep_copy_raw_null]; split; reflexivity.
Qed.

Lemma deep_copy_nullsz_irrelevant o o' v :
  o_esc o' = o_esc o -> is_null v = false -> deep_copy o' v = deep_copy o v.
Proof.
  intros E N. rewrite (deep_copy_nonnull o' v N), (deep_copy_nonnull o v N), E. reflexivity.
Qed.

(* ================================================================================================ *)
(* 3a. contiguous substrings                                                                         *)
(* ================================================================================================ *)
Definition infix (s t : bytes) : Prop := exists pre post, t = pre ++ s ++ post.

Lemma infix_refl s : infix s s.
Proof. exists [], []. now rewrite app_nil_r. Qed.

Lemma infix_trans a b c : infix a b -> infix b c -> infix a c.
Proof.
  intros [p1 [q1 E1]] [p2 [q2 E2]]. subst. exists (p2 ++ p1), (q1 ++ q2). now rewrite !app_assoc.
Qed.

Lemma infix_app_l s t x : infix s t -> infix s (x ++ t).
Proof. intros [p [q E]]. subst. exists (x ++ p), q. now rewrite app_assoc. Qed.

Lemma infix_app_r s t x : infix s t -> infix s (t ++ x).
Proof. intros [p [q E]]. subst. exists p, (q ++ x). now rewrite !app_assoc. Qed.

Lemma infix_cons s t c : infix s t -> infix s (c :: t).
Proof. apply (infix_app_l s t [c]). Qed.

Lemma infix_length s t : infix s t -> (length s <= length t)%nat.
Proof. intros [p [q E]]. subst. rewrite !app_length. lia. Qed.

Lemma sep_concat_In sep x l : In x l -> infix x (sep_concat sep l).
Proof.
  induction l as [|y l IH]; [intros []|]. intro H. destruct l as [|z l].
  - destruct H as [->|[]]. apply infix_refl.
  - rewrite sep_concat_cons2. destruct H as [->|H].
    + apply infix_app_r. apply infix_refl.
    + apply infix_app_l. apply infix_app_l. apply IH. exact H.
Qed.

(* ================================================================================================ *)
(* 3b. the text of a tree contains the text of every descendant                                      *)
(* ================================================================================================ *)
Definition tchild (sub t : tjson) : Prop :=
  match t with
  | TArr l => In sub l
  | TObj ms => exists k, In (k, sub) ms
  | _ => False
  end.

Inductive tdesc (sub : tjson) : tjson -> Prop :=
| tdesc_refl : tdesc sub sub
| tdesc_step m t : tchild m t -> tdesc sub m -> tdesc sub t.

Lemma tdesc_trans a b c : tdesc a b -> tdesc b c -> tdesc a c.
Proof. intros H1 H2. induction H2 as [|m t Hc Hd IH]; [exact H1|]. eapply tdesc_step; eauto. Qed.

Theorem print_child esc sub t : tchild sub t -> infix (print esc sub) (print esc t).
Proof.
  destruct t as [| | |lit|s|l|ms]; cbn [tchild]; try contradiction.
  - intro H. cbn [print]. apply infix_cons. apply infix_app_r. apply sep_concat_In.
    apply in_map. exact H.
  - intros [k H]. cbn [print]. apply infix_cons. apply infix_app_r.
    apply (infix_trans _ (spell esc k ++ x3a :: print esc sub)).
    + apply infix_app_l. apply infix_cons. apply infix_refl.
    + apply sep_concat_In. apply (in_map (fun kv => spell esc (fst kv) ++ x3a :: print esc (snd kv)) ms (k, sub)). exact H.
Qed.

Theorem print_desc esc sub t : tdesc sub t -> infix (print esc sub) (print esc t).
Proof.
  induction 1 as [|m t Hc Hd IH]; [apply infix_refl|].
  eapply infix_trans; [exact IH | apply print_child; exact Hc].
Qed.

(* ================================================================================================ *)
(* 3c. nodes: what render shows of a node                                                            *)
(* ================================================================================================ *)
(* the members render prints: those of the key list, looked up in the map; the elements *)
Definition nchild (sub n : node) : Prop :=
  match n with
  | NDoc keys obj => exists k, In k keys /\ aget k obj = Some sub
  | NAry ns => In sub ns
  | _ => False
  end.

Inductive subnode (sub : node) : node -> Prop :=
| subnode_refl : subnode sub sub
| subnode_step m n : nchild m n -> subnode sub m -> subnode sub n.

Lemma subnode_trans a b c : subnode a b -> subnode b c -> subnode a c.
Proof. intros H1 H2. induction H2 as [|m t Hc Hd IH]; [exact H1|]. eapply subnode_step; eauto. Qed.

Lemma subnode_child sub n : nchild sub n -> subnode sub n.
Proof. intro H. eapply subnode_step; [exact H | apply subnode_refl]. Qed.

Lemma render_tchild esc sub n : nchild sub n -> tchild (render esc sub) (render esc n).
Proof.
  destruct n as [|t|keys obj|ns]; cbn [nchild]; try contradiction.
  - intros [k [Hk G]]. rewrite render_doc. cbn [tchild]. exists (quote esc k).
    apply (in_map (fun k => (quote esc k, match option_map (render esc) (aget k obj) with Some t => t | None => TNull end)))
      in Hk. rewrite G in Hk. exact Hk.
  - intro H. cbn [render tchild]. apply in_map. exact H.
Qed.

Theorem render_desc esc sub n : subnode sub n -> tdesc (render esc sub) (render esc n).
Proof.
  induction 1 as [|m n Hc Hd IH]; [apply tdesc_refl|].
  eapply tdesc_step; [apply render_tchild; exact Hc | exact IH].
Qed.

(* descendant => substring: the compact text of a tree contains the compact text of every node in it *)
Theorem subnode_output esc cp root :
  subnode cp root -> infix (print esc (render esc cp)) (print esc (render esc root)).
Proof. intro H. apply print_desc. apply render_desc. exact H. Qed.

(* ================================================================================================ *)
(* 3d. one copy: the node deepCopy made is in the tree the operation leaves behind                   *)
(* ================================================================================================ *)
Lemma ary_add_In o ns key v ns' : ary_add o ns key v = Ok ns' -> In v ns'.
Proof.
  intro H. pose proof (ary_add_cases o ns key v) as C. rewrite H in C. destruct C as [i ->]. apply in_elt.
Qed.

Lemma doc_set_child keys obj key (v : node) :
  In key (fst (doc_set keys obj key v)) /\ aget key (snd (doc_set keys obj key v)) = Some v.
Proof.
  unfold doc_set. cbn [fst snd]. split; [|apply aget_aset_same].
  destruct (kmem key keys) eqn:E; [apply kmem_In; exact E | apply in_elt].
Qed.

Lemma con_add_child o c key v c' : con_add o c key v = Ok c' -> nchild v (node_of_con c').
Proof.
  destruct c as [s keys obj|s st|s ns]; cbn [con_add]; try discriminate.
  - pose proof (doc_set_child keys obj key v) as D. destruct (doc_set keys obj key v) as [k' o'].
    intro H; inversion H; subst. cbn [node_of_con nchild]. exists key. exact D.
  - destruct (ary_add o ns key v) as [ns'| |] eqn:E; try discriminate.
    intro H; inversion H; subst. cbn [node_of_con nchild]. eapply ary_add_In; eauto.
Qed.

(* putting a container back where a get with a non-empty token found it makes it a visible member *)
Lemma con_put_child o c key x ch :
  cinv c -> key <> [] -> con_get o c key = Ok x -> nchild ch (node_of_con (con_put o c key ch)).
Proof.
  intros [_ C] NE G. destruct c as [s keys obj|s st|s ns]; cbn [con_get con_put node_of_con] in *.
  - destruct key as [|b key]; [congruence|].
    destruct (aget (b :: key) obj) as [y|] eqn:E; [|discriminate].
    cbn [node_of_con nchild]. exists (b :: key). split; [|apply aget_aset_same].
    apply ninv_doc in C as [K _]. apply K. apply aget_In in E. apply (in_map fst) in E. exact E.
  - destruct key; [congruence | discriminate].
  - destruct key as [|b key]; [congruence|].
    destruct (resolve_idx_get o (zlen ns) (b :: key)) as [i| |]; try discriminate.
    cbn [node_of_con nchild]. apply in_elt.
Qed.

Lemma walk_add_subnode o v key parts : forall c r c3,
  cinv c -> Forall (fun p => decode_token p <> []) parts ->
  walk o parts c (fun c' => add_fn o v c' key) = (Some (Ok r), c3) ->
  subnode v (node_of_con c3).
Proof.
  induction parts as [|p rest IH]; intros c r c3 C NE; cbn [walk].
  - unfold add_fn. destruct (con_add o c key v) as [c''| |] eqn:E; intro H; inversion H; subst.
    apply subnode_child. eapply con_add_child; eauto.
  - inversion NE as [|? ? Np Nr]; subst.
    destruct (con_get o c (decode_token p)) as [next| |] eqn:G; try discriminate.
    destruct (into_con next) as [ch|] eqn:IC; [|discriminate].
    assert (Cch : cinv ch) by (eapply into_con_inv; eauto; eapply (con_get_inv ninv_closed); eauto).
    destruct (walk o rest ch (fun c' => add_fn o v c' key)) as [r' ch'] eqn:W.
    intro H; inversion H; subst.
    eapply subnode_step; [eapply con_put_child; eauto|].
    eapply IH; eauto.
Qed.

(* the reference tokens of a path before the last one *)
Definition inner_tokens (path : bytes) : list bytes :=
  match split_path path with Some (parts, _) => parts | None => [] end.

Definition inner_nonempty (path : bytes) : Prop := Forall (fun p => decode_token p <> []) (inner_tokens path).

Lemma find_add_subnode o c path v r c3 :
  cinv c -> inner_nonempty path ->
  find o c path (add_fn o v) = (FoundAt (Ok r), c3) -> subnode v (node_of_con c3).
Proof.
  intros C NE. unfold find, inner_nonempty, inner_tokens in *. destruct (split_path path) as [[parts key]|].
  - destruct (walk o parts c (fun c' => add_fn o v c' key)) as [[a|] c'] eqn:W; intro H; inversion H; subst.
    eapply walk_add_subnode; eauto.
  - destruct path; [|discriminate]. unfold add_fn.
    destruct (con_add o c [] v) as [c''| |] eqn:E; intro H; inversion H; subst.
    apply subnode_child. eapply con_add_child; eauto.
Qed.

(* a successful copy: the source value v it read, the node cp deepCopy made of it and its size sz;
   sz is what the running total grew by, cp is in the tree of the new state *)
Theorem copy_step_in_tree o st op st' path :
  stinv st -> op_str op (B "path") = Ok path -> inner_nonempty path ->
  op_copy o st op = Ok st' ->
  exists v cp sz, deep_copy o v = (cp, sz) /\ CauseFacts.copy_probe o st op = Some sz /\
                  s_acc st' = (s_acc st + sz)%Z /\ subnode cp (root_node (s_root st')).
Proof.
  intros S P NE. rewrite op_copy_eq, CauseFacts.copy_probe_eq, P.
  destruct (op_str op (B "from")) as [from| |]; try discriminate.
  unfold stinv in S. destruct (s_root st) as [c|]; [|discriminate]. cbn [rinv] in S.
  destruct (copy_src o c from (Ok path)) as [[[v c2] path']| |] eqn:Cs; try discriminate.
  pose proof (copy_src_post ninv_closed (within_any _) o c from (Ok path) S I) as CP. rewrite Cs in CP.
  destruct CP as (_ & C2 & [= <-]). unfold copy_put.
  destruct (copy_too_deep o v); [discriminate|].
  destruct (deep_copy o v) as [cp sz] eqn:D. cbn [snd].
  destruct ((0 <? o_limit o)%Z && (o_limit o <? s_acc st + sz)%Z)%bool; [discriminate|].
  pose proof (find_add_subnode o c2 path cp) as F.
  destruct (find o c2 path (add_fn o cp)) as [[| |[c''|e|]] c3]; try discriminate.
  intros [= <-]. cbn [s_acc s_root root_node].
  exists v, cp, sz. split; [exact D|]. split; [reflexivity|]. split; [reflexivity|].
  eapply F; eauto.
Qed.

(* one copy, stated on spellings: the spelling of the copy under the escape setting of the call is
   the spelling of the source value, it is a contiguous part of the compact text of the tree the
   operation leaves behind, and (unless the value is a null) its length is what was added *)
Theorem copy_step_spelling o st op st' path :
  stinv st -> op_str op (B "path") = Ok path -> inner_nonempty path ->
  op_copy o st op = Ok st' ->
  exists v cp sz,
    deep_copy o v = (cp, sz) /\ s_acc st' = (s_acc st + sz)%Z /\
    print (o_esc o) (render (o_esc o) cp) = print (o_esc o) (render (o_esc o) v) /\
    subnode cp (root_node (s_root st')) /\
    infix (print (o_esc o) (render (o_esc o) cp)) (print (o_esc o) (render (o_esc o) (root_node (s_root st')))) /\
    (is_null v = false -> sz = zlen (print (o_esc o) (render (o_esc o) cp))).
Proof.
  intros S P NE H. destruct (copy_step_in_tree o st op st' path S P NE H) as [v [cp [sz [D [_ [A Sub]]]]]].
  exists v, cp, sz. split; [exact D|]. split; [exact A|].
  pose proof (deep_copy_spelling o v) as Sp. rewrite D in Sp. cbn [fst] in Sp.
  split; [exact Sp|]. split; [exact Sub|]. split; [apply subnode_output; exact Sub|].
  intro N. pose proof (deep_copy_counts_spelling o v N) as Cn. rewrite D in Cn. exact Cn.
Qed.

(* when the copy is the last operation: the bytes Apply returns (no indent) contain the copy's
   spelling, and its length is the amount this copy added to the total *)
Theorem copy_last_output o st op st' path t :
  stinv st -> op_kind op = KCopy -> op_str op (B "path") = Ok path -> inner_nonempty path ->
  step o st op = Ok st' -> marshal_root o (s_root st') = Ok t ->
  exists v cp sz,
    deep_copy o v = (cp, sz) /\ s_acc st' = (s_acc st + sz)%Z /\
    infix (print (o_esc o) (render (o_esc o) cp)) (output o [] t) /\
    print (o_esc o) (render (o_esc o) cp) = print (o_esc o) (render (o_esc o) v) /\
    (is_null v = false -> sz = zlen (print (o_esc o) (render (o_esc o) cp))).
Proof.
  intros S K P NE H M. unfold step in H. rewrite K in H.
  destruct (copy_step_spelling o st op st' path S P NE H) as [v [cp [sz [D [A [Sp [_ [I Z]]]]]]]].
  exists v, cp, sz. apply marshal_root_render in M. subst t. cbn [output]. auto.
Qed.

(* a later state: as long as the node is still in the tree its spelling is in the compact output *)
Corollary copied_node_in_final_output o cp r t :
  subnode cp (root_node r) -> marshal_root o r = Ok t ->
  infix (print (o_esc o) (render (o_esc o) cp)) (output o [] t).
Proof. intros Sub M. apply marshal_root_render in M. subst t. cbn [output]. apply subnode_output. exact Sub. Qed.

Lemma apply_from_stinv o p i st st' : stinv st -> apply_from o i st p = AOk st' -> stinv st'.
Proof.
  intro S. apply (apply_from_inv ninv_closed I (fun o v _ => ninv_deep_copy o v) o p i st st' S).
  apply Forall_forall. intros op _ t _. exact I.
Qed.

(* the copy at position length p1 of a patch that runs to the end: the state before it, the state
   after it; what it adds to the total is the length of the spelling of the node it stores; if that
   node is still in the tree at the end, the bytes Apply returns (no indent) contain that spelling *)
Theorem copy_in_patch_output o p1 op p2 st0 stf path :
  stinv st0 -> forallb op_ok p1 = true -> op_kind op = KCopy ->
  op_str op (B "path") = Ok path -> inner_nonempty path ->
  apply_from o 0 st0 (p1 ++ op :: p2) = AOk stf ->
  exists st1 st2 v cp sz,
    apply_from o 0 st0 p1 = AOk st1 /\ step o st1 op = Ok st2 /\
    apply_from o (S (length p1)) st2 p2 = AOk stf /\
    deep_copy o v = (cp, sz) /\ s_acc st2 = (s_acc st1 + sz)%Z /\
    print (o_esc o) (render (o_esc o) cp) = print (o_esc o) (render (o_esc o) v) /\
    (is_null v = false -> sz = zlen (print (o_esc o) (render (o_esc o) cp))) /\
    subnode cp (root_node (s_root st2)) /\
    (forall t, subnode cp (root_node (s_root stf)) -> marshal_root o (s_root stf) = Ok t ->
               infix (print (o_esc o) (render (o_esc o) cp)) (output o [] t)).
Proof.
  intros S OK K P NE H. rewrite apply_from_app in H.
  destruct (apply_from o 0 st0 p1) as [st1|j e|j] eqn:A1; try discriminate.
  cbn [apply_from] in H. destruct (step o st1 op) as [st2|e|] eqn:St; try discriminate.
  pose proof (apply_from_stinv o p1 0 st0 st1 S A1) as S1.
  pose proof St as St'. unfold step in St'. rewrite K in St'.
  destruct (copy_step_spelling o st1 op st2 path S1 P NE St') as [v [cp [sz [D [A [Sp [Sub [_ Z]]]]]]]].
  exists st1, st2, v, cp, sz. split; [reflexivity|]. split; [exact St|]. split; [exact H|].
  split; [exact D|]. split; [exact A|]. split; [exact Sp|]. split; [exact Z|]. split; [exact Sub|].
  intros t Sf M. eapply copied_node_in_final_output; eauto.
Qed.

(* indented output: compacting it (the codec's Compact with the same escape setting) gives the compact
   text, in which the copy's spelling is found *)
Theorem compact_of_indented esc ind t :
  wsb ind = true -> twf t -> compact_go esc (pp esc ind 0 t) = Some (print esc t).
Proof.
  intros W T. rewrite compact_go_spec. rewrite (parse_pp_any esc ind 0 t W T). now rewrite print_escape_tree.
Qed.

(* the hypothesis on the inner tokens cannot be dropped: a copy to //b of a document whose root is an
   object is counted (5 bytes, the limit 4 stops it) but, without a limit, leaves the document as
   it was: the container for the empty token is handed out fresh and what is added to it is lost *)
Example copy_empty_token_counts_but_is_lost :
  match api_decode (B "[{""op"":""copy"",""from"":""/a"",""path"":""//b""}]") with
  | Some p =>
      api_apply (mkOpts true 4 false false false [] None) [] p (B "{""a"":""<x>""}") = RErr (Some 0%nat) (ECopyLimit 4 5) /\
      api_apply (mkOpts true 0 false false false [] None) [] p (B "{""a"":""<x>""}") = ROut (B "{""a"":""<x>""}")
  | None => False
  end.
Proof. vm_compute. split; reflexivity. Qed.

Print Assumptions print_escape_tree.
Print Assumptions deep_copy_spelling.
Print Assumptions deep_copy_counts_spelling.
Print Assumptions deep_copy_null_code.
Print Assumptions deep_copy_null_fixed.
Print Assumptions deep_copy_null_0_or_4.
Print Assumptions print_desc.
Print Assumptions subnode_output.
Print Assumptions copy_step_in_tree.
Print Assumptions copy_step_spelling.
Print Assumptions copy_last_output.
Print Assumptions copied_node_in_final_output.
Print Assumptions compact_of_indented.
Print Assumptions copy_in_patch_output.
