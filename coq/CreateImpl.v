(* CreateImpl.v -- the Go algorithm of CreateMergePatch (v5/merge.go: matchesValue, matchesArray,
   getDiff, createObjectMergePatch), modelled step by step over decoded values, and proved equal
   to the reference functions jeq / diff (Json.v, Rfc7396.v) by which ImplMerge.create_object is
   defined.

   Reading of the Go data.  createObjectMergePatch decodes both documents with
   json.UnmarshalValid into map[string]interface{} (internal/json/decode.go sets d.useNumber = true,
   so a number is a json.Number holding the literal; never a float64).  The dynamic types that
   occur are therefore: nil, bool, json.Number, string, []interface{}, map[string]interface{}.
   A decoded value is an ojson; OObj ms is read as a Go map whose iteration order is the order of
   the list ms (MergeOrder.v: the result does not depend on that order up to jeq; see
   get_diff_go_any_order below).  A Go map has no duplicate keys: that is the hypothesis onodup.
   into[key] = v on the result map is aset key v into. *)
From Coq Require Import Lia Permutation.
From JP Require Import Bytes Json Text Strings Den ImplV5 ImplMerge Rfc7396 DecodeFacts JsonFacts MergeFacts
  Codec CreateFacts MergeOrder.

(* ---- reflect.TypeOf ---- *)
(* the dynamic types the type switches of merge.go mention, and GOther for every other Go type
   (the default branch of the switch in getDiff) *)
Inductive gotype := GNil | GBool | GNumber | GFloat64 | GString | GSlice | GMap | GOther.

Definition go_type_of (j : ojson) : gotype :=
  match j with
  | ONull => GNil
  | OBool _ => GBool
  | ONum _ => GNumber            (* json.Number: useNumber is set *)
  | OStr _ => GString
  | OArr _ => GSlice
  | OObj _ => GMap
  end.

Definition gotype_eqb (s t : gotype) : bool :=
  match s, t with
  | GNil, GNil | GBool, GBool | GNumber, GNumber | GFloat64, GFloat64
  | GString, GString | GSlice, GSlice | GMap, GMap | GOther, GOther => true
  | _, _ => false
  end.

(* reflect.TypeOf(av) == reflect.TypeOf(bv) *)
Definition go_same_type (a b : ojson) : bool := gotype_eqb (go_type_of a) (go_type_of b).

(* ---- matchesValue / matchesArray ---- *)
Section MatchLoops.
  Variable rec : ojson -> ojson -> bool.      (* matchesValue, for the recursive calls *)

  (* for key := range bt { av, aOK := at[key]; bv, bOK := bt[key]; ... }
     key ranges over the entries of bt, so bOK is true and bv is the entry's value *)
  Fixpoint mv_members (am : list (bytes * ojson)) (es : list (bytes * ojson)) {struct es} : bool :=
    match es with
    | [] => true                                         (* return true *)
    | (key, bv) :: rest =>
        match aget key am with
        | None => false                                  (* aOK != bOK *)
        | Some av =>
            if negb (rec av bv) then false               (* !matchesValue(av, bv) *)
            else mv_members am rest
        end
    end.

  (* for i := range a { if !matchesValue(a[i], b[i]) { return false } }; return true
     (run only when len(a) == len(b), so b[i] is in range) *)
  Fixpoint ma_loop (a b : list ojson) {struct b} : bool :=
    match a, b with
    | x :: a', y :: b' => if negb (rec x y) then false else ma_loop a' b'
    | _, _ => true
    end.
End MatchLoops.

Fixpoint matches_value_go (av bv : ojson) {struct bv} : bool :=
  if negb (go_same_type av bv) then false                (* reflect.TypeOf(av) != reflect.TypeOf(bv) *)
  else
    match av with                                        (* switch at := av.(type) *)
    | OStr am => match bv with OStr bm => bseq bm am | _ => false end     (* bt == at; else falls to return false *)
    | ONum am => match bv with ONum bm => bseq bm am | _ => false end     (* json.Number: string comparison *)
    (* case float64: no decoded value has this type *)
    | OBool am => match bv with OBool bm => Bool.eqb bm am | _ => false end
    | ONull => true
    | OObj am =>
        match bv with
        | OObj bm =>
            if negb (length bm =? length am)%nat then false               (* len(bt) != len(at) *)
            else mv_members matches_value_go am bm
        | _ => false
        end
    | OArr am =>
        match bv with
        | OArr bm =>
            (* matchesArray(at, bt), inlined for the termination checker; see matches_array_go *)
            if negb (length am =? length bm)%nat then false
            else ma_loop matches_value_go am bm
        | _ => false
        end
    end.

(* matchesArray.  Its second test, (a == nil && b != nil) || (a != nil && b == nil), cannot fire:
   a decoded JSON array is built by arrayInterface from make([]any, 0) and is never a nil slice,
   so both sides of each conjunction are false.  Nothing is modelled for it. *)
Definition matches_array_go (a b : list ojson) : bool :=
  if negb (length a =? length b)%nat then false          (* len(a) != len(b) *)
  else ma_loop matches_value_go a b.

(* ---- getDiff ---- *)
Inductive gores :=
| GoMap (into : list (bytes * ojson))      (* return into, nil *)
| GoPanic.                                 (* panic: the default branch, or a failed type assertion *)

(* for key := range a { _, found := b[key]; if !found { into[key] = nil } } *)
Fixpoint gd_loop2 (bm : list (bytes * ojson)) (es : list (bytes * ojson)) (into : list (bytes * ojson))
  : list (bytes * ojson) :=
  match es with
  | [] => into
  | (key, _) :: rest =>
      if amem key bm then gd_loop2 bm rest into
      else gd_loop2 bm rest (aset key ONull into)
  end.

Section DiffLoop.
  Variable rec : ojson -> ojson -> gores.    (* getDiff, for the recursive call *)
  Variable am : list (bytes * ojson).        (* the map a *)

  (* for key, bv := range b { ... } *)
  Fixpoint gd_loop1 (es : list (bytes * ojson)) (into : list (bytes * ojson)) {struct es} : gores :=
    match es with
    | [] => GoMap into
    | (key, bv) :: rest =>
        match aget key am with                                   (* av, ok := a[key] *)
        | None => gd_loop1 rest (aset key bv into)               (* value was added *)
        | Some av =>
            if negb (go_same_type av bv) then gd_loop1 rest (aset key bv into)   (* types have changed *)
            else
              match go_type_of av with                           (* switch at := av.(type) *)
              | GMap =>
                  match rec av bv with                           (* bt := bv.(map...); dst, err := getDiff(at, bt) *)
                  | GoPanic => GoPanic
                  | GoMap dst =>
                      if (0 <? length dst)%nat then gd_loop1 rest (aset key (OObj dst) into)
                      else gd_loop1 rest into
                  end
              | GString | GFloat64 | GBool | GNumber =>
                  if negb (matches_value_go av bv) then gd_loop1 rest (aset key bv into)
                  else gd_loop1 rest into
              | GSlice =>
                  match av, bv with
                  | OArr al, OArr bl =>                          (* bt := bv.([]interface{}) *)
                      if negb (matches_array_go al bl) then gd_loop1 rest (aset key bv into)
                      else gd_loop1 rest into
                  | _, _ => GoPanic                              (* failed type assertion *)
                  end
              | GNil =>
                  match go_type_of bv with                       (* switch bv.(type) *)
                  | GNil => gd_loop1 rest into                   (* both nil, fine *)
                  | _ => gd_loop1 rest (aset key bv into)
                  end
              | GOther => GoPanic                                (* default: panic("Unknown type ...") *)
              end
        end
    end.
End DiffLoop.

(* getDiff(a, b).  Its error result is always nil (the only error it could return is one returned
   by a recursive call), so only the map and the panic are modelled.  On two values that are not
   both maps the call does not exist in Go: the type assertion bv.(map[string]interface{}) that
   precedes it would panic. *)
Fixpoint get_diff_go (a b : ojson) {struct b} : gores :=
  match a, b with
  | OObj am, OObj bm =>
      match gd_loop1 get_diff_go am bm [] with
      | GoPanic => GoPanic
      | GoMap into => GoMap (gd_loop2 bm am into)
      end
  | _, _ => GoPanic
  end.

Example matches_value_go_ex1 :
  matches_value_go
    (OObj [(B "a", OArr [ONum (B "1"); OObj [(B "b", ONull)]]); (B "c", OStr (B "x"))])
    (OObj [(B "c", OStr (B "x")); (B "a", OArr [ONum (B "1"); OObj [(B "b", ONull)]])]) = true.
Proof. vm_compute. reflexivity. Qed.

(* numbers are compared as json.Number, i.e. by their literal; a missing key; a longer array *)
Example matches_value_go_ex2 :
  matches_value_go (ONum (B "1")) (ONum (B "1.0")) = false /\
  matches_value_go (OObj [(B "a", ONull)]) (OObj [(B "b", ONull)]) = false /\
  matches_value_go (OArr [ONull]) (OArr [ONull; ONull]) = false /\
  matches_value_go (OArr []) (OObj []) = false.
Proof. vm_compute. repeat split; reflexivity. Qed.

Example get_diff_go_ex :
  let a := OObj [(B "a", OObj [(B "x", ONum (B "1.0")); (B "y", ONum (B "2"))]); (B "k", OStr (B "s"));
                 (B "n", ONum (B "1e400")); (B "same", OObj [(B "z", OArr [ONull])])] in
  let b := OObj [(B "n", ONum (B "1e400")); (B "same", OObj [(B "z", OArr [ONull])]);
                 (B "a", OObj [(B "x", ONum (B "1")); (B "w", OArr [ONum (B "12345678901234567890123")])])] in
  get_diff_go a b =
    GoMap [(B "a", OObj [(B "x", ONum (B "1")); (B "w", OArr [ONum (B "12345678901234567890123")]); (B "y", ONull)]);
           (B "k", ONull)] /\
  OObj (match get_diff_go a b with GoMap ms => ms | GoPanic => [] end) = diff a b.
Proof. vm_compute. split; reflexivity. Qed.

Lemma matches_value_go_obj am bm :
  matches_value_go (OObj am) (OObj bm) =
  if negb (length bm =? length am)%nat then false else mv_members matches_value_go am bm.
Proof. reflexivity. Qed.

(* the array case of matchesValue is the call matchesArray(at, bt) *)
Lemma matches_value_go_arr al bl : matches_value_go (OArr al) (OArr bl) = matches_array_go al bl.
Proof. reflexivity. Qed.

Lemma get_diff_go_obj am bm :
  get_diff_go (OObj am) (OObj bm) =
  match gd_loop1 get_diff_go am bm [] with
  | GoPanic => GoPanic
  | GoMap into => GoMap (gd_loop2 bm am into)
  end.
Proof. reflexivity. Qed.

(* ---- matchesValue is jeq ---- *)
(* matchesValue ranges over the keys of its SECOND argument and looks them up in the first; jeq
   ranges over the members of its first argument and looks them up in the second.  So, with no
   hypothesis at all, matchesValue(a, b) is jeq b a. *)
Theorem matches_value_go_swap b : forall a, matches_value_go a b = jeq b a.
Proof.
  induction b using ojson_rect'; intro a; destruct a as [|x|x|x|al|am]; try reflexivity.
  - rename l into bl. rewrite matches_value_go_arr, jeq_arr. unfold matches_array_go.
    revert al. induction H as [|y bl Hy _ IH]; intros [|x al]; try reflexivity.
    cbn [length Nat.eqb ma_loop jeq_list]. rewrite Hy. specialize (IH al).
    destruct (length al =? length bl)%nat; cbn [negb] in *.
    + rewrite IH. destruct (jeq y x); reflexivity.
    + rewrite <- IH. rewrite andb_false_r. reflexivity.
  - rename ms into bm. rewrite jeq_obj, matches_value_go_obj.
    assert (E : mv_members matches_value_go am bm = jeq_members bm am).
    { induction H as [|[key bv] bm Hbv _ IH]; [reflexivity|]. cbn [mv_members jeq_members].
      destruct (aget key am) as [av|]; [|reflexivity]. cbn [snd] in Hbv. rewrite Hbv, IH.
      destruct (jeq bv av); reflexivity. }
    rewrite E. destruct (length bm =? length am)%nat; reflexivity.
Qed.

Theorem matches_value_go_jeq a b : onodup a = true -> onodup b = true -> matches_value_go a b = jeq a b.
Proof. intros Na Nb. rewrite matches_value_go_swap. apply jeq_sym_eq; assumption. Qed.

Theorem matches_array_go_jeq al bl :
  onodup (OArr al) = true -> onodup (OArr bl) = true -> matches_array_go al bl = jeq (OArr al) (OArr bl).
Proof. intros Na Nb. rewrite <- matches_value_go_arr. apply matches_value_go_jeq; assumption. Qed.

(* the hypothesis is needed: on association lists with a repeated name (not Go maps) the two
   directions of lookup disagree *)
Example matches_value_go_jeq_needs_nodup :
  let a := OObj [(B "x", ONum (B "1")); (B "x", ONum (B "1"))] in
  let b := OObj [(B "x", ONum (B "1")); (B "y", ONum (B "2"))] in
  jeq a b = true /\ matches_value_go a b = false /\ onodup a = false /\ onodup b = true.
Proof. vm_compute. repeat split; reflexivity. Qed.

(* ---- getDiff is diff ---- *)
(* one entry of the first loop of getDiff, with the type switch resolved: two maps recurse, any other
   pair is compared by matchesValue *)
Lemma gd_loop1_cons rec am key bv rest into :
  gd_loop1 rec am ((key, bv) :: rest) into =
  match aget key am with
  | None => gd_loop1 rec am rest (aset key bv into)
  | Some av =>
      if is_obj av && is_obj bv then
        match rec av bv with
        | GoPanic => GoPanic
        | GoMap dst => gd_loop1 rec am rest (if (0 <? length dst)%nat then aset key (OObj dst) into else into)
        end
      else gd_loop1 rec am rest (if matches_value_go av bv then into else aset key bv into)
  end.
Proof.
  cbn [gd_loop1]. destruct (aget key am) as [av|]; [|reflexivity].
  destruct av, bv; cbn [go_same_type go_type_of gotype_eqb negb is_obj andb]; try reflexivity;
    try (destruct (matches_value_go _ _); reflexivity).
  - rewrite matches_value_go_arr. destruct (matches_array_go l l0); reflexivity.
  - destruct (rec (OObj ms) (OObj ms0)) as [dst|]; [|reflexivity]. destruct (0 <? length dst)%nat; reflexivity.
Qed.

Definition gd_ok (bv : ojson) : Prop :=
  forall a, onodup a = true -> onodup bv = true -> is_obj a = true -> is_obj bv = true ->
    get_diff_go a bv = GoMap (members_of (diff a bv)).

Lemma gd_loop1_spec am : Forall (fun kv => onodup (snd kv) = true) am ->
  forall bm, Forall (fun kv => gd_ok (snd kv)) bm -> NoDup (map fst bm) ->
  Forall (fun kv => onodup (snd kv) = true) bm ->
  forall into, (forall k, In k (map fst bm) -> ~ In k (map fst into)) ->
  gd_loop1 get_diff_go am bm into = GoMap (into ++ diff_members am bm).
Proof.
  intros Na bm. induction bm as [|[key bv] bm IH]; intros G N Nb into D.
  - cbn. rewrite app_nil_r. reflexivity.
  - inversion G as [|? ? Gbv G']; subst. inversion N as [|? ? Nk N']; subst.
    inversion Nb as [|? ? Nbv Nb']; subst. cbn [snd fst map] in *.
    assert (Fresh : ~ In key (map fst into)) by (apply D; now left).
    assert (Step : forall v, gd_loop1 get_diff_go am bm (aset key v into) =
                             GoMap (into ++ (key, v) :: diff_members am bm)).
    { intro v. rewrite aset_notin by exact Fresh. rewrite IH; auto.
      - rewrite <- app_assoc. reflexivity.
      - intros k Hk. rewrite map_app, in_app_iff. cbn. intros [Hi|[Hi|[]]].
        + apply (D k); [now right | exact Hi].
        + subst. contradiction. }
    assert (Skip : gd_loop1 get_diff_go am bm into = GoMap (into ++ diff_members am bm)).
    { apply IH; auto. intros k Hk. apply D. now right. }
    rewrite gd_loop1_cons, diff_members_cons. unfold diff_entry.
    destruct (aget key am) as [av|] eqn:Ea; [|apply Step].
    pose proof (Forall_aget _ _ _ _ Na Ea) as Nav. rewrite (matches_value_go_jeq av bv Nav Nbv).
    destruct (is_obj av && is_obj bv) eqn:OO; [|destruct (jeq av bv); [exact Skip | apply Step]].
    apply andb_prop in OO as [O1 O2]. rewrite (Gbv av Nav Nbv O1 O2).
    apply is_obj_true in O1 as [am' ->]. apply is_obj_true in O2 as [bm' ->].
    destruct (diff_is_obj am' bm') as [dst ->]. cbn [members_of].
    destruct dst; [exact Skip | apply Step].
Qed.

Lemma gd_loop2_spec bm am : NoDup (map fst am) -> forall into,
  (forall k, In k (map fst am) -> amem k bm = false -> ~ In k (map fst into)) ->
  gd_loop2 bm am into = into ++ diff_dels am bm.
Proof.
  unfold diff_dels. induction am as [|[key av] am IH]; intros N into D.
  - cbn. now rewrite app_nil_r.
  - inversion N as [|? ? Nk N']; subst. cbn [gd_loop2 filter map fst].
    destruct (amem key bm) eqn:M; cbn [negb].
    + apply IH; auto. intros k Hk. apply D. now right.
    + cbn [map fst]. rewrite aset_notin by (apply D; [now left | exact M]).
      rewrite IH; auto.
      * rewrite <- app_assoc. reflexivity.
      * intros k Hk Mk. rewrite map_app, in_app_iff. cbn. intros [Hi|[Hi|[]]].
        -- apply (D k); [now right | exact Mk | exact Hi].
        -- subst. contradiction.
Qed.

Theorem get_diff_go_spec b : gd_ok b.
Proof.
  unfold gd_ok. induction b using ojson_rect'; intros a Na Nb Oa Ob; try discriminate Ob.
  apply is_obj_true in Oa as [am ->]. rename ms into bm.
  rewrite diff_obj, get_diff_go_obj. cbn [members_of].
  apply onodup_obj in Na as [Na1 Na2]. apply onodup_obj in Nb as [Nb1 Nb2].
  rewrite (gd_loop1_spec am Na2 bm H Nb1 Nb2 []) by (intros k _ []).
  cbn [app]. f_equal. apply gd_loop2_spec; auto.
  intros k Hk M Hin. apply diff_members_keys in Hin. apply amem_In in Hin. congruence.
Qed.

Lemma diff_members_of a b : is_obj a = true -> is_obj b = true -> OObj (members_of (diff a b)) = diff a b.
Proof.
  intros Oa Ob. apply is_obj_true in Oa as [am ->]. apply is_obj_true in Ob as [bm ->].
  rewrite diff_obj. reflexivity.
Qed.

(* on two Go maps, getDiff returns (never panics) and the map it returns
   is EXACTLY the reference difference, member order included, when the maps are visited in list
   order *)
Theorem get_diff_go_diff am bm :
  onodup (OObj am) = true -> onodup (OObj bm) = true ->
  get_diff_go (OObj am) (OObj bm) = GoMap (members_of (diff (OObj am) (OObj bm))).
Proof. intros Na Nb. apply get_diff_go_spec; auto. Qed.

Definition gores_value (r : gores) : option ojson :=
  match r with GoMap ms => Some (OObj ms) | GoPanic => None end.

Theorem get_diff_go_diff_value a b :
  onodup a = true -> onodup b = true -> is_obj a = true -> is_obj b = true ->
  gores_value (get_diff_go a b) = Some (diff a b).
Proof.
  intros Na Nb Oa Ob. rewrite (get_diff_go_spec b a Na Nb Oa Ob). cbn [gores_value].
  rewrite diff_members_of by assumption. reflexivity.
Qed.

(* the hypotheses are needed (on lists that are not Go maps into[key] = v overwrites, the reference
   appends): a repeated name in b; a repeated name in a *)
Example get_diff_go_diff_needs_nodup_b :
  let a := OObj [] in
  let b := OObj [(B "x", ONum (B "1")); (B "x", ONum (B "2"))] in
  get_diff_go a b = GoMap [(B "x", ONum (B "2"))] /\
  diff a b = OObj [(B "x", ONum (B "1")); (B "x", ONum (B "2"))].
Proof. vm_compute. split; reflexivity. Qed.

Example get_diff_go_diff_needs_nodup_a :
  let a := OObj [(B "x", ONum (B "1")); (B "x", ONum (B "1"))] in
  let b := OObj [] in
  get_diff_go a b = GoMap [(B "x", ONull)] /\
  diff a b = OObj [(B "x", ONull); (B "x", ONull)].
Proof. vm_compute. split; reflexivity. Qed.

(* Go visits the members of its maps in an arbitrary order, at every depth.  Any such order is an
   operm-variant of the decoded values; getDiff then still returns, and what it returns is the
   reference difference as a value (jeq; MergeOrder.diff_operm).  The output text is produced by
   json.Marshal, which sorts member names (encode_sorted), so the visiting order is not
   observable. *)
Lemma operm_is_obj a a' : operm a a' -> is_obj a = true -> is_obj a' = true.
Proof. intros P O. destruct a; try discriminate O. inversion P; subst. reflexivity. Qed.

Theorem get_diff_go_any_order a a' b b' :
  operm a a' -> operm b b' -> onodup a = true -> onodup b = true -> is_obj a = true -> is_obj b = true ->
  exists ms, get_diff_go a' b' = GoMap ms /\ onodup (OObj ms) = true /\ jeq (diff a b) (OObj ms) = true.
Proof.
  intros Pa Pb Na Nb Oa Ob.
  pose proof (operm_onodup _ _ Pa Na) as Na'. pose proof (operm_onodup _ _ Pb Nb) as Nb'.
  pose proof (operm_is_obj _ _ Pa Oa) as Oa'. pose proof (operm_is_obj _ _ Pb Ob) as Ob'.
  exists (members_of (diff a' b')). split; [apply get_diff_go_spec; assumption|].
  rewrite diff_members_of by assumption. split; [apply diff_nodup; assumption|].
  apply diff_operm; assumption.
Qed.

(* ---- the panic branch of getDiff is dead code on decoded JSON ---- *)
(* default: panic(...) is taken when the dynamic type of av is none of map, string, float64, bool,
   json.Number, []interface{}, nil.  A decoded value has one of six of these types (never float64,
   because useNumber is set; never anything else). *)
Lemma go_type_of_decoded j : go_type_of j <> GOther /\ go_type_of j <> GFloat64.
Proof. destruct j; split; discriminate. Qed.

(* the type assertions bv.(T) that follow a successful type test never fail *)
Lemma go_same_type_constructor a b :
  go_same_type a b = true ->
  match a, b with
  | ONull, ONull | OBool _, OBool _ | ONum _, ONum _ | OStr _, OStr _ | OArr _, OArr _ | OObj _, OObj _ => True
  | _, _ => False
  end.
Proof. destruct a, b; intro H; try discriminate H; exact I. Qed.

Definition gd_total (bv : ojson) : Prop :=
  forall a, is_obj a = true -> is_obj bv = true -> exists ms, get_diff_go a bv = GoMap ms.

Lemma gd_loop1_total am bm : Forall (fun kv => gd_total (snd kv)) bm ->
  forall into, exists ms, gd_loop1 get_diff_go am bm into = GoMap ms.
Proof.
  induction 1 as [|[key bv] bm Hbv _ IH]; intro into; [eexists; reflexivity|]. cbn [snd] in Hbv. rewrite gd_loop1_cons.
  destruct (aget key am) as [av|]; [|apply IH]. destruct (is_obj av && is_obj bv) eqn:OO; [|apply IH].
  apply andb_prop in OO as [O1 O2]. destruct (Hbv av O1 O2) as [dst ->]. apply IH.
Qed.

(* no hypothesis about duplicate names is needed here *)
Theorem get_diff_go_total b : gd_total b.
Proof.
  unfold gd_total. induction b using ojson_rect'; intros a Oa Ob; try discriminate Ob.
  apply is_obj_true in Oa as [am ->]. rewrite get_diff_go_obj.
  destruct (gd_loop1_total am ms H []) as [into E]. rewrite E. eexists. reflexivity.
Qed.

Theorem get_diff_go_no_panic am bm : get_diff_go (OObj am) (OObj bm) <> GoPanic.
Proof. destruct (get_diff_go_total (OObj bm) (OObj am) eq_refl eq_refl) as [ms E]. rewrite E. discriminate. Qed.

(* ---- createObjectMergePatch / CreateMergePatch with the Go-shaped getDiff ---- *)
Inductive cres :=
| COut (p : tjson)       (* json.Marshal(dest) *)
| CErr                   (* ErrBadJSONDoc *)
| CPanic.

(* as ImplMerge.create_object, with getDiff in the place of the reference diff.  as_obj
   (CreateFacts.v) is the unmarshalling into map[string]interface{}: an object gives its map,
   null leaves the map empty, anything else is an error. *)
Definition create_object_go (a b : tjson) : cres :=
  match as_obj a, as_obj b with
  | Some oa, Some ob =>
      match get_diff_go oa ob with
      | GoMap into => COut (encode_sorted (OObj into))
      | GoPanic => CPanic
      end
  | _, _ => CErr
  end.

Definition cres_of (r : option tjson) : cres := match r with Some p => COut p | None => CErr end.

Lemma as_obj_props t o : as_obj t = Some o -> tnodup t = true -> onodup o = true /\ is_obj o = true.
Proof.
  destruct t; intro E; try discriminate E; inversion E; subst; intro N.
  - split; reflexivity.
  - split; [exact N | reflexivity].
Qed.

Theorem create_object_go_eq a b :
  tnodup a = true -> tnodup b = true -> create_object_go a b = cres_of (create_object a b).
Proof.
  intros Na Nb. unfold create_object_go. rewrite create_object_spec.
  destruct (as_obj a) as [oa|] eqn:Ea; [|reflexivity].
  destruct (as_obj b) as [ob|] eqn:Eb; [|reflexivity].
  destruct (as_obj_props a oa Ea Na) as [Noa Ooa]. destruct (as_obj_props b ob Eb Nb) as [Nob Oob].
  rewrite (get_diff_go_spec ob oa Noa Nob Ooa Oob), diff_members_of by assumption. reflexivity.
Qed.

(* the array form: createArrayMergePatch; None is a panic *)
Fixpoint create_go_go (la lb : list tjson) (acc : list tjson) : option mres :=
  match la, lb with
  | x :: ra, y :: rb =>
      match create_object_go x y with
      | COut p => create_go_go ra rb (acc ++ [p])
      | CErr => Some (MErr MBadDoc)
      | CPanic => None
      end
  | _, _ => Some (MOut (print true (TArr acc)))
  end.

(* as ImplMerge.api_create, with create_object_go *)
Definition api_create_go (a b : bytes) : option mres :=
  match parse a, parse b with
  | Some ta, Some tb =>
      match ta, tb with
      | TArr la, TArr lb =>
          if (length la =? length lb)%nat then create_go_go la lb [] else Some (MErr MBadDoc)
      | TArr _, _ | _, TArr _ => Some (MErr MBadTypes)
      | _, _ =>
          match create_object_go ta tb with
          | COut p => Some (MOut (print true p))
          | CErr => Some (MErr MBadDoc)
          | CPanic => None
          end
      end
  | _, _ => Some (MErr MBadDoc)
  end.

Lemma create_go_go_eq la : forall lb acc,
  Forall (fun x => tnodup x = true) la -> Forall (fun x => tnodup x = true) lb ->
  create_go_go la lb acc = Some (create_go la lb acc).
Proof.
  induction la as [|x la IH]; intros lb acc Fa Fb; [reflexivity|].
  destruct lb as [|y lb]; [reflexivity|].
  inversion Fa as [|? ? Nx Fa']; subst. inversion Fb as [|? ? Ny Fb']; subst.
  cbn [create_go_go create_go]. rewrite (create_object_go_eq x y Nx Ny).
  destruct (create_object x y) as [p|]; cbn [cres_of]; [apply IH; assumption | reflexivity].
Qed.

(* on texts without duplicate member names the Go-shaped model IS the model of ImplMerge.v, so
   every theorem of Properties/C03.v about api_create / create_object holds of it *)
Theorem api_create_go_eq a b :
  (forall ta, parse a = Some ta -> tnodup ta = true) ->
  (forall tb, parse b = Some tb -> tnodup tb = true) ->
  api_create_go a b = Some (api_create a b).
Proof.
  intros Na Nb. rewrite api_create_unfold. unfold api_create_go.
  destruct (parse a) as [ta|]; [|reflexivity]. destruct (parse b) as [tb|]; [|reflexivity].
  specialize (Na ta eq_refl). specialize (Nb tb eq_refl). rewrite (create_object_go_eq ta tb Na Nb).
  destruct ta, tb; try reflexivity; try (destruct (create_object _ _); reflexivity).
  destruct (length l =? length l0)%nat; [|reflexivity].
  apply create_go_go_eq; apply Abs.tnodup_arr; assumption.
Qed.

(* a C03 theorem transported, as an instance: C03_model_correct for the Go-shaped model *)
Theorem api_create_go_correct a b ams bms :
  parse a = Some (TObj ams) -> parse b = Some (TObj bms) ->
  tnodup (TObj ams) = true -> tnodup (TObj bms) = true -> tsb (TObj ams) -> tsb (TObj bms) ->
  exists p,
    api_create_go a b = Some (MOut (print true p)) /\
    create_object_go (TObj ams) (TObj bms) = COut p /\
    p = encode_sorted (diff (den (TObj ams)) (den (TObj bms))) /\
    tsb p /\ tnodup p = true /\
    jeq (den p) (diff (den (TObj ams)) (den (TObj bms))) = true /\
    (no_null_member (den (TObj bms)) = true -> jeq (merge_patch (den (TObj ams)) (den p)) (den (TObj bms)) = true) /\
    (p = TObj [] <-> jeq (den (TObj ams)) (den (TObj bms)) = true).
Proof.
  intros Pa Pb Na Nb Sa Sb.
  destruct (api_create_correct a b ams bms Pa Pb Na Nb Sa Sb) as [p [H1 [H2 H3]]].
  exists p. split; [|split; [|split; [exact H2 | exact H3]]].
  - rewrite api_create_go_eq, H1; [reflexivity| |].
    + intros ta E. rewrite Pa in E. inversion E; subst. exact Na.
    + intros tb E. rewrite Pb in E. inversion E; subst. exact Nb.
  - rewrite (create_object_go_eq _ _ Na Nb), create_object_spec. cbn [as_obj cres_of]. rewrite H2. reflexivity.
Qed.

(* end to end on texts: the Go-shaped model on the texts of Properties/C03.v *)
Example api_create_go_ex :
  let a := B "{""a"":{""x"":1.0,""y"":2},""k"":""s<"",""n"":1e400}" in
  let b := B "{""n"":1e400,""a"":{""x"":1,""w"":[12345678901234567890123]},""z"":""<>""}" in
  api_create_go a b = Some (api_create a b) /\
  api_create_go (B "[{""a"":1},null]") (B "[{""a"":2},{""b"":null}]") = Some (MOut (B "[{""a"":2},{""b"":null}]")) /\
  api_create_go (B "3") (B "{}") = Some (MErr MBadDoc).
Proof. vm_compute. repeat split; reflexivity. Qed.

Print Assumptions matches_value_go_swap.
Print Assumptions matches_value_go_jeq.
Print Assumptions matches_array_go_jeq.
Print Assumptions get_diff_go_spec.
Print Assumptions get_diff_go_diff.
Print Assumptions get_diff_go_diff_value.
Print Assumptions get_diff_go_any_order.
Print Assumptions go_type_of_decoded.
Print Assumptions get_diff_go_total.
Print Assumptions get_diff_go_no_panic.
Print Assumptions create_object_go_eq.
Print Assumptions api_create_go_eq.
Print Assumptions api_create_go_correct.
