(* V4EqualDomain.v — statements about the legacy package restricted to, or strengthened for, the
   domain the properties speak about.

   1. Equal on object- and array-rooted texts.  The Go legacy Equal answers true for the pairs
      (null, {}), ({}, null), ([], null): a lazy node unmarshalled from the text null is the nil
      pointer, and the comparison of a nil node falls through the type switch.  The model's
      api_equal4 answers Some false there (api_equal4_null_root below), so api_equal4_spec and
      api_equal4_sound of V4EqualFacts.v, which carry no hypothesis on the root, say something about
      null-rooted texts that is not true of the library.  The property restricts Equal to texts
      whose root is an object or an array; the corollaries below carry that restriction
      (Domain.root_container) and are the ones Properties/C19.v states.

   2. The bytes MergePatch / MergeMergePatches return.  api_merge4_output_bytes and
      api_mergemerge4_output_bytes of OutputFacts.v conclude jeq (den t') spec = true only; jeq
      looks members of its LEFT argument up in the right one after comparing the lengths, so with a
      repeated name on the left it is one-sided (jeq_onesided_with_repeated_name below).  The strong
      forms add onodup (den t') = true, the other half of what render4_den provides;
      same shape as api_apply4_output_bytes (C18_apply_output_bytes). *)
From JP Require Import Bytes Json Text Strings Scan Den Rfc7396 ImplV5 ImplMerge ImplV4 Domain JsonFacts MergeFacts
  Abs ImplMergeFacts ParseFacts Codec V4MergeFacts V4EqualFacts PrintParse ScannerParse OutputFacts.

Theorem api_equal4_spec_container a b ta tb :
  parse a = Some ta -> parse b = Some tb -> root_container ta = true -> root_container tb = true ->
  tnodup ta = true -> tnodup tb = true -> tplain ta = true -> tplain tb = true ->
  api_equal4 a b = Some (jeq (den ta) (den tb)).
Proof. intros Pa Pb _ _. exact (api_equal4_spec a b ta tb Pa Pb). Qed.

Theorem api_equal4_sound_container a b ta tb :
  parse a = Some ta -> parse b = Some tb -> root_container ta = true -> root_container tb = true ->
  tnodup ta = true -> tnodup tb = true ->
  api_equal4 a b = Some true -> jeq (den ta) (den tb) = true.
Proof. intros Pa Pb _ _. exact (api_equal4_sound a b ta tb Pa Pb). Qed.

(* the model at the null root: Some false, where the Go function answers true.  These inputs are
   OUTSIDE the domain of the two theorems above (root_container TNull = false). *)
Example api_equal4_null_root :
  api_equal4 (B "null") (B "{}") = Some false /\ api_equal4 (B "{}") (B "null") = Some false /\
  api_equal4 (B "[]") (B "null") = Some false /\
  root_container TNull = false /\ parse (B "null") = Some TNull.
Proof. vm_compute. repeat split; reflexivity. Qed.

(* why jeq alone is too weak: a left argument that repeats a name *)
Example jeq_onesided_with_repeated_name :
  jeq (OObj [(B "a", ONum (B "1")); (B "a", ONum (B "1"))]) (OObj [(B "a", ONum (B "1")); (B "b", ONum (B "2"))]) = true /\
  jeq (OObj [(B "a", ONum (B "1")); (B "b", ONum (B "2"))]) (OObj [(B "a", ONum (B "1")); (B "a", ONum (B "1"))]) = false.
Proof. vm_compute. split; reflexivity. Qed.

Theorem api_merge4_output_bytes_strong doc patch td tp :
  parse doc = Some td -> parse patch = Some tp -> td <> TNull -> tnodup td = true -> tnodup tp = true ->
  scalar_text tp = false ->
  exists out t', api_merge4 false doc patch = MOut out /\ parse out = Some t' /\
                 jeq (den t') (merge_patch (den td) (den tp)) = true /\ onodup (den t') = true /\
                 valid_gen out = true.
Proof.
  intros Pd Pp NN Td Tp Sc. destruct (merge4_node_spec td tp NN Td Tp Sc) as [W V].
  exact (merge4_bytes_strong false doc patch td tp _ Pd Pp NN Sc W V).
Qed.

Theorem api_mergemerge4_output_bytes_strong p1 p2 ms1 t2 :
  parse p1 = Some (TObj ms1) -> parse p2 = Some t2 -> tnodup (TObj ms1) = true -> tnodup t2 = true ->
  compatible (den (TObj ms1)) (den t2) = true -> scalar_text t2 = false ->
  exists out t', api_merge4 true p1 p2 = MOut out /\ parse out = Some t' /\
                 jeq (den t') (mm (den (TObj ms1)) (den t2)) = true /\ onodup (den t') = true /\
                 valid_gen out = true.
Proof.
  intros P1 P2 T1 T2 C Sc. destruct (merge4_node_mm_spec ms1 t2 T1 T2 C Sc) as [W V].
  refine (merge4_bytes_strong true p1 p2 (TObj ms1) t2 _ P1 P2 _ Sc W V). discriminate.
Qed.

(* with both halves the comparison is symmetric: the output and the specified value are equal up to
   member order in both directions *)
Corollary api_merge4_output_bytes_both doc patch td tp :
  parse doc = Some td -> parse patch = Some tp -> td <> TNull -> tnodup td = true -> tnodup tp = true ->
  scalar_text tp = false ->
  exists out t', api_merge4 false doc patch = MOut out /\ parse out = Some t' /\
                 jeq (den t') (merge_patch (den td) (den tp)) = true /\
                 jeq (merge_patch (den td) (den tp)) (den t') = true.
Proof.
  intros Pd Pp NN Td Tp Sc.
  destruct (api_merge4_output_bytes_strong doc patch td tp Pd Pp NN Td Tp Sc) as [out [t' [A [P [J [N _]]]]]].
  exists out, t'. split; [exact A|]. split; [exact P|]. split; [exact J|].
  apply jeq_sym; [exact N | | exact J].
  apply merge_patch_nodup; [exact Td | exact Tp].
Qed.

Print Assumptions api_equal4_spec_container.
Print Assumptions api_equal4_sound_container.
Print Assumptions api_merge4_output_bytes_strong.
Print Assumptions api_mergemerge4_output_bytes_strong.
Print Assumptions api_merge4_output_bytes_both.
