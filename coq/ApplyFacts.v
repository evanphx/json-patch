(* ApplyFacts.v — facts about the operations of the v5 model and their loop (ImplV5.step / apply_from):
   first failure (C08), the copy-size accumulator (C12), the operations in the form "find, act at the container
   found, finish", what every operation keeps and how it can fail (Section Invariant: step_post, for any predicate
   on nodes closed under what the engine does to a node and any class of failures the container methods stay
   within; C04, C08, C15), the options that do not matter (C13). *)
From Coq Require Import Lia.
From JP Require Import Bytes Json Text Strings Den Pointer ImplV5 DecodeFacts JsonFacts ListFacts Abs ImplFacts.

Lemma apply_from_app o p1 : forall i st p2,
  apply_from o i st (p1 ++ p2) =
  match apply_from o i st p1 with
  | AOk st' => apply_from o (i + length p1) st' p2
  | r => r
  end.
Proof.
  induction p1 as [|op p1 IH]; intros i st p2; simpl.
  - now rewrite Nat.add_0_r.
  - destruct (step o st op); auto. rewrite IH. now rewrite Nat.add_succ_r.
Qed.

Theorem first_failure o p1 op p2 st st' e i :
  apply_from o i st p1 = AOk st' -> step o st' op = Err e ->
  apply_from o i st (p1 ++ op :: p2) = AErr (i + length p1) e.
Proof. intros H1 H2. rewrite apply_from_app, H1. simpl. now rewrite H2. Qed.

Lemma apply_err_split o : forall p i st k e,
  apply_from o i st p = AErr k e ->
  exists p1 op p2 st1, p = p1 ++ op :: p2 /\ k = (i + length p1)%nat /\
                       apply_from o i st p1 = AOk st1 /\ step o st1 op = Err e.
Proof.
  induction p as [|op p IH]; intros i st k e; simpl; try discriminate.
  destruct (step o st op) as [st'| |] eqn:E; try discriminate.
  - intro H. apply IH in H as [p1 [op1 [p2 [st1 [H1 [H2 [H3 H4]]]]]]].
    exists (op :: p1), op1, p2, st1. split; [rewrite H1; reflexivity|]. split; [simpl; lia|].
    split; [simpl; rewrite E; exact H3 | exact H4].
  - intro H. inversion H; subst. exists [], op, p, st. split; [reflexivity|]. split; [simpl; lia|]. auto.
Qed.

Theorem all_succeed o : forall p i st,
  (forall st1 op, In op p -> exists st2, step o st1 op = Ok st2) ->
  exists st', apply_from o i st p = AOk st'.
Proof.
  induction p as [|op p IH]; intros i st H; simpl; eauto.
  destruct (H st op (or_introl eq_refl)) as [st2 E]. rewrite E. apply IH. intros; apply H; now right.
Qed.

Definition is_copy_limit (e : errclass) : bool := match e with ECopyLimit _ _ => true | _ => false end.
Definition is_test_failed (e : errclass) : bool := match e with ETestFailed => true | _ => false end.
Definition plain_err (e : errclass) : bool := negb (is_copy_limit e) && negb (is_test_failed e).
Lemma plain_nocl e : plain_err e = true -> is_copy_limit e = false.
Proof. destruct e; simpl; auto; discriminate. Qed.
Lemma plain_notf e : plain_err e = true -> is_test_failed e = false.
Proof. destruct e; simpl; auto; discriminate. Qed.

(* what a result may be: R of the value returned, E of the error, EP if it is a panic.  "Never
   panics", "never the limit error" and "the state returned satisfies an invariant" are choices of
   (R, E, EP) in one statement per function, for both engines *)
Definition post {A} (R : A -> Prop) (E : errclass -> Prop) (EP : Prop) (r : res A) : Prop :=
  match r with Ok a => R a | Err e => E e | Panic => EP end.

Ltac break_match_hyp H :=
  repeat match type of H with
         | context [match ?x with _ => _ end] => destruct x eqn:?; try discriminate
         | context [if ?x then _ else _] => destruct x eqn:?; try discriminate
         end.

Lemma op_add_acc o st op st' : op_add o st op = Ok st' -> s_acc st' = s_acc st.
Proof. unfold op_add. intro H. break_match_hyp H; inversion H; reflexivity. Qed.

Lemma op_remove_acc o st op st' : op_remove o st op = Ok st' -> s_acc st' = s_acc st.
Proof. unfold op_remove. intro H. break_match_hyp H; inversion H; reflexivity. Qed.

Lemma op_replace_acc o st op st' : op_replace o st op = Ok st' -> s_acc st' = s_acc st.
Proof. unfold op_replace. intro H. break_match_hyp H; inversion H; reflexivity. Qed.

Lemma op_move_acc o st op st' : op_move o st op = Ok st' -> s_acc st' = s_acc st.
Proof. unfold op_move. intro H. break_match_hyp H; inversion H; reflexivity. Qed.

Lemma op_test_acc o st op st' : op_test o st op = Ok st' -> s_acc st' = s_acc st.
Proof. unfold op_test. intro H. break_match_hyp H; inversion H; reflexivity. Qed.

Theorem step_acc_noncopy o st op st' :
  op_kind op <> KCopy -> step o st op = Ok st' -> s_acc st' = s_acc st.
Proof.
  unfold step. intros K H. destruct (op_kind op); try congruence;
    eauto using op_add_acc, op_remove_acc, op_replace_acc, op_move_acc, op_test_acc.
Qed.

(* what the operations hand to find: the value member as a node, and what is done at the container found *)
Definition opv (op : operation) : node := match op_value op with Some v => v | None => NNil end.

Definition get_fn (o : opts) (c' : con) (key : bytes) : res node * con := (con_get o c' key, c').

Definition unit_fn (c' : con) (_ : bytes) : unit * con := (tt, c').

Definition add_fn (o : opts) (v : node) (c' : con) (key : bytes) : res con * con :=
  (con_add o c' key v, match con_add o c' key v with Ok c'' => c'' | _ => c' end).

Definition remove_fn (o : opts) (c' : con) (key : bytes) : res con * con :=
  (con_remove o c' key, match con_remove o c' key with Ok c'' => c'' | _ => c' end).

Definition replace_fn (o : opts) (v : node) (c' : con) (key : bytes) : res con * con :=
  match con_get o c' key with
  | Ok _ => (con_set o c' key v, match con_set o c' key v with Ok c'' => c'' | _ => c' end)
  | Err _ => (Err EMissing, c')
  | Panic => (Panic, c')
  end.

Definition test_fn (o : opts) (ov : node) (c' : con) (key : bytes) : res unit * con :=
  match con_get o c' key with
  | Ok v =>
      if is_null v then ((if is_null ov then Ok tt else Err ETestFailed), c')
      else if is_null ov then (Err ETestFailed, c')
      else if node_equal v ov then (Ok tt, con_put o c' key (deep v))
      else (Err ETestFailed, c')
  | Err EMissing => ((if is_null ov then Ok tt else Err ETestFailed), c')
  | Err e => (Err e, c')
  | Panic => (Panic, c')
  end.

Definition move_src_fn (o : opts) (c' : con) (key : bytes) : res node * con :=
  match con_get o c' key with
  | Ok v => match con_remove o c' key with Ok c'' => (Ok v, c'') | Err e => (Err e, c') | Panic => (Panic, c') end
  | Err e => (Err e, c')
  | Panic => (Panic, c')
  end.

(* how add, remove, replace, test (and the last phase of move and copy) turn what find returns into
   the result of the operation *)
Definition finish {A} (acc : Z) (r : found (res A) * con) : res state :=
  match r with
  | (FoundAt (Ok _), c2) => Ok (mkState (RCon c2) acc)
  | (FoundAt (Err e), _) => Err e
  | (FoundAt Panic, _) => Panic
  | (_, _) => Err EMissing
  end.

Lemma resolve_idx_get_err o len key e : resolve_idx_get o len key = Err e -> plain_err e = true.
Proof. unfold resolve_idx_get. intro H. break_match_hyp H; inversion H; reflexivity. Qed.

Lemma con_get_err o c key e : con_get o c key = Err e -> plain_err e = true.
Proof.
  unfold con_get. intro H. break_match_hyp H; inversion H; subst; try reflexivity.
  eapply resolve_idx_get_err; eauto.
Qed.

Lemma ary_add_err o ns key v e : ary_add o ns key v = Err e -> plain_err e = true.
Proof. intro H. pose proof (ary_add_cases o ns key v) as C. rewrite H in C. destruct C as [-> | ->]; reflexivity. Qed.
Lemma ary_set_err o ns key v e : ary_set o ns key v = Err e -> plain_err e = true.
Proof. intro H. pose proof (ary_set_cases o ns key v) as C. rewrite H in C. destruct C as [-> | ->]; reflexivity. Qed.
Lemma ary_remove_err o ns key e : ary_remove o ns key = Err e -> plain_err e = true.
Proof. intro H. pose proof (ary_remove_cases o ns key) as C. rewrite H in C. destruct C as [-> | ->]; reflexivity. Qed.

Lemma con_add_err o c key v e : con_add o c key v = Err e -> plain_err e = true.
Proof.
  unfold con_add. intro H. break_match_hyp H; inversion H; subst; try reflexivity; eauto using ary_add_err.
Qed.

Lemma con_set_err o c key v e : con_set o c key v = Err e -> plain_err e = true.
Proof.
  unfold con_set. intro H. break_match_hyp H; inversion H; subst; try reflexivity; eauto using ary_set_err.
Qed.

Lemma con_remove_err o c key e : con_remove o c key = Err e -> plain_err e = true.
Proof.
  unfold con_remove. intro H. break_match_hyp H; inversion H; subst; try reflexivity; eauto using ary_remove_err.
Qed.

Lemma op_str_err op name e : op_str op name = Err e -> plain_err e = true.
Proof. unfold op_str. intro H. break_match_hyp H; inversion H; reflexivity. Qed.

Ltac destruct_find :=
  match goal with |- context [find ?o ?c ?p ?f] => destruct (find o c p f) as [[| |?r] ?c] end.

(* the walks of copy before deepCopy: the source, the destination parent, then the source again, in
   its then-current parse state; the value found, the container the add will start from, the path *)
Definition copy_src (o : opts) (c : con) (from : bytes) (rpath : res bytes) : res (node * con * bytes) :=
  match find o c from (get_fn o) with
  | (FoundAt (Ok _), c1) =>
      match rpath with
      | Ok path =>
          match find o c1 path unit_fn with
          | (FoundAt _, c2) =>
              match (match from with
                     | [] => Ok (node_of_con c2)
                     | _ => match find o c2 from (get_fn o) with (FoundAt r, _) => r | _ => Err EMissing end
                     end) with
              | Ok v => Ok (v, c2, path)
              | Err e => Err e
              | Panic => Panic
              end
          | (_, _) => Err EMissing
          end
      | _ => Err EMissing
      end
  | (FoundAt (Err e), _) => Err e
  | (FoundAt Panic, _) => Panic
  | (_, _) => Err EMissing
  end.

Definition copy_put (o : opts) (acc : Z) (v : node) (c2 : con) (path : bytes) : res state :=
  if copy_too_deep o v then Err EInvalid else
  let (cp, sz) := deep_copy o v in
  if (0 <? o_limit o)%Z && (o_limit o <? acc + sz)%Z then Err (ECopyLimit (o_limit o) (acc + sz))
  else finish (acc + sz) (find o c2 path (add_fn o cp)).

Lemma op_copy_eq o st op :
  op_copy o st op =
  match op_str op (B "from") with
  | Ok from =>
      match s_root st with
      | RCon c => match copy_src o c from (op_str op (B "path")) with
                  | Ok (v, c2, path) => copy_put o (s_acc st) v c2 path
                  | Err e => Err e
                  | Panic => Panic
                  end
      | RNull => Err EMissing
      end
  | Err e => Err e
  | Panic => Panic
  end.
Proof.
  unfold op_copy, copy_src, copy_put, get_fn, unit_fn, add_fn. destruct (op_str op (B "from")) as [from| |]; try reflexivity.
  destruct (s_root st); try reflexivity.
  destruct_find; try reflexivity. destruct r as [v0| |]; try reflexivity.
  destruct (op_str op (B "path")) as [path| |]; try reflexivity.
  destruct_find; try reflexivity.
  match goal with |- match ?a with _ => _ end = _ => destruct a as [v| |]; reflexivity end.
Qed.

(* the other operations at a location below the root (for move: from below the root) *)
Lemma op_add_eq o st op b path c : op_str op (B "path") = Ok (b :: path) -> s_root st = RCon c ->
  op_add o st op =
  match (if o_ensure o then ensure_path o c (b :: path) else (None, c)) with
  | (Some e, _) => Err e
  | (None, c1) => finish (s_acc st) (find o c1 (b :: path) (add_fn o (opv op)))
  end.
Proof. intros Hp Hr. unfold op_add. rewrite Hp, Hr. destruct (if o_ensure o then _ else _) as [[e|] c1]; reflexivity. Qed.

Lemma op_remove_eq o st op path c : op_str op (B "path") = Ok path -> s_root st = RCon c ->
  op_remove o st op =
  match find o c path (remove_fn o) with
  | (FoundAt r, c2) => finish (s_acc st) (FoundAt r, c2)
  | (_, c2) => if o_allow o then Ok (mkState (RCon c2) (s_acc st)) else Err EMissing
  end.
Proof. intros Hp Hr. unfold op_remove. rewrite Hp, Hr. fold (remove_fn o). destruct_find; reflexivity. Qed.

Lemma op_replace_eq o st op b path c : op_str op (B "path") = Ok (b :: path) -> s_root st = RCon c ->
  op_replace o st op = finish (s_acc st) (find o c (b :: path) (replace_fn o (opv op))).
Proof. intros Hp Hr. unfold op_replace. rewrite Hp, Hr. reflexivity. Qed.

Lemma op_test_eq o st op b path c : op_str op (B "path") = Ok (b :: path) -> s_root st = RCon c ->
  op_test o st op = finish (s_acc st) (find o c (b :: path) (test_fn o (opv op))).
Proof. intros Hp Hr. unfold op_test. rewrite Hp, Hr. reflexivity. Qed.

Lemma op_move_eq o st op b from c : op_str op (B "from") = Ok (b :: from) -> s_root st = RCon c ->
  op_move o st op =
  match find o c (b :: from) (move_src_fn o) with
  | (FoundAt (Ok v), c1) =>
      match op_str op (B "path") with
      | Ok path => finish (s_acc st) (find o c1 path (add_fn o v))
      | Err e => Err e
      | Panic => Panic
      end
  | (FoundAt (Err e), _) => Err e
  | (FoundAt Panic, _) => Panic
  | (_, _) => Err EMissing
  end.
Proof. intros Hf Hr. unfold op_move. rewrite Hf, Hr. reflexivity. Qed.

(* the member the walk is about to enter: nil reads as absent *)
Definition ensure_present (o : opts) (c : con) (key : bytes) : option node :=
  match con_get o c key with Ok NNil => None | Ok n => Some n | _ => None end.

(* the array the walk stands in is padded with nulls up to the index *)
Definition ensure_pad (o : opts) (part : bytes) (c : con) : con :=
  match atoi part, c with
  | Some idx, KAry _ ns =>
      if (zlen ns + 1 <=? idx)%Z then pad_nulls o c (length ns) (Z.to_nat (idx - zlen ns)) else c
  | _, _ => c
  end.

(* the container created for an absent member: an object, unless the next token is an index or "-" *)
Definition ensure_fresh (o : opts) (nextp : bytes) : option con :=
  match atoi nextp, bseq nextp [x2d] with
  | None, false => Some (KDoc NNil [] [])
  | next_idx, _ =>
      let ai := match next_idx with Some i => i | None => 0%Z end in
      if (ai <? 0)%Z && negb (o_neg o) then None
      else if (ai <? -1)%Z then None
      else Some (pad_nulls o (KAry NNil []) 0 (Z.to_nat (if (ai <? 0)%Z then 0%Z else ai)))
  end.

Lemma ensure_present_get o c key n : ensure_present o c key = Some n -> con_get o c key = Ok n.
Proof. unfold ensure_present. destruct (con_get o c key) as [[| | |]| |]; intro H; inversion H; reflexivity. Qed.

Lemma ensure_fresh_cases o nextp ch :
  ensure_fresh o nextp = Some ch -> ch = KDoc NNil [] [] \/ exists n, ch = pad_nulls o (KAry NNil []) 0 n.
Proof.
  unfold ensure_fresh. destruct (atoi nextp); [|destruct (bseq nextp [x2d])]; cbv zeta;
    try (destruct ((_ <? 0)%Z && negb (o_neg o)); [discriminate|]; destruct (_ <? -1)%Z; [discriminate|]);
    intros [= <-]; [right; eexists; reflexivity | right; exists 0%nat; reflexivity | left; reflexivity].
Qed.

Lemma ensure_step o part nextp rest c :
  ensure o (part :: nextp :: rest) c =
  match ensure_present o c (decode_token part) with
  | Some n =>
      match into_con n with
      | Some ch => let (e, ch') := ensure o (nextp :: rest) ch in (e, con_put o c (decode_token part) (node_of_con ch'))
      | None => (None, c)
      end
  | None =>
      match ensure_fresh o nextp with
      | Some ch =>
          let (e, ch') := ensure o (nextp :: rest) ch in
          (e, ignore_err (ensure_pad o part c) (con_add o (ensure_pad o part c) (decode_token part) (node_of_con ch')))
      | None => (Some EInvalidIndex, ensure_pad o part c)
      end
  end.
Proof.
  set (r := nextp :: rest) at 2 3. change (ensure o (part :: nextp :: rest) c) with (ensure o (part :: r) c).
  unfold ensure_present, ensure_fresh. cbn [ensure]. subst r. fold (ensure_pad o part c).
  destruct (con_get o c (decode_token part)) as [[|t|keys obj|ns]| |]; try reflexivity;
    try (destruct (atoi nextp); [|destruct (bseq nextp [x2d])]; cbv zeta; try reflexivity;
         (destruct ((_ <? 0)%Z && negb (o_neg o)); [reflexivity|]; destruct (_ <? -1)%Z; reflexivity)).
  destruct t; reflexivity.
Qed.

Lemma ensure_errs o parts : forall c e c', ensure o parts c = (Some e, c') -> e = EInvalidIndex.
Proof.
  induction parts as [|p parts IH]; intros c e c'; [discriminate|].
  destruct parts as [|nextp rest]; [discriminate|]. rewrite ensure_step.
  destruct (ensure_present o c (decode_token p)) as [n|].
  - destruct (into_con n) as [ch|]; [|discriminate].
    destruct (ensure o (nextp :: rest) ch) as [e0 ch'] eqn:En. intros [= -> _]. eapply IH; eauto.
  - destruct (ensure_fresh o nextp) as [ch|]; [|intros [= <- _]; reflexivity].
    destruct (ensure o (nextp :: rest) ch) as [e0 ch'] eqn:En. intros [= -> _]. eapply IH; eauto.
Qed.

(* ---- what every operation keeps, and how it can fail ---- *)
Lemma ary_add_Forall (P : node -> Prop) o ns key v ns' :
  Forall P ns -> P v -> ary_add o ns key v = Ok ns' -> Forall P ns'.
Proof.
  intros F Hv H. pose proof (ary_add_cases o ns key v) as C. rewrite H in C. destruct C as [i ->]. now apply Forall_insert_at.
Qed.

Lemma ary_set_Forall (P : node -> Prop) o ns key v ns' :
  Forall P ns -> P v -> ary_set o ns key v = Ok ns' -> Forall P ns'.
Proof.
  intros F Hv H. pose proof (ary_set_cases o ns key v) as C. rewrite H in C. destruct C as [i ->]. now apply Forall_set_at.
Qed.

Lemma ary_remove_Forall (P : node -> Prop) o ns key ns' :
  Forall P ns -> ary_remove o ns key = Ok ns' -> Forall P ns'.
Proof.
  intros F H. pose proof (ary_remove_cases o ns key) as C. rewrite H in C. destruct C as [->|[i ->]]; [exact F | now apply Forall_remove_at].
Qed.

(* a container has the invariant when the node get("") returns and the node it stands for have it *)
Definition con_inv (Inv : node -> Prop) (c : con) : Prop :=
  Inv (match c with KDoc s _ _ => s | KDocNil s _ => s | KAry s _ => s end) /\ Inv (node_of_con c).
Definition root_inv (Inv : node -> Prop) (r : root) : Prop := match r with RCon c => con_inv Inv c | RNull => True end.
Definition state_inv (Inv : node -> Prop) (st : state) : Prop := root_inv Inv (s_root st).
Definition op_inv (Inv : node -> Prop) (op : operation) : Prop := forall t, aget (B "value") op = Some (Some t) -> Inv (NRaw t).

(* what the container methods do to a node: read, overwrite, add and delete a member, the same on elements
   (through ary) *)
Record closed_con (Inv : node -> Prop) : Prop := {
  inv_nil : Inv NNil;
  inv_ary : forall ns, Inv (NAry ns) <-> Forall Inv ns;
  inv_get : forall keys obj k v, Inv (NDoc keys obj) -> aget k obj = Some v -> Inv v;
  inv_put : forall keys obj k x v, Inv (NDoc keys obj) -> aget k obj = Some x -> Inv v -> Inv (NDoc keys (aset k v obj));
  inv_set : forall keys obj k v, Inv (NDoc keys obj) -> Inv v ->
            Inv (NDoc (fst (doc_set keys obj k v)) (snd (doc_set keys obj k v)));
  inv_del : forall keys obj k, Inv (NDoc keys obj) -> Inv (NDoc (kdel1 k keys) (adel k obj))
}.

(* ... and what the engine does besides: parse it one level (into), start an empty object, parse it all the
   way down (deep) *)
Record closed (Inv : node -> Prop) : Prop := {
  inv_con :> closed_con Inv;
  inv_into : forall n ch, Inv n -> into_con n = Some ch -> con_inv Inv ch;
  inv_empty : Inv (NDoc [] []);
  inv_deep : forall n, Inv n -> Inv (deep n)
}.

(* a class of failures (E: which errors, EP: whether a panic) that the container methods stay within on
   containers with the invariant, and that holds the errors the operations report themselves *)
Record within (Inv : node -> Prop) (E : errclass -> Prop) (EP : Prop) : Prop := {
  w_get : forall o c k, con_inv Inv c -> post (fun _ => True) E EP (con_get o c k);
  w_add : forall o c k v, con_inv Inv c -> post (fun _ => True) E EP (con_add o c k v);
  w_set : forall o c k v x, con_inv Inv c -> con_get o c k = Ok x -> post (fun _ => True) E EP (con_set o c k v);
  w_remove : forall o c k, con_inv Inv c -> post (fun _ => True) E EP (con_remove o c k);
  w_missing : E EMissing;
  w_index : E EInvalidIndex;
  w_decode : E EDecode;
  w_other : E EOther;
  w_invalid : E EInvalid
}.

Lemma post_ok {A} (R : A -> Prop) E EP r a : post R E EP r -> r = Ok a -> R a.
Proof. intros P ->. exact P. Qed.

Lemma post_any {A} (r : res A) : post (fun _ => True) (fun _ => True) True r.
Proof. destruct r; exact I. Qed.

Section ConInvariant.
  Context {Inv : node -> Prop}.
  Hypothesis HI : closed_con Inv.
  Local Notation cI := (con_inv Inv).

  Lemma con_get_inv o c key n : cI c -> con_get o c key = Ok n -> Inv n.
  Proof.
    intros [Cs Cn] H. destruct c as [s keys obj|s st|s ns]; cbn [con_get node_of_con] in *.
    - destruct key as [|b key]; [inversion H; subst; exact Cs|].
      destruct (aget (b :: key) obj) as [v|] eqn:E; inversion H; subst. exact (inv_get Inv HI _ _ _ _ Cn E).
    - destruct key; inversion H; subst; exact Cs.
    - destruct key as [|b key]; [inversion H; subst; exact Cs|].
      destruct (resolve_idx_get o (zlen ns) (b :: key)); inversion H; subst.
      apply Forall_nth_default; [exact (inv_nil Inv HI) | apply (inv_ary Inv HI); exact Cn].
  Qed.

  (* con_put is only ever called with a key at which con_get has just succeeded *)
  Lemma con_put_inv o c key ch x : cI c -> Inv ch -> con_get o c key = Ok x -> cI (con_put o c key ch).
  Proof.
    intros [Cs Cn] Hch G. destruct c as [s keys obj|s st|s ns]; cbn [con_get con_put node_of_con] in *.
    - destruct key as [|b key]; [split; assumption|]. split; [exact Cs|]. cbn [node_of_con].
      destruct (aget (b :: key) obj) as [v|] eqn:E; [|discriminate]. exact (inv_put Inv HI _ _ _ _ _ Cn E Hch).
    - split; assumption.
    - destruct key as [|b key]; [split; assumption|].
      destruct (resolve_idx_get o (zlen ns) (b :: key)) as [i| |]; try (split; assumption).
      split; [exact Cs|]. cbn [node_of_con]. apply (inv_ary Inv HI). apply (inv_ary Inv HI) in Cn. now apply Forall_set_at.
  Qed.

  Lemma con_add_inv o c key v c' : cI c -> Inv v -> con_add o c key v = Ok c' -> cI c'.
  Proof.
    intros [Cs Cn] Hv H. destruct c as [s keys obj|s st|s ns]; cbn [con_add node_of_con] in *; try discriminate.
    - pose proof (inv_set Inv HI keys obj key v Cn Hv) as D. destruct (doc_set keys obj key v) as [k' o'].
      inversion H; subst. split; [exact Cs | exact D].
    - destruct (ary_add o ns key v) as [ns'| |] eqn:E; inversion H; subst. split; [exact Cs|].
      cbn [node_of_con]. apply (inv_ary Inv HI). apply (inv_ary Inv HI) in Cn. eapply ary_add_Forall; eauto.
  Qed.

  Lemma con_set_inv o c key v c' : cI c -> Inv v -> con_set o c key v = Ok c' -> cI c'.
  Proof.
    intros [Cs Cn] Hv H. destruct c as [s keys obj|s st|s ns]; cbn [con_set node_of_con] in *; try discriminate.
    - pose proof (inv_set Inv HI keys obj key v Cn Hv) as D. destruct (doc_set keys obj key v) as [k' o'].
      inversion H; subst. split; [exact Cs | exact D].
    - destruct (ary_set o ns key v) as [ns'| |] eqn:E; inversion H; subst. split; [exact Cs|].
      cbn [node_of_con]. apply (inv_ary Inv HI). apply (inv_ary Inv HI) in Cn. eapply ary_set_Forall; eauto.
  Qed.

  Lemma con_remove_inv o c key c' : cI c -> con_remove o c key = Ok c' -> cI c'.
  Proof.
    intros [Cs Cn] H. destruct c as [s keys obj|s st|s ns]; cbn [con_remove node_of_con] in *; try discriminate.
    - destruct (amem key obj).
      + destruct (kmem key keys); inversion H; subst. split; [exact Cs | exact (inv_del Inv HI _ _ _ Cn)].
      + destruct (o_allow o); inversion H; subst. split; assumption.
    - destruct (ary_remove o ns key) as [ns'| |] eqn:E; inversion H; subst. split; [exact Cs|].
      cbn [node_of_con]. apply (inv_ary Inv HI). apply (inv_ary Inv HI) in Cn. eapply ary_remove_Forall; eauto.
  Qed.

  Lemma pad_nulls_inv o : Inv (NRaw TNull) -> forall count c from, cI c -> cI (pad_nulls o c from count).
  Proof.
    intro Inv_null. induction count as [|k IH]; intros c from C; cbn [pad_nulls]; auto.
    destruct (con_add o c (itoa (N.of_nat from)) (NRaw TNull)) as [c'| |] eqn:E; apply IH; auto.
    eapply con_add_inv; eauto.
  Qed.

End ConInvariant.

Section Invariant.
  Context {Inv : node -> Prop}.
  Hypothesis HI : closed Inv.
  Local Notation cI := (con_inv Inv).
  Local Notation sI := (state_inv Inv).

  (* ---- walk / find: any leaf action that keeps the invariant, for arbitrary tokens; what the leaf
     returns has any property Q it has on containers with the invariant ---- *)
  Lemma walk_inv {A} (Q : A -> Prop) o parts : forall c (f : con -> A * con),
    (forall c0, cI c0 -> Q (fst (f c0)) /\ cI (snd (f c0))) ->
    cI c ->
    cI (snd (walk o parts c f)) /\ (forall a, fst (walk o parts c f) = Some a -> Q a).
  Proof.
    induction parts as [|p rest IH]; intros c f Hf C; cbn [walk].
    - destruct (Hf c C) as [H1 H2]. destruct (f c) as [a c']. cbn [fst snd] in *. split; auto.
      intros a0 E. inversion E; subst; auto.
    - destruct (con_get o c (decode_token p)) as [next| |] eqn:G; try (cbn [fst snd]; split; [exact C | discriminate]).
      destruct (into_con next) as [ch|] eqn:IC; [|cbn [fst snd]; split; [exact C | discriminate]].
      destruct (IH ch f Hf (inv_into Inv HI next ch (con_get_inv HI o c _ next C G) IC)) as [H1 H2].
      destruct (walk o rest ch f) as [r ch']. cbn [fst snd] in *. split; auto.
      eapply (con_put_inv HI); eauto. exact (proj2 H1).
  Qed.

  Lemma find_inv {A} (Q : A -> Prop) o c path (f : con -> bytes -> A * con) :
    (forall c0 key, cI c0 -> Q (fst (f c0 key)) /\ cI (snd (f c0 key))) ->
    cI c ->
    cI (snd (find o c path f)) /\ (forall a, fst (find o c path f) = FoundAt a -> Q a).
  Proof.
    intros Hf C. unfold find. destruct (split_path path) as [[parts key]|].
    - destruct (walk_inv Q o parts c (fun c' => f c' key) (fun c0 => Hf c0 key) C) as [H1 H2].
      destruct (walk o parts c (fun c' => f c' key)) as [[a|] c']; cbn [fst snd] in *.
      + split; auto. intros a0 E. inversion E; subst. auto.
      + split; auto. discriminate.
    - destruct path.
      + destruct (Hf c [] C) as [H1 H2]. destruct (f c []) as [a c']. cbn [fst snd] in *. split; auto.
        intros a0 E; inversion E; subst; auto.
      + cbn [fst snd]. split; auto. discriminate.
  Qed.

  Lemma root_of_value_post o t : Inv (NRaw t) -> post (root_inv Inv) (eq EDecode) False (root_of_value o t).
  Proof.
    intro H. pose proof (fun ch => inv_into Inv HI _ ch H) as D.
    destruct t; cbn [root_of_value post into_con] in *; try reflexivity.
    - split; [exact H | exact (inv_nil Inv HI)].
    - split; [exact H | exact (proj2 (D _ eq_refl))].
    - destruct (doc_of ms) as [k ob]. split; [exact H | exact (proj2 (D _ eq_refl))].
  Qed.

  Lemma root_of_value_inv o t r : Inv (NRaw t) -> root_of_value o t = Ok r -> root_inv Inv r.
  Proof. intro H. exact (post_ok _ _ _ _ r (root_of_value_post o t H)). Qed.

  Lemma load_doc_inv o t r : Inv (NRaw t) -> load_doc o t = Ok r -> root_inv Inv r.
  Proof. exact (root_of_value_inv o t r). Qed.

  (* ---- ensurePathExists, values carried by operations: null is stored as a raw message ---- *)
  Hypothesis Inv_null : Inv (NRaw TNull).

  Lemma ensure_inv o parts : forall c, cI c -> cI (snd (ensure o parts c)).
  Proof.
    induction parts as [|part parts IH]; intros c C; [exact C|].
    destruct parts as [|nextp rest]; [exact C|]. rewrite ensure_step.
    destruct (ensure_present o c (decode_token part)) as [n|] eqn:E.
    - apply ensure_present_get in E. destruct (into_con n) as [ch|] eqn:IC; [|exact C].
      pose proof (IH ch (inv_into Inv HI n ch (con_get_inv HI o c _ n C E) IC)) as R.
      destruct (ensure o (nextp :: rest) ch) as [e ch']. cbn [snd] in *. exact (con_put_inv HI o c _ _ n C (proj2 R) E).
    - assert (C1 : cI (ensure_pad o part c)).
      { unfold ensure_pad. destruct (atoi part); auto. destruct c; auto. destruct (zlen nodes + 1 <=? z)%Z; auto.
        now apply (pad_nulls_inv HI). }
      assert (F : forall ch, ensure_fresh o nextp = Some ch -> cI ch).
      { intros ch H. apply ensure_fresh_cases in H as [->|[n ->]]; [|apply (pad_nulls_inv HI o Inv_null)];
          (split; [exact (inv_nil Inv HI)|]); [exact (inv_empty Inv HI) | apply (inv_ary Inv HI); constructor]. }
      destruct (ensure_fresh o nextp) as [ch|]; [|exact C1].
      pose proof (IH ch (F ch eq_refl)) as R. destruct (ensure o (nextp :: rest) ch) as [e ch']. cbn [snd] in *.
      destruct (con_add o _ (decode_token part) (node_of_con ch')) as [c'| |] eqn:A; cbn [ignore_err]; auto.
      exact (con_add_inv HI o _ _ _ c' C1 (proj2 R) A).
  Qed.

  Lemma ensure_path_inv o c path : cI c -> cI (snd (ensure_path o c path)).
  Proof.
    intro C. unfold ensure_path. destruct (split_slash path) as [|x [|p ps]]; auto. now apply ensure_inv.
  Qed.

  Lemma op_value_raw_inv op t : op_inv Inv op -> op_value op = Some (NRaw t) -> Inv (NRaw t).
  Proof.
    intros A. unfold op_value. destruct (aget (B "value") op) as [[t0|]|] eqn:E; intros [= <-]; [exact (A _ E) | exact Inv_null].
  Qed.

  Lemma op_value_inv op : op_inv Inv op -> Inv (opv op).
  Proof.
    intro A. unfold opv, op_value.
    destruct (aget (B "value") op) as [[t|]|] eqn:E; [exact (A t E) | exact Inv_null | exact (inv_nil Inv HI)].
  Qed.

  (* ---- the failures: a class the container methods stay within ---- *)
  Context {E : errclass -> Prop} {EP : Prop}.
  Hypothesis HW : within Inv E EP.
  Local Notation fine := (post (fun _ => True) E EP).

  (* what an operation makes of a find whose leaf keeps the invariant and stays within the class (finish) *)
  Lemma finish_post {A} acc o c path (f : con -> bytes -> res A * con) :
    (forall c0 key, cI c0 -> fine (fst (f c0 key)) /\ cI (snd (f c0 key))) -> cI c ->
    post sI E EP (finish acc (find o c path f)).
  Proof.
    intros Hf C. destruct (find_inv fine o c path f Hf C) as [H1 H2].
    destruct (find o c path f) as [[| |[a|e|]] c2]; cbn [finish post fst snd] in *;
      [exact (w_missing Inv E EP HW) | exact (w_missing Inv E EP HW) | exact H1 | exact (H2 _ eq_refl) | exact (H2 _ eq_refl)].
  Qed.

  Lemma add_fn_post o v c0 key : Inv v -> cI c0 -> fine (fst (add_fn o v c0 key)) /\ cI (snd (add_fn o v c0 key)).
  Proof.
    intros Hv C0. unfold add_fn. cbn [fst snd]. split; [apply (w_add Inv E EP HW), C0|].
    destruct (con_add o c0 key v) as [c''| |] eqn:G; auto. eapply (con_add_inv HI); eauto.
  Qed.

  Lemma remove_fn_post o c0 key : cI c0 -> fine (fst (remove_fn o c0 key)) /\ cI (snd (remove_fn o c0 key)).
  Proof.
    intros C0. unfold remove_fn. cbn [fst snd]. split; [apply (w_remove Inv E EP HW), C0|].
    destruct (con_remove o c0 key) as [c''| |] eqn:G; auto. eapply (con_remove_inv HI); eauto.
  Qed.

  Lemma replace_fn_post o v c0 key : Inv v -> cI c0 -> fine (fst (replace_fn o v c0 key)) /\ cI (snd (replace_fn o v c0 key)).
  Proof.
    intros Hv C0. unfold replace_fn. pose proof (w_get Inv E EP HW o c0 key C0) as G.
    destruct (con_get o c0 key) as [x|e|] eqn:Gx; cbn [fst snd]; [| split; [exact (w_missing Inv E EP HW) | exact C0] | split; [exact G | exact C0]].
    split; [exact (w_set Inv E EP HW o c0 key v x C0 Gx)|].
    destruct (con_set o c0 key v) as [c''| |] eqn:S; auto. eapply (con_set_inv HI); eauto.
  Qed.

  (* the leaves that hand a node back: it has the invariant *)
  Lemma get_fn_post o c0 key : cI c0 -> post Inv E EP (fst (get_fn o c0 key)) /\ cI (snd (get_fn o c0 key)).
  Proof.
    intro C0. cbn [get_fn fst snd]. split; [|exact C0]. pose proof (w_get Inv E EP HW o c0 key C0) as G.
    destruct (con_get o c0 key) as [x|e|] eqn:Gx; [exact (con_get_inv HI o c0 key x C0 Gx) | exact G | exact G].
  Qed.

  Lemma move_src_fn_post o c0 key : cI c0 -> post Inv E EP (fst (move_src_fn o c0 key)) /\ cI (snd (move_src_fn o c0 key)).
  Proof.
    intros C0. unfold move_src_fn. pose proof (w_get Inv E EP HW o c0 key C0) as G. pose proof (w_remove Inv E EP HW o c0 key C0) as R.
    destruct (con_get o c0 key) as [x|e|] eqn:Gx; try (split; [exact G | exact C0]).
    destruct (con_remove o c0 key) as [c''|e|] eqn:Rx; cbn [fst snd]; try (split; [exact R | exact C0]).
    split; [exact (con_get_inv HI o c0 key x C0 Gx) | exact (con_remove_inv HI o c0 key c'' C0 Rx)].
  Qed.

  Lemma test_fn_post o ov c0 key : E ETestFailed -> cI c0 -> fine (fst (test_fn o ov c0 key)) /\ cI (snd (test_fn o ov c0 key)).
  Proof.
    intros ET C0. unfold test_fn. pose proof (w_get Inv E EP HW o c0 key C0) as G.
    destruct (con_get o c0 key) as [x|e|] eqn:Gx; [| |split; [exact G | exact C0]].
    - destruct (is_null x); [destruct (is_null ov); split; cbn [fst post]; auto|].
      destruct (is_null ov); [split; auto|]. destruct (node_equal x ov); [|split; auto]. cbn [fst snd]. split; [exact I|].
      apply (con_put_inv HI o c0 key _ x C0); auto. apply (inv_deep Inv HI). eapply (con_get_inv HI); eauto.
    - destruct e; try (split; [exact G | exact C0]). destruct (is_null ov); split; cbn [fst post]; auto.
  Qed.

  Lemma find_get_post o c path :
    cI c -> cI (snd (find o c path (get_fn o))) /\ (forall r, fst (find o c path (get_fn o)) = FoundAt r -> post Inv E EP r).
  Proof. intro C. apply (find_inv (post Inv E EP) o c path (get_fn o)); [intros c0 key; apply get_fn_post | exact C]. Qed.

  Lemma ensure_path_post o c path : cI c ->
    cI (snd (ensure_path o c path)) /\ forall e, fst (ensure_path o c path) = Some e -> E e.
  Proof.
    intro C. split; [now apply ensure_path_inv|]. unfold ensure_path.
    destruct (split_slash path) as [|x [|p ps]]; try discriminate.
    intros e G. destruct (ensure o (p :: ps) c) as [e0 c1] eqn:En. cbn [fst] in G. subst e0.
    rewrite (ensure_errs _ _ _ _ _ En). exact (w_index Inv E EP HW).
  Qed.

  Lemma op_str_post op name : fine (op_str op name).
  Proof.
    unfold op_str. destruct (aget name op) as [[[]|]|]; cbn [post];
      exact I || exact (w_decode Inv E EP HW) || exact (w_missing Inv E EP HW).
  Qed.

  (* an add / replace of the whole document without a value member is the one panic of the engine itself *)
  Lemma whole_value op : amem (B "value") op = true \/ EP -> (exists t, op_value op = Some (NRaw t)) \/ (op_value op = None /\ EP).
  Proof. unfold amem, op_value. destruct (aget (B "value") op) as [[t|]|]; eauto. intros [H|H]; [discriminate | auto]. Qed.

  Lemma op_add_post o st op : sI st -> op_inv Inv op -> (op_str op (B "path") = Ok [] -> amem (B "value") op = true \/ EP) ->
    post sI E EP (op_add o st op).
  Proof.
    intros S A V. unfold op_add.
    destruct (op_str op (B "path")) as [[|b path]| |]; try exact (w_missing Inv E EP HW).
    - destruct (whole_value op (V eq_refl)) as [[t Ev]|[Ev P]]; rewrite Ev; [|exact P].
      pose proof (root_of_value_post o t (op_value_raw_inv op t A Ev)) as R.
      destruct (root_of_value o t) as [r|e|]; cbn [post] in *; [exact R | subst e; exact (w_decode Inv E EP HW) | contradiction].
    - unfold state_inv in S. destruct (s_root st) as [c|]; [|exact (w_missing Inv E EP HW)]. cbn [root_inv] in S.
      assert (C1 : cI (snd (if o_ensure o then ensure_path o c (b :: path) else (None, c))) /\
                   forall e, fst (if o_ensure o then ensure_path o c (b :: path) else (None, c)) = Some e -> E e).
      { destruct (o_ensure o); [now apply ensure_path_post | split; [exact S | discriminate]]. }
      destruct (if o_ensure o then ensure_path o c (b :: path) else (None, c)) as [[e|] c1]; cbn [fst snd] in C1.
      + exact (proj2 C1 e eq_refl).
      + exact (finish_post _ o c1 _ (add_fn o (opv op)) (fun c0 key => add_fn_post o _ c0 key (op_value_inv op A)) (proj1 C1)).
  Qed.

  Lemma op_remove_post o st op : sI st -> post sI E EP (op_remove o st op).
  Proof.
    intros S. unfold op_remove.
    destruct (op_str op (B "path")) as [path| |]; try exact (w_missing Inv E EP HW).
    unfold state_inv in S. destruct (s_root st) as [c|] eqn:R.
    2:{ destruct (o_allow o); [|exact (w_missing Inv E EP HW)]. cbn [post]. unfold state_inv. now rewrite R. }
    cbn [root_inv] in S.
    destruct (find_inv fine o c path (remove_fn o)) as [H1 H2]; [intros c0 key; apply remove_fn_post | exact S|].
    fold (remove_fn o).
    destruct (find o c path (remove_fn o)) as [[| |[c''|e|]] c2]; cbn [fst snd] in *;
      try (destruct (o_allow o)); cbn [post]; try exact H1; try exact (w_missing Inv E EP HW); exact (H2 _ eq_refl).
  Qed.

  Lemma op_replace_post o st op : sI st -> op_inv Inv op -> (op_str op (B "path") = Ok [] -> amem (B "value") op = true \/ EP) ->
    post sI E EP (op_replace o st op).
  Proof.
    intros S A V. unfold op_replace. pose proof (op_str_post op (B "path")) as Fp.
    destruct (op_str op (B "path")) as [[|b path]| |]; try exact Fp.
    - destruct (whole_value op (V eq_refl)) as [[t Ev]|[Ev P]]; rewrite Ev; [|exact P].
      pose proof (fun ch => inv_into Inv HI _ ch (op_value_raw_inv op t A Ev)) as D.
      destruct t; try exact (w_other Inv E EP HW); cbn [into_con] in D.
      + exact I.
      + exact (D _ eq_refl).
      + destruct (doc_of ms) as [k ob]. exact (D _ eq_refl).
    - unfold state_inv in S. destruct (s_root st) as [c|]; [|exact (w_missing Inv E EP HW)].
      exact (finish_post _ o c _ (replace_fn o (opv op)) (fun c0 key => replace_fn_post o _ c0 key (op_value_inv op A)) S).
  Qed.

  Lemma op_move_post o st op : sI st -> post sI E EP (op_move o st op).
  Proof.
    intros S. unfold op_move. pose proof (op_str_post op (B "from")) as Ff. pose proof (op_str_post op (B "path")) as Fp.
    destruct (op_str op (B "from")) as [[|b from]| |]; try exact Ff; [exact (w_invalid Inv E EP HW)|].
    unfold state_inv in S. destruct (s_root st) as [c|]; [|exact (w_missing Inv E EP HW)]. cbn [root_inv] in S.
    destruct (find_inv (post Inv E EP) o c (b :: from) (move_src_fn o)) as [H1 H2]; [intros c0 key; apply move_src_fn_post | exact S|].
    fold (move_src_fn o).
    destruct (find o c (b :: from) (move_src_fn o)) as [[| |[v|e|]] c1]; cbn [fst snd] in *;
      try exact (w_missing Inv E EP HW); try exact (H2 _ eq_refl).
    destruct (op_str op (B "path")) as [path| |]; try exact Fp.
    exact (finish_post _ o c1 path (add_fn o v) (fun c0 key => add_fn_post o v c0 key (H2 _ eq_refl)) H1).
  Qed.

  Lemma op_test_post o st op : E ETestFailed -> sI st -> post sI E EP (op_test o st op).
  Proof.
    intros ET S. unfold op_test. pose proof (op_str_post op (B "path")) as Fp.
    destruct (op_str op (B "path")) as [[|b path]| |]; try exact Fp.
    - unfold state_inv in S. cbv zeta.
      match goal with |- post _ _ _ (if ?b then _ else Err ETestFailed) => destruct b end; [|exact ET].
      destruct (s_root st) as [[s k ob|s stl|s ns]|] eqn:R; cbn [post];
        try (unfold state_inv; rewrite R; exact S);
        destruct S as [Ss Sn]; cbn [node_of_con] in *; pose proof (inv_deep Inv HI _ Sn) as D; cbn [deep] in D |- *;
        split; assumption.
    - unfold state_inv in S. destruct (s_root st) as [c|]; [|exact (w_missing Inv E EP HW)].
      exact (finish_post _ o c _ (test_fn o (opv op)) (fun c0 key => test_fn_post o _ c0 key ET) S).
  Qed.

  Lemma copy_src_post o c from rpath : cI c -> fine rpath ->
    post (fun x => Inv (fst (fst x)) /\ cI (snd (fst x)) /\ rpath = Ok (snd x)) E EP (copy_src o c from rpath).
  Proof.
    intros C Fp. unfold copy_src.
    destruct (find_get_post o c from C) as [C1 Q1].
    destruct (find o c from (get_fn o)) as [[| |[x|e|]] c1]; cbn [fst snd] in *; try exact (w_missing Inv E EP HW); try exact (Q1 _ eq_refl).
    destruct rpath as [path0| |]; try exact (w_missing Inv E EP HW).
    destruct (find_inv (fun _ : unit => True) o c1 path0 unit_fn) as [C2 _]; auto.
    destruct (find o c1 path0 _) as [[| |u] c2']; cbn [fst snd] in *; try exact (w_missing Inv E EP HW).
    destruct from as [|b from]; [exact (conj (proj2 C2) (conj C2 eq_refl))|].
    destruct (find_get_post o c2' (b :: from) C2) as [_ Q3].
    destruct (find o c2' (b :: from) (get_fn o)) as [[| |[v0|e|]] c3]; cbn [fst] in *; try exact (w_missing Inv E EP HW); try exact (Q3 _ eq_refl).
    exact (conj (Q3 _ eq_refl) (conj C2 eq_refl)).
  Qed.

  (* the second hypothesis (Cp): deepCopy re-encodes the node (render, escape_tree, a fresh NRaw), and `closed`
     says nothing of that *)
  Lemma op_copy_post o st op :
    (forall a, (0 < o_limit o)%Z -> (o_limit o < a)%Z -> E (ECopyLimit (o_limit o) a)) ->
    (forall v, Inv v -> Inv (fst (deep_copy o v))) ->
    sI st -> post sI E EP (op_copy o st op).
  Proof.
    intros EL Cp S. rewrite op_copy_eq. pose proof (op_str_post op (B "from")) as Ff.
    destruct (op_str op (B "from")) as [from| |]; try exact Ff.
    unfold state_inv in S. destruct (s_root st) as [c|]; [|exact (w_missing Inv E EP HW)]. cbn [root_inv] in S.
    pose proof (copy_src_post o c from _ S (op_str_post op (B "path"))) as Cs.
    destruct (copy_src o c from (op_str op (B "path"))) as [[[v c2] path]| |]; try exact Cs.
    destruct Cs as (Hv & C2 & _). unfold copy_put.
    destruct (copy_too_deep o v); [exact (w_invalid Inv E EP HW)|].
    pose proof (Cp v Hv) as Hcp. destruct (deep_copy o v) as [cp sz]. cbn [fst] in Hcp.
    destruct ((0 <? o_limit o)%Z && (o_limit o <? s_acc st + sz)%Z) eqn:L.
    - apply andb_prop in L as [L1 L2]. apply Z.ltb_lt in L1, L2. exact (EL _ L1 L2).
    - exact (finish_post _ o c2 path (add_fn o cp) (fun c0 key => add_fn_post o cp c0 key Hcp) C2).
  Qed.

  (* ---- one operation, the whole patch: arbitrary operations, paths, options.  The state returned has
     the invariant, an error is in the class (the test's and the limit's own where they can occur), and
     there is no panic outside it provided an add / replace of the whole document carries a value ---- *)
  Theorem step_post o st op :
    (op_kind op = KTest -> E ETestFailed) ->
    (op_kind op = KCopy -> forall a, (0 < o_limit o)%Z -> (o_limit o < a)%Z -> E (ECopyLimit (o_limit o) a)) ->
    (op_kind op = KAdd \/ op_kind op = KReplace -> op_str op (B "path") = Ok [] -> amem (B "value") op = true \/ EP) ->
    (op_kind op = KCopy -> forall v, Inv v -> Inv (fst (deep_copy o v))) ->
    sI st -> (op_kind op <> KTest -> op_inv Inv op) -> post sI E EP (step o st op).
  Proof.
    intros ET EL V Cp S A. unfold step. destruct (op_kind op).
    - apply op_add_post; auto. apply A; discriminate.
    - now apply op_remove_post.
    - apply op_replace_post; auto. apply A; discriminate.
    - now apply op_move_post.
    - apply op_copy_post; auto.
    - apply op_test_post; auto.
    - exact (w_other Inv E EP HW).
  Qed.
End Invariant.

Theorem apply_from_post {Inv E EP} (HI : closed Inv) (HW : within Inv E EP) (N : Inv (NRaw TNull)) o : forall p i st,
  E ETestFailed -> (forall a, (0 < o_limit o)%Z -> (o_limit o < a)%Z -> E (ECopyLimit (o_limit o) a)) ->
  (forall v, Inv v -> Inv (fst (deep_copy o v))) ->
  state_inv Inv st ->
  Forall (fun op => (op_kind op <> KTest -> op_inv Inv op) /\
                    (op_kind op = KAdd \/ op_kind op = KReplace -> op_str op (B "path") = Ok [] -> amem (B "value") op = true \/ EP)) p ->
  match apply_from o i st p with AOk st' => state_inv Inv st' | AErr _ e => E e | APanic _ => EP end.
Proof.
  induction p as [|op p IH]; intros i st ET EL Cp S A; cbn [apply_from]; [exact S|].
  inversion A as [|? ? [A1 V] A2]; subst.
  pose proof (step_post HI N HW o st op (fun _ => ET) (fun _ => EL) V (fun _ => Cp) S A1) as P.
  destruct (step o st op) as [st1|e|]; [|exact P|exact P]. apply IH; auto.
Qed.

(* the invariant alone: every failure allowed *)
Lemma within_any Inv : within Inv (fun _ => True) True.
Proof. split; try exact I; intros; apply post_any. Qed.

Lemma find_get_inv {Inv} (HI : closed Inv) o c path : con_inv Inv c ->
  con_inv Inv (snd (find o c path (get_fn o))) /\ (forall v, fst (find o c path (get_fn o)) = FoundAt (Ok v) -> Inv v).
Proof. intro C. destruct (find_get_post HI (within_any Inv) o c path C) as [C1 Q]. split; [exact C1|]. intros v G. exact (Q _ G). Qed.

Theorem step_inv {Inv} (HI : closed Inv) (N : Inv (NRaw TNull)) (Cp : forall o v, Inv v -> Inv (fst (deep_copy o v))) o st op st' :
  state_inv Inv st -> op_inv Inv op -> step o st op = Ok st' -> state_inv Inv st'.
Proof.
  intros S A H.
  exact (post_ok _ _ _ _ _ (step_post HI N (within_any Inv) o st op (fun _ => I) (fun _ _ _ _ => I) (fun _ _ => or_intror I) (fun _ => Cp o) S (fun _ => A)) H).
Qed.

Theorem apply_from_inv {Inv} (HI : closed Inv) (N : Inv (NRaw TNull)) (Cp : forall o v, Inv v -> Inv (fst (deep_copy o v))) o p i st st' :
  state_inv Inv st -> Forall (op_inv Inv) p -> apply_from o i st p = AOk st' -> state_inv Inv st'.
Proof.
  intros S A H.
  pose proof (apply_from_post HI (within_any Inv) N o p i st I (fun _ _ _ => I) (Cp o) S) as P. rewrite H in P. apply P.
  revert A. apply Forall_impl. intros op A. split; [intros _; exact A | intros _ _; right; exact I].
Qed.

(* ---- the error classes: no invariant is needed, and the errors of the container methods are plain ---- *)
Lemma closed_any : closed (fun _ => True).
Proof.
  split; [split|..]; try (intros; exact I).
  - intros; split; intros; [apply Forall_forall; intros; exact I | exact I].
  - intros; split; exact I.
Qed.

Lemma state_inv_any st : state_inv (fun _ => True) st.
Proof. unfold state_inv. destruct (s_root st); [split; exact I | exact I]. Qed.

Lemma within_plain (E : errclass -> Prop) : (forall e, plain_err e = true -> E e) -> within (fun _ => True) E True.
Proof.
  intro Pl. split; try (apply Pl; reflexivity); intros;
    match goal with |- post _ _ _ ?r => destruct r eqn:G; cbn [post]; try exact I; apply Pl end;
    eauto using con_get_err, con_add_err, con_set_err, con_remove_err.
Qed.

(* whatever class holds the plain errors, and the operation's own where it is a test or a copy, holds every error of a step *)
Theorem step_errs (E : errclass -> Prop) o st op e :
  (forall e, plain_err e = true -> E e) ->
  (op_kind op = KTest -> E ETestFailed) ->
  (op_kind op = KCopy -> forall a, (0 < o_limit o)%Z -> (o_limit o < a)%Z -> E (ECopyLimit (o_limit o) a)) ->
  step o st op = Err e -> E e.
Proof.
  intros Pl ET EL H.
  pose proof (step_post closed_any I (within_plain E Pl) o st op ET EL (fun _ _ => or_intror I) (fun _ _ _ => I)
                (state_inv_any st) (fun _ _ _ => I)) as P.
  rewrite H in P. exact P.
Qed.

Theorem step_plain o st op e : op_kind op <> KCopy -> op_kind op <> KTest -> step o st op = Err e -> plain_err e = true.
Proof. intros NC NT. apply (step_errs (fun e => plain_err e = true)); auto; congruence. Qed.

Lemma op_add_nocl o st op e : op_add o st op = Err e -> plain_err e = true.
Proof.
  intro H. pose proof (op_add_post closed_any I (within_plain _ (fun e P => P)) o st op (state_inv_any st) (fun _ _ => I)
                         (fun _ => or_intror I)) as P.
  rewrite H in P. exact P.
Qed.

Theorem test_failed_only_by_test o st op :
  step o st op = Err ETestFailed -> op_kind op = KTest.
Proof.
  intro H. destruct (op_kind op) eqn:K; auto; exfalso;
    refine (step_errs (fun e => e <> ETestFailed) o st op _ _ _ _ H eq_refl); try (rewrite K; discriminate);
    intros e P G; subst e; discriminate P.
Qed.

(* the limit error is raised by copy, exactly by the comparison of the running total *)
Theorem step_copy_limit o st op l a :
  step o st op = Err (ECopyLimit l a) ->
  op_kind op = KCopy /\ (0 < o_limit o)%Z /\ l = o_limit o /\ (o_limit o < a)%Z.
Proof.
  intro H.
  refine (step_errs (fun e => forall l a, e = ECopyLimit l a -> op_kind op = KCopy /\ (0 < o_limit o)%Z /\ l = o_limit o /\ (o_limit o < a)%Z)
            o st op _ _ _ _ H l a eq_refl).
  - intros e P l0 a0 ->. discriminate P.
  - intros _ l0 a0 G. discriminate G.
  - intros Kc a0 L1 L2 l0 a1 [= <- <-]. auto.
Qed.

Theorem op_copy_within o st op st' :
  op_copy o st op = Ok st' -> (0 < o_limit o)%Z -> (s_acc st' <= o_limit o)%Z.
Proof.
  rewrite op_copy_eq. intros H L. destruct (op_str op (B "from")) as [from| |]; try discriminate.
  destruct (s_root st); try discriminate.
  destruct (copy_src o c from (op_str op (B "path"))) as [[[v c2] path]| |]; try discriminate. unfold copy_put in H.
  destruct (copy_too_deep o v); [discriminate|]. destruct (deep_copy o v) as [cp sz].
  destruct ((0 <? o_limit o)%Z && (o_limit o <? s_acc st + sz)%Z) eqn:E; [discriminate|].
  destruct (find o c2 path _) as [[| |[x| |]] c3]; inversion H; subst. cbn [s_acc].
  apply andb_false_iff in E as [E|E]; apply Z.ltb_ge in E; lia.
Qed.

Theorem apply_limit_error o : forall p i st j l a,
  apply_from o i st p = AErr j (ECopyLimit l a) ->
  exists op, nth_error p (j - i) = Some op /\ (i <= j)%nat /\
             op_kind op = KCopy /\ (0 < o_limit o)%Z /\ l = o_limit o /\ (o_limit o < a)%Z.
Proof.
  intros p i st j l a H. apply apply_err_split in H as [p1 [op [p2 [st1 [-> [-> [_ H]]]]]]].
  exists op. split; [rewrite Nat.add_comm, Nat.add_sub; apply nth_error_mid|]. split; [apply Nat.le_add_r|].
  exact (step_copy_limit _ _ _ _ _ H).
Qed.

Lemma con_ops_neg o o' : o_neg o = o_neg o' ->
  con_get o = con_get o' /\ con_put o = con_put o' /\ con_add o = con_add o' /\ con_set o = con_set o'.
Proof.
  destruct o as [n l a e s t z], o' as [n' l' a' e' s' t' z']; cbn [o_neg]; intros ->.
  split; [|split; [|split]]; reflexivity.
Qed.

Lemma con_remove_opts o o' : o_neg o = o_neg o' -> o_allow o = o_allow o' -> con_remove o = con_remove o'.
Proof. destruct o as [n l a e s t z], o' as [n' l' a' e' s' t' z']; cbn [o_neg o_allow]; intros -> ->; reflexivity. Qed.

(* ---- two runs of one operation: under options o on a state, and under options o' on the state whose
   residue of the decoder pool (the stale key list of a null document) is rewritten by h.  The runs agree
   when o and o' agree on what the operation reads (step_rs).  With h the identity this says that a step
   depends on the options only through the fields its operation reads (step_opts); with h erasing the list
   and o' = set_stale o [] it is Pool.v's erasure.  Nodes are equal in both runs: KDocNil is never a node ---- *)
Definition rmap {A B} (f : A -> B) (r : res A) : res B :=
  match r with Ok a => Ok (f a) | Err e => Err e | Panic => Panic end.
Definition fmap {A B} (g : A -> B) (x : found A) : found B :=
  match x with FoundRoot => FoundRoot | FoundNil => FoundNil | FoundAt a => FoundAt (g a) end.

(* the stale key list of a null document rewritten by h; nothing else of a container, and nothing of a node *)
Definition restale (h : list bytes -> list bytes) (c : con) : con :=
  match c with KDocNil s st => KDocNil s (h st) | _ => c end.
Definition restale_root h (r : root) : root := match r with RCon c => RCon (restale h c) | RNull => RNull end.
Definition restale_st h (st : state) : state := mkState (restale_root h (s_root st)) (s_acc st).

Section TwoRun.
  Variable h : list bytes -> list bytes.
  Variables o o' : opts.
  Local Notation rs := (restale h).
  Hypothesis Hn : o_neg o = o_neg o'.

  Lemma con_get_rs c k : con_get o' (rs c) k = con_get o c k.
  Proof. rewrite <- (proj1 (con_ops_neg o o' Hn)). destruct c; reflexivity. Qed.

  Lemma con_put_rs c k ch : con_put o' (rs c) k ch = rs (con_put o c k ch).
  Proof.
    rewrite <- (proj1 (proj2 (con_ops_neg o o' Hn))).
    destruct c as [s ks ob|s st|s ns]; cbn [restale con_put]; try reflexivity; destruct k as [|b k]; try reflexivity.
    destruct (resolve_idx_get o (zlen ns) (b :: k)); reflexivity.
  Qed.

  Lemma con_add_rs c k v : con_add o' (rs c) k v = rmap rs (con_add o c k v).
  Proof.
    rewrite <- (proj1 (proj2 (proj2 (con_ops_neg o o' Hn)))).
    destruct c as [s ks ob|s st|s ns]; cbn [restale con_add];
      [destruct (doc_set ks ob k v) | | destruct (ary_add o ns k v)]; reflexivity.
  Qed.

  Lemma con_set_rs c k v : con_set o' (rs c) k v = rmap rs (con_set o c k v).
  Proof.
    rewrite <- (proj2 (proj2 (proj2 (con_ops_neg o o' Hn)))).
    destruct c as [s ks ob|s st|s ns]; cbn [restale con_set];
      [destruct (doc_set ks ob k v) | | destruct (ary_set o ns k v)]; reflexivity.
  Qed.

  Lemma node_of_con_rs c : node_of_con (rs c) = node_of_con c.
  Proof. destruct c; reflexivity. Qed.

  (* into never yields the null document *)
  Lemma into_con_rs n ch : into_con n = Some ch -> rs ch = ch.
  Proof.
    destruct n as [|t|ks ob|ns]; cbn [into_con]; try discriminate; [destruct t; try discriminate; [|destruct (doc_of ms)]|..];
      intros [= <-]; reflexivity.
  Qed.

  Lemma walk_rs {A B} (g : A -> B) parts : forall c (f : con -> A * con) (f' : con -> B * con),
    (forall cp, f' (rs cp) = (g (fst (f cp)), rs (snd (f cp)))) ->
    walk o' parts (rs c) f' = (option_map g (fst (walk o parts c f)), rs (snd (walk o parts c f))).
  Proof.
    induction parts as [|p parts IH]; intros c f f' F; cbn [walk].
    - rewrite F. destruct (f c); reflexivity.
    - rewrite con_get_rs. destruct (con_get o c (decode_token p)) as [next| |]; try reflexivity.
      destruct (into_con next) as [ch|] eqn:E; try reflexivity.
      pose proof (IH ch f f' F) as W. rewrite (into_con_rs _ _ E) in W. rewrite W.
      destruct (walk o parts ch f) as [r ch']. cbn [fst snd].
      rewrite node_of_con_rs, con_put_rs. reflexivity.
  Qed.

  Lemma find_rs {A B} (g : A -> B) c path (f : con -> bytes -> A * con) (f' : con -> bytes -> B * con) :
    (forall cp k, f' (rs cp) k = (g (fst (f cp k)), rs (snd (f cp k)))) ->
    find o' (rs c) path f' = (fmap g (fst (find o c path f)), rs (snd (find o c path f))).
  Proof.
    intro F. unfold find. destruct (split_path path) as [[parts key]|].
    - rewrite (walk_rs g parts c (fun c' => f c' key) (fun c' => f' c' key)) by (intro; apply F).
      destruct (walk o parts c (fun c' => f c' key)) as [[a|] c1]; reflexivity.
    - destruct path; try reflexivity. rewrite F. destruct (f c []); reflexivity.
  Qed.

  Lemma pad_nulls_rs : forall count c from, pad_nulls o' (rs c) from count = rs (pad_nulls o c from count).
  Proof.
    induction count as [|k IH]; intros c from; cbn [pad_nulls]; auto.
    rewrite con_add_rs. destruct (con_add o c (itoa (N.of_nat from)) (NRaw TNull)); cbn [rmap]; apply IH.
  Qed.

  Lemma ensure_rs parts : forall c, ensure o' parts (rs c) = (fst (ensure o parts c), rs (snd (ensure o parts c))).
  Proof.
    induction parts as [|p parts IH]; intro c; [reflexivity|].
    destruct parts as [|nextp rest]; [reflexivity|]. rewrite !ensure_step.
    unfold ensure_present at 1. rewrite con_get_rs. fold (ensure_present o c (decode_token p)).
    destruct (ensure_present o c (decode_token p)) as [n|].
    - destruct (into_con n) as [ch|] eqn:E; [|reflexivity]. rewrite <- (into_con_rs _ _ E) at 1. rewrite IH.
      destruct (ensure o (nextp :: rest) ch) as [e ch']. cbn [fst snd]. now rewrite node_of_con_rs, con_put_rs.
    - assert (Pad : ensure_pad o' p (rs c) = rs (ensure_pad o p c)).
      { unfold ensure_pad. destruct (atoi p); [|reflexivity]. destruct c as [| |s ns]; try reflexivity.
        cbn [restale]. destruct (zlen ns + 1 <=? z)%Z; [|reflexivity]. exact (pad_nulls_rs _ (KAry s ns) _). }
      assert (Fr : ensure_fresh o' nextp = option_map rs (ensure_fresh o nextp)).
      { unfold ensure_fresh. rewrite <- Hn.
        destruct (atoi nextp); [|destruct (bseq nextp [x2d])]; cbv zeta; try reflexivity;
          (destruct ((_ <? 0)%Z && negb (o_neg o)); [reflexivity|]; destruct (_ <? -1)%Z; [reflexivity|]);
          cbn [option_map]; f_equal; exact (pad_nulls_rs _ (KAry NNil []) 0%nat). }
      rewrite Pad, Fr. destruct (ensure_fresh o nextp) as [ch|]; [|reflexivity]. cbn [option_map]. rewrite IH.
      destruct (ensure o (nextp :: rest) ch) as [e ch']. cbn [fst snd].
      rewrite node_of_con_rs, con_add_rs. destruct (con_add o _ _ _); reflexivity.
  Qed.

  Lemma ensure_path_rs c path :
    ensure_path o' (rs c) path = (fst (ensure_path o c path), rs (snd (ensure_path o c path))).
  Proof. unfold ensure_path. destruct (split_slash path) as [|? [|? ?]]; try reflexivity. apply ensure_rs. Qed.

  Lemma add_fn_rs v cp k : add_fn o' v (rs cp) k = (rmap rs (fst (add_fn o v cp k)), rs (snd (add_fn o v cp k))).
  Proof. unfold add_fn. rewrite con_add_rs. destruct (con_add o cp k v); reflexivity. Qed.

  Lemma replace_fn_rs v cp k :
    replace_fn o' v (rs cp) k = (rmap rs (fst (replace_fn o v cp k)), rs (snd (replace_fn o v cp k))).
  Proof.
    unfold replace_fn. rewrite con_get_rs. destruct (con_get o cp k); try reflexivity.
    rewrite con_set_rs. destruct (con_set o cp k v); reflexivity.
  Qed.

  Lemma test_fn_rs ov cp k :
    test_fn o' ov (rs cp) k = (rmap (fun u => u) (fst (test_fn o ov cp k)), rs (snd (test_fn o ov cp k))).
  Proof.
    unfold test_fn. rewrite con_get_rs. destruct (con_get o cp k) as [v|e|]; try reflexivity.
    - destruct (is_null v); [destruct (is_null ov); reflexivity|]. destruct (is_null ov); [reflexivity|].
      destruct (node_equal v ov); [|reflexivity]. cbn [fst snd rmap]. now rewrite con_put_rs.
    - destruct e; try reflexivity. destruct (is_null ov); reflexivity.
  Qed.

  Lemma get_fn_rs cp k : get_fn o' (rs cp) k = (fst (get_fn o cp k), rs (snd (get_fn o cp k))).
  Proof. unfold get_fn. now rewrite con_get_rs. Qed.

  Lemma finish_rs {A B} (g : A -> B) acc c path (f : con -> bytes -> res A * con) (f' : con -> bytes -> res B * con) :
    (forall cp k, f' (rs cp) k = (rmap g (fst (f cp k)), rs (snd (f cp k)))) ->
    finish acc (find o' (rs c) path f') = rmap (restale_st h) (finish acc (find o c path f)).
  Proof.
    intro F. rewrite (find_rs (rmap g) c path f f' F). destruct (find o c path f) as [[| |[a| |]] c2]; reflexivity.
  Qed.

  Ltac root_cases st :=
    destruct st as [rt acc]; unfold restale_st; cbn [s_root s_acc]; destruct rt as [c|]; cbn [restale_root].

  Lemma op_replace_rs st op : op_replace o' (restale_st h st) op = rmap (restale_st h) (op_replace o st op).
  Proof.
    unfold op_replace. destruct (op_str op (B "path")) as [[|x path]| |]; try reflexivity.
    - destruct (op_value op) as [[|t| |]|]; try reflexivity. destruct t; try reflexivity; try (destruct (doc_of ms); reflexivity).
    - root_cases st; [|reflexivity].
      exact (finish_rs rs acc c _ (replace_fn o (opv op)) (replace_fn o' (opv op)) (replace_fn_rs _)).
  Qed.

  Lemma op_test_rs st op : op_test o' (restale_st h st) op = rmap (restale_st h) (op_test o st op).
  Proof.
    unfold op_test. destruct (op_str op (B "path")) as [[|x path]| |]; try reflexivity.
    - root_cases st; [|destruct (node_equal _ _); reflexivity].
      destruct c as [s ks ob|s sk|s ns]; cbn [restale root_node node_of_con].
      + destruct (node_equal _ _); [|reflexivity]. destruct (deep (NDoc ks ob)); reflexivity.
      + destruct (is_null _); [reflexivity|]. destruct (shape_of _) as [|[|]|]; reflexivity.
      + destruct (node_equal _ _); reflexivity.
    - root_cases st; [|reflexivity].
      exact (finish_rs (fun u => u) acc c _ (test_fn o (opv op)) (test_fn o' (opv op)) (test_fn_rs _)).
  Qed.

  Lemma copy_src_rs c from rpath :
    copy_src o' (rs c) from rpath = rmap (fun x => (fst (fst x), rs (snd (fst x)), snd x)) (copy_src o c from rpath).
  Proof.
    unfold copy_src.
    rewrite (find_rs (fun r : res node => r) c from (get_fn o) (get_fn o') get_fn_rs).
    destruct (find o c from (get_fn o)) as [[| |[v0| |]] c1]; try reflexivity. cbn [fmap fst snd].
    destruct rpath as [path| |]; try reflexivity.
    rewrite (find_rs (fun u : unit => u) c1 path unit_fn) by reflexivity.
    destruct (find o c1 path _) as [[| |u] c2]; try reflexivity. cbn [fmap fst snd].
    destruct from; [now rewrite node_of_con_rs|].
    rewrite (find_rs (fun r : res node => r) c2 (b :: from) (get_fn o) (get_fn o') get_fn_rs).
    destruct (find o c2 (b :: from) (get_fn o)) as [[| |[v| |]] c3]; reflexivity.
  Qed.

  (* copy reads the copy-size limit and what deepCopy needs: the escape setting, the size of a null *)
  Lemma op_copy_rs st op : o_limit o = o_limit o' -> o_esc o = o_esc o' -> o_nullsz o = o_nullsz o' ->
    op_copy o' (restale_st h st) op = rmap (restale_st h) (op_copy o st op).
  Proof.
    intros L E N. rewrite !op_copy_eq. destruct (op_str op (B "from")) as [from| |]; try reflexivity.
    root_cases st; [|reflexivity]. rewrite copy_src_rs.
    destruct (copy_src o c from (op_str op (B "path"))) as [[[v c2] path]| |]; try reflexivity. cbn [rmap fst snd].
    unfold copy_put, copy_too_deep, deep_copy. rewrite <- L, <- E, <- N.
    match goal with |- (if ?b then _ else _) = _ => destruct b; try reflexivity end.
    match goal with |- (let (_, _) := ?d in _) = _ => destruct d as [cp sz] end.
    destruct ((0 <? o_limit o)%Z && (o_limit o <? acc + sz)%Z); [reflexivity|].
    exact (finish_rs rs _ c2 path (add_fn o cp) (add_fn o' cp) (add_fn_rs cp)).
  Qed.

  (* add also reads EnsurePathExistsOnAdd and, for the empty path, what the decoder pool holds *)
  Lemma op_add_rs st op : o_ensure o = o_ensure o' -> h (o_stale o) = o_stale o' ->
    op_add o' (restale_st h st) op = rmap (restale_st h) (op_add o st op).
  Proof.
    intros En S. unfold op_add. rewrite <- En.
    destruct (op_str op (B "path")) as [[|x path]| |]; try reflexivity.
    - destruct (op_value op) as [[|t| |]|]; try reflexivity. unfold root_of_value. rewrite <- S.
      destruct t; try reflexivity; try (destruct (doc_of ms); reflexivity).
    - root_cases st; [|reflexivity].
      assert (E : (if o_ensure o then ensure_path o' (rs c) (x :: path) else (None, rs c)) =
                  (fst (if o_ensure o then ensure_path o c (x :: path) else (None, c)),
                   rs (snd (if o_ensure o then ensure_path o c (x :: path) else (None, c))))).
      { destruct (o_ensure o); [apply ensure_path_rs | reflexivity]. }
      rewrite E. destruct (if o_ensure o then ensure_path o c (x :: path) else (None, c)) as [[e|] c1]; cbn [fst snd]; try reflexivity.
      exact (finish_rs rs acc c1 _ (add_fn o (opv op)) (add_fn o' (opv op)) (add_fn_rs _)).
  Qed.

  Hypothesis Ha : o_allow o = o_allow o'.

  Lemma con_remove_rs c k : con_remove o' (rs c) k = rmap rs (con_remove o c k).
  Proof.
    rewrite <- (con_remove_opts o o' Hn Ha). destruct c as [s ks ob|s st|s ns]; cbn [restale con_remove]; try reflexivity.
    - destruct (amem k ob); [destruct (kmem k ks)|destruct (o_allow o)]; reflexivity.
    - destruct (ary_remove o ns k); reflexivity.
  Qed.

  Lemma remove_fn_rs cp k : remove_fn o' (rs cp) k = (rmap rs (fst (remove_fn o cp k)), rs (snd (remove_fn o cp k))).
  Proof. unfold remove_fn. rewrite con_remove_rs. destruct (con_remove o cp k); reflexivity. Qed.

  Lemma move_src_fn_rs cp k : move_src_fn o' (rs cp) k = (fst (move_src_fn o cp k), rs (snd (move_src_fn o cp k))).
  Proof.
    unfold move_src_fn. rewrite con_get_rs. destruct (con_get o cp k); try reflexivity.
    rewrite con_remove_rs. destruct (con_remove o cp k); reflexivity.
  Qed.

  Lemma op_remove_rs st op : op_remove o' (restale_st h st) op = rmap (restale_st h) (op_remove o st op).
  Proof.
    unfold op_remove. rewrite <- Ha.
    destruct (op_str op (B "path")) as [path| |]; try reflexivity.
    root_cases st; [|destruct (o_allow o); reflexivity].
    fold (remove_fn o) (remove_fn o').
    rewrite (find_rs (rmap rs) c path (remove_fn o) (remove_fn o') remove_fn_rs).
    destruct (find o c path (remove_fn o)) as [[| |[a| |]] c2]; try reflexivity; destruct (o_allow o); reflexivity.
  Qed.

  Lemma op_move_rs st op : op_move o' (restale_st h st) op = rmap (restale_st h) (op_move o st op).
  Proof.
    unfold op_move. destruct (op_str op (B "from")) as [[|x from]| |]; try reflexivity.
    root_cases st; [|reflexivity].
    fold (move_src_fn o) (move_src_fn o').
    rewrite (find_rs (fun r : res node => r) c (x :: from) (move_src_fn o) (move_src_fn o') move_src_fn_rs).
    destruct (find o c (x :: from) (move_src_fn o)) as [[| |[v| |]] c1]; try reflexivity. cbn [fmap fst snd].
    destruct (op_str op (B "path")) as [path| |]; try reflexivity.
    exact (finish_rs rs acc c1 path (add_fn o v) (add_fn o' v) (add_fn_rs v)).
  Qed.
End TwoRun.

(* the options an operation reads; h is what becomes of the decoder pool's residue *)
Definition reads_alike (h : list bytes -> list bytes) (op : operation) (o o' : opts) : Prop :=
  o_neg o = o_neg o' /\
  match op_kind op with
  | KAdd => o_ensure o = o_ensure o' /\ h (o_stale o) = o_stale o'
  | KRemove | KMove => o_allow o = o_allow o'
  | KCopy => o_limit o = o_limit o' /\ o_esc o = o_esc o' /\ o_nullsz o = o_nullsz o'
  | _ => True
  end.

Theorem step_rs h o o' st op : reads_alike h op o o' -> step o' (restale_st h st) op = rmap (restale_st h) (step o st op).
Proof.
  unfold reads_alike, step. intros [H K]. destruct (op_kind op).
  - apply op_add_rs; tauto.
  - apply op_remove_rs; assumption.
  - apply op_replace_rs; assumption.
  - apply op_move_rs; assumption.
  - apply op_copy_rs; tauto.
  - apply op_test_rs; assumption.
  - reflexivity.
Qed.

(* the same state: h the identity *)
Lemma restale_same c : restale (fun s => s) c = c.
Proof. destruct c; reflexivity. Qed.

Lemma restale_st_same st : restale_st (fun s => s) st = st.
Proof. destruct st as [[c|] acc]; [unfold restale_st; cbn [s_root restale_root]; rewrite restale_same|]; reflexivity. Qed.

Lemma find_neg {A} o o' c path (f : con -> bytes -> A * con) :
  o_neg o = o_neg o' -> find o c path f = find o' c path f.
Proof.
  intro H. rewrite <- (restale_same c) at 2. rewrite (find_rs (fun s => s) o o' H (fun a => a) c path f f).
  - destruct (find o c path f) as [[| |a] c1]; cbn [fmap fst snd]; now rewrite restale_same.
  - intros cp k. rewrite !restale_same. now destruct (f cp k).
Qed.

Lemma copy_src_neg o o' c from rpath : o_neg o = o_neg o' -> copy_src o c from rpath = copy_src o' c from rpath.
Proof.
  intro H. rewrite <- (restale_same c) at 2. rewrite (copy_src_rs (fun s => s) o o' H).
  destruct (copy_src o c from rpath) as [[[v c2] p]| |]; cbn [rmap fst snd]; now rewrite ?restale_same.
Qed.

Definition same_reads : operation -> opts -> opts -> Prop := reads_alike (fun s => s).

Theorem step_opts o o' st op : same_reads op o o' -> step o st op = step o' st op.
Proof.
  intro R. rewrite <- (restale_st_same st) at 2. rewrite (step_rs _ o o' st op R).
  destruct (step o st op); cbn [rmap]; now rewrite ?restale_st_same.
Qed.

Definition set_allow (o : opts) (b : bool) : opts :=
  mkOpts (o_neg o) (o_limit o) b (o_ensure o) (o_esc o) (o_stale o) (o_nullsz o).

(* move removes a member only after get found it, so the option is never consulted *)
Lemma remove_after_get_allow o b c key v :
  con_get o c key = Ok v -> key <> [] -> con_remove (set_allow o b) c key = con_remove o c key.
Proof.
  destruct c as [s ks ob|s|s ns]; simpl; intros G K.
  - destruct key; [congruence|]. unfold amem. destruct (aget (b0 :: key) ob); [reflexivity|discriminate].
  - reflexivity.
  - destruct key; [congruence|]. unfold ary_remove, resolve_idx_get in *.
    change (o_neg (set_allow o b)) with (o_neg o). change (o_allow (set_allow o b)) with b.
    destruct (atoi (b0 :: key)) as [idx|]; auto.
    destruct (idx <? 0)%Z eqn:E0.
    + destruct (negb (o_neg o)); [discriminate|].
      destruct (idx <? - zlen ns)%Z eqn:E1; [discriminate|].
      destruct (zlen ns <=? idx + zlen ns)%Z eqn:E2; [discriminate|].
      assert ((zlen ns <=? idx)%Z = false) by (apply Z.leb_gt; apply Z.ltb_lt in E0; apply Z.leb_gt in E2; lia).
      rewrite H. reflexivity.
    + destruct (zlen ns <=? idx)%Z; [discriminate|]. reflexivity.
Qed.

(* the key at which find applies its leaf function *)
Definition leaf_key (path : bytes) : bytes :=
  match split_path path with Some (_, key) => key | None => [] end.

Lemma find_ext {A} o c path (f g : con -> bytes -> A * con) :
  (forall c', f c' (leaf_key path) = g c' (leaf_key path)) -> find o c path f = find o c path g.
Proof.
  unfold leaf_key. intro E. unfold find. destruct (split_path path) as [[parts key]|].
  - assert (W : forall parts c, walk o parts c (fun c' => f c' key) = walk o parts c (fun c' => g c' key)).
    { induction parts0 as [|p ps IH]; intro c0; cbn [walk].
      - now rewrite E.
      - destruct (con_get o c0 (decode_token p)); auto. destruct (into_con a); auto. now rewrite IH. }
    now rewrite W.
  - destruct path; auto. now rewrite E.
Qed.

(* move: the option is not consulted when the last reference token of from is not empty (an empty
   token is outside every stated domain: it addresses the container's own node) *)
Lemma op_move_allow o b st op :
  (forall from, op_str op (B "from") = Ok from -> leaf_key from <> []) ->
  op_move (set_allow o b) st op = op_move o st op.
Proof.
  destruct (con_ops_neg (set_allow o b) o eq_refl) as [G [_ [A _]]].
  unfold op_move. intro LK. rewrite G, A. destruct (op_str op (B "from")) as [[|x from]| |]; auto.
  specialize (LK _ eq_refl).
  destruct (s_root st); auto. rewrite (find_neg (set_allow o b) o _ _ _ eq_refl).
  match goal with |- match find _ _ _ ?f with _ => _ end = match find _ _ _ ?g with _ => _ end =>
    rewrite (find_ext o c (x :: from) f g) end.
  - destruct_find; auto. destruct r as [v| |]; auto.
    destruct (op_str op (B "path")) as [path| |]; auto. rewrite (find_neg (set_allow o b) o _ _ _ eq_refl). reflexivity.
  - intros c'. destruct (con_get o c' (leaf_key (x :: from))) as [v| |] eqn:E; auto.
    rewrite (remove_after_get_allow o b c' _ v E LK). reflexivity.
Qed.

Lemma walk_leaf_ext {A} o parts : forall c (f g : con -> A * con) a c2,
  walk o parts c f = (Some a, c2) -> (forall c0, fst (f c0) = a -> g c0 = f c0) ->
  walk o parts c g = (Some a, c2).
Proof.
  induction parts as [|p parts IH]; intros c f g a c2; cbn [walk].
  - destruct (f c) as [a0 c0] eqn:E. intros H G. inversion H; subst. rewrite (G c) by now rewrite E. now rewrite E.
  - destruct (con_get o c (decode_token p)); try discriminate. destruct (into_con a0); try discriminate.
    destruct (walk o parts c0 f) as [r ch'] eqn:E. intros H G. inversion H; subst.
    erewrite IH; eauto.
Qed.

Lemma find_leaf_ext {A} o c path (f g : con -> bytes -> A * con) a c2 :
  find o c path f = (FoundAt a, c2) -> (forall c0 k, fst (f c0 k) = a -> g c0 k = f c0 k) ->
  find o c path g = (FoundAt a, c2).
Proof.
  unfold find. destruct (split_path path) as [[parts key]|].
  - destruct (walk o parts c (fun c' => f c' key)) as [[a0|] c1] eqn:E; intros H G; inversion H; subst.
    erewrite walk_leaf_ext; eauto. intros; apply G; auto.
  - destruct path; try discriminate. destruct (f c []) as [a0 c0] eqn:E. intros H G. inversion H; subst.
    rewrite (G c []) by now rewrite E. now rewrite E.
Qed.

Lemma ary_remove_allow_ok o ns key ns' :
  ary_remove (set_allow o false) ns key = Ok ns' -> ary_remove (set_allow o true) ns key = Ok ns'.
Proof.
  unfold ary_remove. change (o_neg (set_allow o false)) with (o_neg o). change (o_neg (set_allow o true)) with (o_neg o).
  change (o_allow (set_allow o false)) with false. change (o_allow (set_allow o true)) with true.
  destruct (atoi key) as [idx|]; auto.
  destruct (zlen ns <=? idx)%Z; [discriminate|].
  destruct (idx <? 0)%Z; auto. destruct (negb (o_neg o)); auto.
  destruct (idx <? - zlen ns)%Z; [discriminate|]. auto.
Qed.

Lemma con_remove_allow_ok o c key c' :
  con_remove (set_allow o false) c key = Ok c' -> con_remove (set_allow o true) c key = Ok c'.
Proof.
  destruct c as [s ks ob|s|s ns]; simpl; auto.
  - destruct (amem key ob); auto. discriminate.
  - destruct (ary_remove (set_allow o false) ns key) as [ns'| |] eqn:E; try discriminate.
    apply ary_remove_allow_ok in E. now rewrite E.
Qed.
