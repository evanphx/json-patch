(* ScannerGrammar.v — the automaton of ScannerCorrect.v in the words of the grammar: one step with its
   op code (rstep); the states inside a string, a literal or a number as one table (tstep, tied to
   ref_step by the sweep ref_tok), and the token readers of Text.v as runs of that table (string_lex,
   true_lex ..., number_lex); the single steps at brackets and separators.  The induction over
   values / elements / members that uses these is ScannerParse.struct_run. *)
From Coq Require Import Lia.
From JP Require Import Bytes Text ReadInv ScannerRef ScannerCorrect.
From JP.gen Require Import ScannerGen.

Definition afinal (x : st) (stk : list ps) (bs : bytes) : bool :=
  match arun x stk bs with Some (x', stk') => aaccept x' stk' | None => false end.

Lemma afinal_nil x stk : afinal x stk [] = aaccept x stk.
Proof. reflexivity. Qed.

Ltac bytecases c := destruct c; try discriminate; try reflexivity.

(* ---- one step of the automaton, with its op code ----
   Every fact about a single step is stated about rstep; astep forgets the op code.  (ScanFacts.ostep is the
   same function under a second name, with astep_ostep for astep_rstep and nothing else proved about it.) *)
Definition rstep (x : st) (stk : list ps) (c : byte) : option (st * list ps * Z) :=
  let r := ref_step (canon x stk) c in
  if err (fst r) then None else Some (step (fst r), parseState (fst r), snd r).

Lemma astep_rstep x stk c :
  astep x stk c = match rstep x stk c with Some (x', stk', _) => Some (x', stk') | None => None end.
Proof. unfold astep, rstep. cbv zeta. destruct (err (fst (ref_step (canon x stk) c))); reflexivity. Qed.

Lemma afinal_cons x stk c r :
  afinal x stk (c :: r) = match rstep x stk c with Some (x', stk', _) => afinal x' stk' r | None => false end.
Proof. unfold afinal. cbn [arun]. rewrite astep_rstep. destruct (rstep x stk c) as [[[x' stk'] v]|]; reflexivity. Qed.

Lemma afinal_false_nil x stk : is_endtop x = false ->
  match astep x stk x20 with Some (x', _) => is_endtop x' | None => false end = false -> afinal x stk [] = false.
Proof. intros A B. rewrite afinal_nil. unfold aaccept. now rewrite A, B. Qed.

(* ref_begin_value (on a byte that is no white space) and ref_end_value set the state on every path: the state they
   are entered in does not matter *)
Lemma begin_value_step s x c : ref_ws c = false -> ref_begin_value (set_step s x) c = ref_begin_value s c.
Proof. intro W. unfold ref_begin_value. rewrite W. reflexivity. Qed.

Lemma end_value_canon x stk c : is_endtop x = false ->
  ref_end_value (canon x stk) c = ref_end_value (canon St_stateEndValue stk) c.
Proof. intro E. unfold canon. rewrite E. destruct stk; reflexivity. Qed.

(* ---- the grammar's classes of bytes, and one step of its token readers ---- *)
Definition hd_ok (P : byte -> bool) (s : bytes) : Prop := match s with c :: _ => P c = true | [] => True end.
Definition nondigit (c : byte) : bool := negb (is_digit c).
Definition is_e (c : byte) : bool := Byte.eqb c x65 || Byte.eqb c x45.
Definition is_sign (c : byte) : bool := Byte.eqb c x2b || Byte.eqb c x2d.
Definition notdot (c : byte) : bool := negb (Byte.eqb c x2e).

Lemma is_e_facts c : is_e c = true -> nondigit c = true /\ notdot c = true /\ is_sign c = false.
Proof. unfold is_e. intro H. apply orb_prop in H as [H|H]; apply Byte.byte_dec_bl in H; subst c; repeat split. Qed.

Lemma take_digits_cons c r : take_digits (c :: r) =
  if is_digit c then (c :: fst (take_digits r), snd (take_digits r)) else ([], c :: r).
Proof. cbn [take_digits]. destruct (is_digit c); [|reflexivity]. destruct (take_digits r); reflexivity. Qed.

Lemma take_digits_hd s : hd_ok nondigit (snd (take_digits s)).
Proof.
  induction s as [|c r IH]; [exact I|]. rewrite take_digits_cons. destruct (is_digit c) eqn:D; [exact IH|].
  cbn. unfold nondigit. now rewrite D.
Qed.

Lemma scan_exp_cons c r : scan_exp (c :: r) =
  if is_e c then
    let r' := match r with sg :: r'' => if is_sign sg then r'' else r | [] => r end in
    match take_digits r' with
    | ([], _) => None
    | (d, rest) => Some (c :: (match r with sg :: _ => if is_sign sg then [sg] else [] | [] => [] end) ++ d, rest)
    end
  else Some ([], c :: r).
Proof.
  unfold scan_exp, is_e, is_sign. destruct (Byte.eqb c x65 || Byte.eqb c x45); [|reflexivity].
  destruct r as [|sg r'']; [reflexivity|]. destruct (Byte.eqb sg x2b || Byte.eqb sg x2d); reflexivity.
Qed.

Lemma scan_frac_cons c r : scan_frac (c :: r) =
  if Byte.eqb c x2e then match take_digits r with ([], _) => None | (d, rest) => Some (x2e :: d, rest) end
  else Some ([], c :: r).
Proof. destruct c; reflexivity. Qed.

(* ---- inside a token ----
   tstep is the table of the states that are inside a string, a literal or a number, in the words of
   the grammar: the next state on a byte that continues the token (the op code is scanContinue, the
   stack is untouched), None on a byte that does not.  On such a byte a state in which a number may
   end (isnum) hands over to stateEndValue, every other state fails.  ref_tok is the one sweep over
   states and bytes that ties the table to ref_step; rstep_tok is read off it. *)
Definition intok (x : st) : bool :=
  match x with
  | St_stateInString | St_stateInStringEsc | St_stateInStringEscU | St_stateInStringEscU1
  | St_stateInStringEscU12 | St_stateInStringEscU123
  | St_stateNeg | St_state0 | St_state1 | St_stateDot | St_stateDot0 | St_stateE | St_stateESign | St_stateE0
  | St_stateT | St_stateTr | St_stateTru | St_stateF | St_stateFa | St_stateFal | St_stateFals
  | St_stateN | St_stateNu | St_stateNul => true
  | _ => false
  end.

Definition isnum (x : st) : bool :=
  match x with St_state0 | St_state1 | St_stateDot0 | St_stateE0 => true | _ => false end.

Definition tstep (x : st) (c : byte) : option st :=
  match x with
  | St_stateInString =>
      if Byte.eqb c x22 then Some St_stateEndValue else if Byte.eqb c x5c then Some St_stateInStringEsc
      else if (bn c <? 32)%N then None else Some St_stateInString
  | St_stateInStringEsc =>
      match c with
      | x62 | x66 | x6e | x72 | x74 | x5c | x2f | x22 => Some St_stateInString
      | x75 => Some St_stateInStringEscU
      | _ => None
      end
  | St_stateInStringEscU => if is_hex c then Some St_stateInStringEscU1 else None
  | St_stateInStringEscU1 => if is_hex c then Some St_stateInStringEscU12 else None
  | St_stateInStringEscU12 => if is_hex c then Some St_stateInStringEscU123 else None
  | St_stateInStringEscU123 => if is_hex c then Some St_stateInString else None
  | St_stateNeg => if Byte.eqb c x30 then Some St_state0 else if is_digit19 c then Some St_state1 else None
  | St_state0 => if Byte.eqb c x2e then Some St_stateDot else if is_e c then Some St_stateE else None
  | St_state1 =>
      if is_digit c then Some St_state1 else if Byte.eqb c x2e then Some St_stateDot
      else if is_e c then Some St_stateE else None
  | St_stateDot => if is_digit c then Some St_stateDot0 else None
  | St_stateDot0 => if is_digit c then Some St_stateDot0 else if is_e c then Some St_stateE else None
  | St_stateE => if is_sign c then Some St_stateESign else if is_digit c then Some St_stateE0 else None
  | St_stateESign => if is_digit c then Some St_stateE0 else None
  | St_stateE0 => if is_digit c then Some St_stateE0 else None
  | St_stateT => if Byte.eqb x72 c then Some St_stateTr else None
  | St_stateTr => if Byte.eqb x75 c then Some St_stateTru else None
  | St_stateTru => if Byte.eqb x65 c then Some St_stateEndValue else None
  | St_stateF => if Byte.eqb x61 c then Some St_stateFa else None
  | St_stateFa => if Byte.eqb x6c c then Some St_stateFal else None
  | St_stateFal => if Byte.eqb x73 c then Some St_stateFals else None
  | St_stateFals => if Byte.eqb x65 c then Some St_stateEndValue else None
  | St_stateN => if Byte.eqb x75 c then Some St_stateNu else None
  | St_stateNu => if Byte.eqb x6c c then Some St_stateNul else None
  | St_stateNul => if Byte.eqb x6c c then Some St_stateEndValue else None
  | _ => None
  end.

Lemma ref_digit_is c : ref_digit c = is_digit c.
Proof. destruct c; reflexivity. Qed.

Lemma ref_hex_is c : ref_hex c = is_hex c.
Proof. destruct c; reflexivity. Qed.

Lemma lit_tok s c want next : ref_lit s c want next = if Byte.eqb want c then go s next scanContinue else fail s c.
Proof.
  unfold ref_lit. destruct (Byte.eqb want c) eqn:E; [apply Byte.byte_dec_bl in E; subst c; now rewrite (Byte.byte_dec_lb eq_refl)|].
  destruct (Byte.eqb c want) eqn:F; [|reflexivity]. apply Byte.byte_dec_bl in F. subst c. now rewrite (Byte.byte_dec_lb eq_refl) in E.
Qed.

Lemma ref_tok x stk c : intok x = true ->
  ref_step (canon x stk) c =
  match tstep x c with
  | Some x' => (canon x' stk, scanContinue)
  | None => if isnum x then ref_end_value (canon x stk) c else scanner_error (canon x stk) c
  end.
Proof.
  (* the states that test the byte against one letter, or for one class, need no case analysis on it *)
  destruct x; try discriminate; intros _;
    try (cbn [ref_step canon step tstep isnum];
         first [rewrite lit_tok; destruct (Byte.eqb _ c) | rewrite ref_hex_is; destruct (is_hex c)
               | rewrite ref_digit_is; destruct (is_digit c)]; reflexivity);
    destruct c; reflexivity.
Qed.

Lemma rstep_tok x stk c : intok x = true ->
  rstep x stk c =
  match tstep x c with
  | Some x' => Some (x', stk, scanContinue)
  | None => if isnum x then rstep St_stateEndValue stk c else None
  end.
Proof.
  intro T. unfold rstep at 1. rewrite (ref_tok x stk c T). destruct (tstep x c); [reflexivity|].
  destruct (isnum x) eqn:N; [|reflexivity]. rewrite end_value_canon by (destruct x; discriminate N || reflexivity).
  reflexivity.
Qed.

Lemma afinal_tok_nil x stk : intok x = true ->
  afinal x stk [] = if isnum x then afinal St_stateEndValue stk [] else false.
Proof.
  intro T. rewrite !afinal_nil. unfold aaccept. rewrite !astep_rstep, (rstep_tok x stk x20 T).
  destruct x; try discriminate; reflexivity.
Qed.

(* a number state before a byte that ends the number *)
Definition stops (x : st) (s : bytes) : Prop := match s with [] => True | c :: _ => tstep x c = None end.

Lemma stops_E0 s : hd_ok nondigit s -> stops St_stateE0 s.
Proof. destruct s as [|c r]; [exact (fun H => H)|]. unfold hd_ok, nondigit, stops, tstep. now destruct (is_digit c). Qed.

Lemma tstep_Dot0_end c : nondigit c = true -> is_e c = false -> tstep St_stateDot0 c = None.
Proof. unfold nondigit, tstep. intros D ->. now destruct (is_digit c). Qed.

Lemma tstep_S0_end c : notdot c = true -> is_e c = false -> tstep St_state0 c = None.
Proof. unfold notdot, tstep. intros D ->. now destruct (Byte.eqb c x2e). Qed.

Lemma tstep_S1_end c : nondigit c = true -> notdot c = true -> is_e c = false -> tstep St_state1 c = None.
Proof. unfold nondigit, notdot, tstep. intros D T ->. now destruct (is_digit c), (Byte.eqb c x2e). Qed.

(* the states from which e / E begins an exponent *)
Definition before_e (x : st) : bool := match x with St_state0 | St_state1 | St_stateDot0 => true | _ => false end.

Lemma tstep_e x c : before_e x = true -> is_e c = true -> tstep x c = Some St_stateE.
Proof.
  intros X E. destruct (is_e_facts c E) as (D & T & _). unfold nondigit, notdot in D, T.
  destruct x; try discriminate; cbn [tstep]; rewrite E; now destruct (is_digit c), (Byte.eqb c x2e).
Qed.

(* the states that loop on digits *)
Definition dloop (x : st) : bool := match x with St_state1 | St_stateDot0 | St_stateE0 => true | _ => false end.

Lemma tstep_dloop x c : dloop x = true -> is_digit c = true -> tstep x c = Some x.
Proof. intros X D. destruct x; try discriminate; cbn [tstep]; now rewrite D. Qed.

Definition tt_ (c : byte) : bool := true.

(* after the first digit of the integer part *)
Definition int_state (c : byte) : option st :=
  if Byte.eqb c x30 then Some St_state0 else if is_digit19 c then Some St_state1 else None.

(* the run of the table to where it stops: the state there, the bytes consumed, the rest *)
Fixpoint tscan (x : st) (s : bytes) : st * bytes * bytes :=
  match s with
  | [] => (x, [], [])
  | c :: r =>
      match tstep x c with
      | Some x' => let '(xN, p, rest) := tscan x' r in (xN, c :: p, rest)
      | None => (x, [], s)
      end
  end.

(* a token may end here: after the closing quote or the last letter, or where a number may end *)
Definition tend (x : st) : bool := isnum x || match x with St_stateEndValue => true | _ => false end.

Definition tacc (x : st) (s : bytes) : option (bytes * bytes) :=
  let '(xN, p, rest) := tscan x s in if tend xN then Some (p, rest) else None.

Definition papp (p : bytes) (o : option (bytes * bytes)) : option (bytes * bytes) :=
  match o with Some (q, rest) => Some (p ++ q, rest) | None => None end.

Lemma tacc_nil x : tacc x [] = if tend x then Some ([], []) else None.
Proof. reflexivity. Qed.

Lemma tacc_cons x c r : tacc x (c :: r) =
  match tstep x c with
  | Some x' => papp [c] (tacc x' r)
  | None => if tend x then Some ([], c :: r) else None
  end.
Proof.
  unfold tacc. cbn [tscan]. destruct (tstep x c) as [x'|]; [|reflexivity].
  destruct (tscan x' r) as [[xN p] rest]. destruct (tend xN); reflexivity.
Qed.

Lemma tacc_stop x s : tend x = true -> stops x s -> tacc x s = Some ([], s).
Proof. intros T St. destruct s as [|c r]; [now rewrite tacc_nil, T | now rewrite tacc_cons, St, T]. Qed.

Lemma tacc_split x s p rest : tacc x s = Some (p, rest) -> s = p ++ rest.
Proof.
  revert x p. induction s as [|c r IH]; intros x p.
  - rewrite tacc_nil. destruct (tend x); [|discriminate]. intro H. now inversion H.
  - rewrite tacc_cons. destruct (tstep x c) as [x'|].
    + destruct (tacc x' r) as [[q rest']|] eqn:E; [|discriminate]. intro H. inversion H; subst.
      cbn [app]. f_equal. exact (IH _ _ E).
    + destruct (tend x); [|discriminate]. intro H. now inversion H.
Qed.

Lemma papp_app p q o : papp (p ++ q) o = papp p (papp q o).
Proof. destruct o as [[u rest]|]; [|reflexivity]. cbn [papp]. now rewrite app_assoc. Qed.

Lemma string_lex s : tacc St_stateInString s =
  match scan_string s with Some (b, rest) => Some (b ++ [x22], rest) | None => None end.
Proof.
  enough (K : forall (n : nat) s, (length s <= n)%nat -> tacc St_stateInString s =
            match scan_string s with Some (b, rest) => Some (b ++ [x22], rest) | None => None end)
    by exact (K _ s (le_n _)).
  clear. induction n as [|n IH]; intros s L.
  - destruct s; [reflexivity | simpl in L; lia].
  - destruct s as [|c r]; [reflexivity|]. simpl in L. rewrite tacc_cons. cbn [tstep tend isnum orb].
    destruct (Byte.eqb c x22) eqn:Q.
    { apply Byte.byte_dec_bl in Q. subst c. destruct r; reflexivity. }
    destruct (Byte.eqb c x5c) eqn:Bs.
    { apply Byte.byte_dec_bl in Bs. subst c. cbn [scan_string].
      destruct r as [|e r']; [reflexivity|]. rewrite tacc_cons. cbn [tstep tend isnum orb]. simpl in L.
      destruct e; try reflexivity;
        try (rewrite (IH r') by lia; destruct (scan_string r') as [[b rest]|]; reflexivity).
      destruct r' as [|h1 r']; [reflexivity|]. rewrite tacc_cons. cbn [tstep tend isnum orb].
      destruct (is_hex h1); [|destruct r' as [|? [|? [|? ?]]]; reflexivity].
      destruct r' as [|h2 r']; [reflexivity|]. rewrite tacc_cons. cbn [tstep tend isnum orb].
      destruct (is_hex h2); [|destruct r' as [|? [|? ?]]; reflexivity].
      destruct r' as [|h3 r']; [reflexivity|]. rewrite tacc_cons. cbn [tstep tend isnum orb].
      destruct (is_hex h3); [|destruct r' as [|? ?]; reflexivity].
      destruct r' as [|h4 r']; [reflexivity|]. rewrite tacc_cons. cbn [tstep tend isnum orb].
      destruct (is_hex h4); [|reflexivity]. cbn [andb]. simpl in L.
      rewrite (IH r') by lia. destruct (scan_string r') as [[b rest]|]; reflexivity. }
    rewrite scan_string_plain by assumption. destruct (bn c <? 32)%N; [reflexivity|].
    rewrite (IH r) by lia. destruct (scan_string r) as [[b rest]|]; reflexivity.
Qed.

Definition lit_res (pat : bytes) (s : bytes) : option (bytes * bytes) :=
  match strip_prefix pat s with Some rest => Some (pat, rest) | None => None end.

Lemma lit_lex x want next pat : tend x = false ->
  (forall c, tstep x c = if Byte.eqb want c then Some next else None) ->
  (forall s, tacc next s = lit_res pat s) ->
  forall s, tacc x s = lit_res (want :: pat) s.
Proof.
  intros N St Nx [|c s]; unfold lit_res.
  - now rewrite tacc_nil, N.
  - rewrite tacc_cons, St, strip_prefix_cons, N. destruct (Byte.eqb want c) eqn:E; [|reflexivity].
    apply Byte.byte_dec_bl in E. subst c. rewrite Nx. unfold lit_res. destruct (strip_prefix pat s); reflexivity.
Qed.

Lemma lit_end s : tacc St_stateEndValue s = lit_res [] s.
Proof. destruct s; reflexivity. Qed.

Lemma true_lex s : tacc St_stateT s = lit_res (B "rue") s.
Proof.
  revert s. apply (lit_lex _ _ St_stateTr); try reflexivity.
  apply (lit_lex _ _ St_stateTru); try reflexivity.
  apply (lit_lex _ _ St_stateEndValue); try reflexivity. exact lit_end.
Qed.

Lemma false_lex s : tacc St_stateF s = lit_res (B "alse") s.
Proof.
  revert s. apply (lit_lex _ _ St_stateFa); try reflexivity.
  apply (lit_lex _ _ St_stateFal); try reflexivity.
  apply (lit_lex _ _ St_stateFals); try reflexivity.
  apply (lit_lex _ _ St_stateEndValue); try reflexivity. exact lit_end.
Qed.

Lemma null_lex s : tacc St_stateN s = lit_res (B "ull") s.
Proof.
  revert s. apply (lit_lex _ _ St_stateNu); try reflexivity.
  apply (lit_lex _ _ St_stateNul); try reflexivity.
  apply (lit_lex _ _ St_stateEndValue); try reflexivity. exact lit_end.
Qed.

Lemma digits_lex x : dloop x = true -> forall s, tacc x s = papp (fst (take_digits s)) (tacc x (snd (take_digits s))).
Proof.
  intros X. induction s as [|c r IH].
  - cbn [take_digits fst snd]. destruct (tacc x []) as [[q rest]|]; reflexivity.
  - rewrite take_digits_cons. destruct (is_digit c) eqn:D.
    + cbn [fst snd]. rewrite tacc_cons, (tstep_dloop x c X D), IH. exact (eq_sym (papp_app [_] _ _)).
    + cbn [fst snd]. destruct (tacc x (c :: r)) as [[q rest]|]; reflexivity.
Qed.

(* a state that needs one digit, then loops in x0 *)
Lemma digits1_lex x x0 : tend x = false -> dloop x0 = true ->
  (forall c, tstep x c = if is_digit c then Some x0 else None) ->
  forall s, tacc x s = match take_digits s with ([], _) => None | (d, rest) => papp d (tacc x0 rest) end.
Proof.
  intros N X0 St [|c r]; [now rewrite tacc_nil, N|].
  rewrite tacc_cons, St, take_digits_cons, N. destruct (is_digit c); [|reflexivity].
  rewrite (digits_lex x0 X0 r). exact (eq_sym (papp_app [_] _ _)).
Qed.

Lemma tend_isnum x : isnum x = true -> tend x = true.
Proof. intro H. unfold tend. now rewrite H. Qed.

Lemma E0_lex s : hd_ok nondigit s -> tacc St_stateE0 s = Some ([], s).
Proof. intro H. apply tacc_stop; [reflexivity | apply stops_E0, H]. Qed.

(* the exponent part is the run from a state that moves to E on e/E and otherwise ends the number *)
Lemma exp_lex x P : isnum x = true -> before_e x = true ->
  (forall c, P c = true -> is_e c = false -> tstep x c = None) ->
  forall s, hd_ok P s -> tacc x s = scan_exp s.
Proof.
  intros Nx Bx HP [|c r] Hd; [now rewrite tacc_nil, (tend_isnum x Nx)|].
  rewrite scan_exp_cons. destruct (is_e c) eqn:Ec; [|apply tacc_stop; [exact (tend_isnum x Nx) | exact (HP c Hd Ec)]].
  rewrite tacc_cons, (tstep_e x c Bx Ec). cbv zeta.
  destruct r as [|sg r'']; [reflexivity|]. rewrite tacc_cons. cbn [tstep tend isnum orb].
  destruct (is_sign sg) eqn:Sg.
  - rewrite (digits1_lex St_stateESign St_stateE0) by reflexivity.
    destruct (take_digits r'') as [[|d0 d] rest] eqn:T; [reflexivity|].
    rewrite E0_lex by (pose proof (take_digits_hd r'') as H2; rewrite T in H2; exact H2).
    cbn [papp app]. now rewrite app_nil_r.
  - rewrite take_digits_cons. destruct (is_digit sg) eqn:D; [|reflexivity].
    rewrite (digits_lex St_stateE0 eq_refl r''), E0_lex by apply take_digits_hd.
    destruct (take_digits r'') as [d rest]. cbn [papp app fst snd]. now rewrite app_nil_r.
Qed.

Definition tail_res (s2 : bytes) : option (bytes * bytes) :=
  match scan_frac s2 with
  | None => None
  | Some (f, s3) => match scan_exp s3 with None => None | Some (e, s4) => Some (f ++ e, s4) end
  end.

(* fraction and exponent after the integer part, from state 0 or state 1 *)
Lemma tail_lex x P : isnum x = true -> before_e x = true ->
  tstep x x2e = Some St_stateDot ->
  (forall c, P c = true -> notdot c = true -> is_e c = false -> tstep x c = None) ->
  forall s, hd_ok P s -> tacc x s = tail_res s.
Proof.
  intros Nx Bx Hd HP [|c r] Hs; [now rewrite tacc_nil, (tend_isnum x Nx)|].
  unfold tail_res. rewrite scan_frac_cons. destruct (Byte.eqb c x2e) eqn:Dt.
  - apply Byte.byte_dec_bl in Dt. subst c. rewrite tacc_cons, Hd.
    rewrite (digits1_lex St_stateDot St_stateDot0) by reflexivity.
    destruct (take_digits r) as [[|d0 d] rest] eqn:T; [reflexivity|].
    rewrite (exp_lex St_stateDot0 nondigit eq_refl eq_refl tstep_Dot0_end)
      by (pose proof (take_digits_hd r) as H2; rewrite T in H2; exact H2).
    destruct (scan_exp rest) as [[e s4]|]; reflexivity.
  - rewrite (exp_lex x (fun c => P c && notdot c) Nx Bx).
    + cbn [app]. destruct (scan_exp (c :: r)) as [[e s4]|]; reflexivity.
    + intros c0 H0. apply andb_prop in H0 as [H0 H1]. now apply HP.
    + cbn. unfold notdot. rewrite Dt. cbn in Hs. now rewrite Hs.
Qed.

Definition int_res (s : bytes) : option (bytes * bytes) :=
  match scan_int s with None => None | Some (i, s2) => papp i (tail_res s2) end.

Lemma int_lex c r :
  match int_state c with Some x => papp [c] (tacc x r) | None => None end = int_res (c :: r).
Proof.
  unfold int_state, int_res, scan_int. destruct (Byte.eqb c x30).
  - f_equal. apply (tail_lex St_state0 tt_); try reflexivity; [intros c0 _; apply tstep_S0_end | destruct r; exact eq_refl || exact I].
  - destruct (is_digit19 c); [|reflexivity]. rewrite (digits_lex St_state1 eq_refl r).
    destruct (take_digits r) as [d rest] eqn:T. cbn [fst snd].
    rewrite (tail_lex St_state1 nondigit eq_refl eq_refl eq_refl tstep_S1_end)
      by (pose proof (take_digits_hd r) as H2; rewrite T in H2; exact H2).
    exact (eq_sym (papp_app [_] _ _)).
Qed.

(* the state after the first byte of a number *)
Definition num_start (c : byte) : option st := if Byte.eqb c x2d then Some St_stateNeg else int_state c.

Lemma scan_number_int c r : scan_number (c :: r) =
  if Byte.eqb c x2d then papp [x2d] (int_res r) else int_res (c :: r).
Proof.
  rewrite scan_number_cons. unfold int_res, tail_res.
  destruct (Byte.eqb c x2d); destruct (scan_int _) as [[i s2]|]; try reflexivity;
    destruct (scan_frac s2) as [[f s3]|]; try reflexivity; destruct (scan_exp s3) as [[e s4]|]; reflexivity.
Qed.

Theorem number_lex c r :
  match num_start c with Some x => papp [c] (tacc x r) | None => None end = scan_number (c :: r).
Proof.
  rewrite scan_number_int. unfold num_start. destruct (Byte.eqb c x2d) eqn:M; [|apply int_lex].
  apply Byte.byte_dec_bl in M. subst c. f_equal. destruct r as [|c2 r2]; [reflexivity|].
  rewrite tacc_cons. change (tstep St_stateNeg c2) with (int_state c2). rewrite <- int_lex.
  destruct (int_state c2); reflexivity.
Qed.

(* the bytes that compact(escape) rewrites do not occur in a number *)
Definition plainb (c : byte) : bool := match c with x3c | x3e | x26 | xe2 => false | _ => true end.

Definition numst (x : st) : bool :=
  match x with
  | St_stateNeg | St_state0 | St_state1 | St_stateDot | St_stateDot0 | St_stateE | St_stateESign | St_stateE0 => true
  | _ => false
  end.

Lemma num_start_facts c x : num_start c = Some x -> numst x = true /\ intok x = true /\ plainb c = true.
Proof.
  unfold num_start, int_state. destruct (Byte.eqb c x2d) eqn:M; [apply Byte.byte_dec_bl in M; subst c; intro H; inversion H; now repeat split|].
  destruct (Byte.eqb c x30) eqn:Z; [apply Byte.byte_dec_bl in Z; subst c; intro H; inversion H; now repeat split|].
  destruct (is_digit19 c) eqn:D; intro H; inversion H. repeat split. revert D. clear. destruct c; (discriminate || reflexivity).
Qed.

(* a fact about whatever a cascade of tests yields *)
Lemma if_some {T} (P : T -> Prop) (b : bool) (u w : option T) x :
  (u = Some x -> P x) -> (w = Some x -> P x) -> (if b then u else w) = Some x -> P x.
Proof. destruct b; auto. Qed.

Lemma tstep_num x c x' : numst x = true -> tstep x c = Some x' -> numst x' = true /\ plainb c = true.
Proof.
  intros Nx. destruct (plainb c) eqn:Sp.
  - intro H. split; [|reflexivity]. revert H. destruct x; try discriminate; cbn [tstep];
      repeat apply (if_some (fun y => numst y = true)); intro H; inversion H; reflexivity.
  - destruct c; try discriminate Sp; destruct x; discriminate.
Qed.

Lemma tacc_plain : forall s x p rest, numst x = true -> tacc x s = Some (p, rest) -> forallb plainb p = true.
Proof.
  induction s as [|c r IH]; intros x p rest Nx.
  - rewrite tacc_nil. destruct (tend x); [|discriminate]. intro H. now inversion H.
  - rewrite tacc_cons. destruct (tstep x c) as [x'|] eqn:T.
    + destruct (tstep_num x c x' Nx T) as [Nx' Pc]. destruct (tacc x' r) as [[q rest']|] eqn:E; [|discriminate].
      intro H. inversion H; subst. cbn [app forallb]. now rewrite Pc, (IH _ _ _ Nx' E).
    + destruct (tend x); [|discriminate]. intro H. now inversion H.
Qed.

Lemma tstep_next x c x' : tstep x c = Some x' -> intok x' = true \/ x' = St_stateEndValue.
Proof.
  destruct x; try discriminate; cbn [tstep];
    try (repeat apply (if_some (fun y => intok y = true \/ y = St_stateEndValue)); intro H; inversion H; auto; fail).
  destruct c; try discriminate; intro H; inversion H; auto.
Qed.

Lemma tend_intok x : intok x = true -> tend x = isnum x.
Proof. destruct x; try discriminate; reflexivity. Qed.

Definition skips_ws (x : st) : bool :=
  match x with
  | St_stateBeginValue | St_stateBeginValueOrEmpty | St_stateBeginString | St_stateBeginStringOrEmpty => true
  | _ => false
  end.

Lemma top_o x c : x = St_stateEndValue \/ x = St_stateEndTop ->
  rstep x [] c = if is_ws c then Some (St_stateEndTop, [], scanEnd) else None.
Proof.
  intros [->| ->]; unfold rstep; cbn [ref_step canon step ref_end_value parseState];
    change (ref_ws c) with (is_ws c); destruct (is_ws c); reflexivity.
Qed.

(* the first byte of a number that does not begin with a minus sign *)
Lemma BV_num_o stk c : special c = false -> Byte.eqb c x2d = false ->
  rstep St_stateBeginValue stk c =
  match int_state c with Some x => Some (x, stk, scanBeginLiteral) | None => None end.
Proof. unfold int_state. bytecases c. Qed.

Definition dep (stk : list ps) (d : N) : Prop := (N.of_nat (length stk) + d = max_depth)%N.

Lemma dep_push p stk d : dep stk d -> (d =? 0)%N = false -> dep (p :: stk) (d - 1).
Proof. unfold dep. cbn [length]. intros D Z. apply N.eqb_neq in Z. lia. Qed.

Lemma push_test stk p d : dep stk d -> (ps_len (p :: stk) <=? maxNestingDepth)%Z = negb (d =? 0)%N.
Proof.
  unfold dep, ps_len, maxNestingDepth, max_depth. intro D. cbn [length].
  destruct (Z.leb_spec (Z.of_nat (S (length stk))) 10000); destruct (N.eqb_spec d 0); cbn; try reflexivity; lia.
Qed.

(* an opening bracket: the state after it, the parse state it pushes, its op code *)
Lemma push_o stk d c x p v :
  (c, x, p, v) = (x5b, St_stateBeginValueOrEmpty, parseArrayValue, scanBeginArray) \/
  (c, x, p, v) = (x7b, St_stateBeginStringOrEmpty, parseObjectKey, scanBeginObject) ->
  dep stk d -> rstep St_stateBeginValue stk c = if (d =? 0)%N then None else Some (x, p :: stk, v).
Proof.
  intros E D. pose proof (push_test stk p d D) as T.
  destruct E as [E|E]; injection E as -> -> -> ->;
    unfold rstep, canon; cbn -[Z.leb ps_len maxNestingDepth]; unfold scanner_pushParseState; cbn -[Z.leb ps_len maxNestingDepth];
    rewrite T; destruct (d =? 0)%N; reflexivity.
Qed.

Definition popped (l : list ps) : st := match l with [] => St_stateEndTop | _ => St_stateEndValue end.

Lemma pop_test p q l : (ps_len (p :: q :: l) + -1 =? 0)%Z = false.
Proof. unfold ps_len. cbn [length]. apply Z.eqb_neq. lia. Qed.

(* a closing bracket, after a value or directly after the opening one *)
Lemma pop_o x p c v l :
  (x, p, c, v) = (St_stateEndValue, parseArrayValue, x5d, scanEndArray) \/
  (x, p, c, v) = (St_stateEndValue, parseObjectValue, x7d, scanEndObject) \/
  (x, p, c, v) = (St_stateBeginValueOrEmpty, parseArrayValue, x5d, scanEndArray) \/
  (x, p, c, v) = (St_stateBeginStringOrEmpty, parseObjectKey, x7d, scanEndObject) ->
  rstep x (p :: l) c = Some (popped l, l, v).
Proof.
  intro E. destruct l as [|q l]; [destruct E as [E|[E|[E|E]]]; injection E as -> -> -> ->; reflexivity|].
  pose proof (fun p' => pop_test p' q l) as T. cbn -[Z.eqb ps_len Z.add] in T.
  destruct E as [E|[E|[E|E]]]; injection E as -> -> -> ->;
    unfold rstep, canon; cbn -[Z.eqb ps_len Z.add]; unfold scanner_popParseState; cbn -[Z.eqb ps_len Z.add];
    rewrite T; reflexivity.
Qed.

Lemma pop_arr_o l : rstep St_stateEndValue (parseArrayValue :: l) x5d = Some (popped l, l, scanEndArray).
Proof. apply pop_o. auto. Qed.
Lemma pop_obj_o l : rstep St_stateEndValue (parseObjectValue :: l) x7d = Some (popped l, l, scanEndObject).
Proof. apply pop_o. auto. Qed.
Lemma empty_arr_o l : rstep St_stateBeginValueOrEmpty (parseArrayValue :: l) x5d = Some (popped l, l, scanEndArray).
Proof. apply pop_o. auto. Qed.
Lemma empty_obj_o l : rstep St_stateBeginStringOrEmpty (parseObjectKey :: l) x7d = Some (popped l, l, scanEndObject).
Proof. apply pop_o. auto 6. Qed.

Lemma popped_o l c : rstep (popped l) l c = rstep St_stateEndValue l c.
Proof. destruct l as [|q l]; [|reflexivity]. cbn [popped]. rewrite !top_o by auto. reflexivity. Qed.

(* after an opening bracket, a byte other than the closing one is read as by BeginValue / BeginString *)
Lemma match_5d {T} (a d : T) c : match c with x5d => a | _ => d end = if Byte.eqb c x5d then a else d.
Proof. destruct c; reflexivity. Qed.

Lemma bvoe_other_o stk c : is_ws c = false -> Byte.eqb c x5d = false ->
  rstep St_stateBeginValueOrEmpty stk c = rstep St_stateBeginValue stk c.
Proof.
  intros W E. unfold rstep.
  assert (R : ref_step (canon St_stateBeginValueOrEmpty stk) c = ref_step (canon St_stateBeginValue stk) c).
  { cbn [ref_step canon step is_endtop]. rewrite (W : ref_ws c = false), match_5d, E.
    exact (begin_value_step (canon St_stateBeginValue stk) St_stateBeginValueOrEmpty c W). }
  now rewrite R.
Qed.

Lemma bsoe_other_o stk c : is_ws c = false -> Byte.eqb c x7d = false ->
  rstep St_stateBeginStringOrEmpty stk c = rstep St_stateBeginString stk c.
Proof. bytecases c. Qed.

(* after a value: the bracket that closes the container (with its op code), if the parse state allows one, and the
   separator it allows, with the state, the parse state and the op code that follow it *)
Definition vclose (p : ps) : option (byte * Z) :=
  match p with
  | parseArrayValue => Some (x5d, scanEndArray)
  | parseObjectValue => Some (x7d, scanEndObject)
  | parseObjectKey => None
  end.

Definition vnext (p : ps) : byte * st * ps * Z :=
  match p with
  | parseArrayValue => (x2c, St_stateBeginValue, parseArrayValue, scanArrayValue)
  | parseObjectValue => (x2c, St_stateBeginString, parseObjectKey, scanObjectValue)
  | parseObjectKey => (x3a, St_stateBeginValue, parseObjectValue, scanObjectKey)
  end.

Lemma sep_o p l c : is_ws c = false ->
  rstep St_stateEndValue (p :: l) c =
  let '(k', x', p', v') := vnext p in
  let nx := if Byte.eqb c k' then Some (x', p' :: l, v') else None in
  match vclose p with Some (k, v) => if Byte.eqb c k then Some (popped l, l, v) else nx | None => nx end.
Proof.
  intro W. destruct p; cbn [vnext vclose].
  - revert W. bytecases c.
  - destruct (Byte.eqb c x7d) eqn:E; [apply Byte.byte_dec_bl in E; subst c; apply pop_obj_o|]. revert W E. bytecases c.
  - destruct (Byte.eqb c x5d) eqn:E; [apply Byte.byte_dec_bl in E; subst c; apply pop_arr_o|]. revert W E. bytecases c.
Qed.

Lemma sep_plain p :
  plainb (fst (fst (fst (vnext p)))) = true /\ match vclose p with Some (k, _) => plainb k = true | None => True end.
Proof. destruct p; split; reflexivity || exact I. Qed.

(* what may begin a name *)
Lemma bs_step stk c : is_ws c = false ->
  rstep St_stateBeginString stk c = if Byte.eqb c x22 then Some (St_stateInString, stk, scanBeginLiteral) else None.
Proof. bytecases c. Qed.
