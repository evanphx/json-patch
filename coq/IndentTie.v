(* IndentTie.v -- the translated loops of indent.go (gen/IndentGen.v, written by tools/goindent2v from
   compact, newline and Indent of v5/internal/json/indent.go) compute the hand-written models of Scan.v.

     compact_run_is_model : compact_run pooled src esc out0 =
                              match compact_go esc src with Some o => ROk (out0 ++ o) | None => RErr out0 end
                            for EVERY byte string src, every content out0 of the buffer and every scanner the
                            pool may hand out: no index, slice or Truncate is out of range (RFail is not a
                            possible outcome), on an error the buffer is back to out0 and scan.err is set
     compact_gen_is_model : compact_gen esc bs = Scan.compact_go esc bs
     newline_run_spec     : newline_run prefix ind depth out = VOk (out ++ [x0a] ++ prefix ++ rep_bytes (Z.to_nat depth) ind)
                            (the counting loop ends within its fuel, also for a negative depth)
     indent_run_is_model  : indent_run pooled src [] ind out0 =
                              match indent_go ind src with Some o => ROk (out0 ++ o) | None => RErr out0 end
     indent_gen_is_model  : indent_gen [] indent bs = Scan.indent_go indent bs
     compact_run_no_failure, indent_run_no_failure, newline_run_no_failure : the guard failures are unreachable

   The model differs from the code in two unobservable ways, bridged by loop invariants (CInv, IInv):
   compact: the code keeps an index start and writes src[start:i] in one piece, the model writes byte by
   byte and counts the bytes still to skip after an escaped U+2028/9; Indent: depth is an int in the code
   and a nat in the model.  Both invariants need a fact about the scanner (P_step): from a state that is
   not the error state one step leads either to the error state with err set -- and then both sides answer
   with an error whatever they wrote -- or to a state whose nesting depth changed by +1 for an opening
   bracket, -1 for a closing one, 0 otherwise, where scanSkipSpace / scanEnd are answered for white space
   only and scanEndObject / scanEndArray for closing brackets only.

   The proofs are written against the MEANING of one execution of the loop body (compact_body_spec,
   indent_body_spec: which state follows), not against its text. *)
From Coq Require Import Lia.
From JP Require Import Bytes Utf8Rune Scan JsonFacts TieFacts.
From JP Require Codec.
From JP.gen Require Import ScannerGen IndentGen.
Local Open Scope Z_scope.

Definition opener (c : byte) : bool := (bz c =? 123) || (bz c =? 91).
Definition closer (c : byte) : bool := (bz c =? 125) || (bz c =? 93).
Definition doomed (s : scanner) : Prop := err s = true /\ step s = St_stateError.
Definition good (s : scanner) : Prop := err s = false /\ step s <> St_stateError.

Definition isEnd (v : Z) : bool := (v =? scanEndObject) || (v =? scanEndArray).
(* n: the nesting depth before the step *)
Definition lenrel (n : nat) (s' : scanner) (v : Z) (c : byte) : Prop :=
  (if (v =? scanContinue) || (v =? scanSkipSpace) || (v =? scanEnd) then length (parseState s') = n
   else if opener c then length (parseState s') = S n
   else if closer c then S (length (parseState s')) = n
   else length (parseState s') = n) /\
  (isEnd v = true -> closer c = true).

(* the bounds on v are Go's op-code numbers (gen/ScannerGen.v): 9 is scanSkipSpace, 10 scanEnd, 11 scanError;
   0 <= v <= 10 excludes scanError, 9 <= v is scanSkipSpace or scanEnd *)
Definition P (n : nat) (c : byte) (r : scanner * Z) : Prop :=
  let (s', v) := r in
  (doomed s' /\ (v = scanError \/ v = scanEnd)) \/
  (good s' /\ 0 <= v <= 10 /\ (9 <= v -> isSpace c = true) /\ lenrel n s' v c).

Lemma bn_is c k : bn c = k -> c = nb k.
Proof. intros <-. symmetry. apply nb_bn. Qed.

Lemma bz_is c d : (bz c =? bz d) = true -> c = d.
Proof. rewrite bz_eqb. apply Byte.byte_dec_bl. Qed.

Ltac brk := repeat match goal with |- context [if ?b then _ else _] => destruct b eqn:? end.

Ltac concretize :=
  repeat match goal with
  | H : Byte.eqb ?c _ = true |- _ => apply Byte.byte_dec_bl in H; subst c
  | H : (bn ?c =? _)%N = true |- _ => apply N.eqb_eq in H; apply bn_is in H; cbv in H; subst c
  end.

Ltac lr := split; [first [reflexivity | cbn; reflexivity]
                 | cbn; let H := fresh "H" in intro H; first [discriminate H | reflexivity]].

Ltac leafgood :=
  right; concretize; cbn -[isSpace];
  split; [split; [reflexivity | discriminate] |];
  split; [split; discriminate |];
  split; [first [intros _; assumption | let HH := fresh "HH" in intro HH; exfalso; apply HH; reflexivity] |];
  lr.

Ltac leafbad := left; cbn; split; [split; reflexivity | auto].

Lemma P_error n s c : P n c (scanner_error s c).
Proof. leafbad. Qed.

Lemma P_endtop s c : good s -> P (length (parseState s)) c (stateEndTop s c).
Proof.
  destruct s as [x e p er]. intros [He Hx]. cbn in He, Hx. subst er.
  unfold stateEndTop. destruct (isSpace c) eqn:Sp; cbn [negb].
  - right. cbn -[isSpace]. split; [split; [reflexivity | exact Hx] |]. split; [split; discriminate |].
    split; [intros _; exact Sp | lr].
  - leafbad.
Qed.

Lemma P_endvalue s c : good s -> P (length (parseState s)) c (stateEndValue s c).
Proof.
  destruct s as [x e p er]. intros [He Hx]. cbn in He, Hx. subst er.
  destruct p as [|t p'].
  - apply (P_endtop (mkScanner St_stateEndTop true [] false)). split; [reflexivity | discriminate].
  - unfold stateEndValue. cbn -[isSpace N.eqb scanner_popParseState scanner_error].
    destruct t; cbn -[isSpace N.eqb scanner_popParseState scanner_error]; brk;
      try apply P_error; try solve [leafgood].
    all: right; concretize; unfold scanner_popParseState; cbn -[Z.eqb Z.add Z.of_nat]; brk; cbn;
      (split; [split; [reflexivity | discriminate] |]; split; [split; discriminate |];
       split; [intro HH; exfalso; apply HH; reflexivity | lr]).
Qed.

Lemma P_push s c t v : good s -> opener c = true -> v = scanBeginObject \/ v = scanBeginArray ->
  P (length (parseState s)) c (scanner_pushParseState s c t v).
Proof.
  destruct s as [x e p er]. intros [He Hx] Op V. cbn in He, Hx. subst er.
  unfold scanner_pushParseState. cbn -[Z.leb ps_len scanner_error]. brk; [|apply P_error].
  right. cbn. split; [split; [reflexivity | exact Hx] |].
  unfold lenrel. rewrite Op. destruct V as [-> | ->]; (split; [split; discriminate |]);
    (split; [let HH := fresh "HH" in intro HH; exfalso; apply HH; reflexivity | split; [reflexivity | cbn; discriminate]]).
Qed.

Lemma good_set_step s x : good s -> x <> St_stateError -> good (set_step s x).
Proof. intros [A _] X. split; [exact A | exact X]. Qed.

Lemma good_settop s t : good s -> good (set_parseState s (ps_settop (parseState s) t)).
Proof. intros [A B]. split; [exact A | exact B]. Qed.

Lemma len_settop (l : list ps) t : length (ps_settop l t) = length l.
Proof. destruct l; reflexivity. Qed.

Lemma P_cont s c x : good s -> x <> St_stateError -> P (length (parseState s)) c (set_step s x, scanContinue).
Proof.
  destruct s as [x0 e p er]. intros [He Hx] X. cbn in He. subst er. right. cbn.
  split; [split; [reflexivity | exact X] |]. split; [split; discriminate |].
  split; [let HH := fresh "HH" in intro HH; exfalso; apply HH; reflexivity | lr].
Qed.

Lemma P_cont0 s c : good s -> P (length (parseState s)) c (s, scanContinue).
Proof.
  intros G. right. split; [exact G|]. split; [split; discriminate |].
  split; [let HH := fresh "HH" in intro HH; exfalso; apply HH; reflexivity | lr].
Qed.

Lemma P_skip s c : good s -> isSpace c = true -> P (length (parseState s)) c (s, scanSkipSpace).
Proof.
  intros G Sp. right. split; [exact G|]. split; [split; discriminate |].
  split; [intros _; exact Sp | lr].
Qed.

Lemma P_lit s c x : good s -> x <> St_stateError -> opener c = false -> closer c = false ->
  P (length (parseState s)) c (set_step s x, scanBeginLiteral).
Proof.
  intros [He Hx] X Op Cl. right. split; [split; [exact He | exact X]|]. split; [split; discriminate|].
  split; [intro H; exfalso; revert H; apply Z.lt_nge; reflexivity|]. unfold lenrel. rewrite Op, Cl.
  split; [reflexivity | discriminate].
Qed.

Lemma P_lit_else s c b x K : good s -> x <> St_stateError -> opener b = false -> closer b = false ->
  P (length (parseState s)) c K ->
  P (length (parseState s)) c (if Byte.eqb c b then (set_step s x, scanBeginLiteral) else K).
Proof.
  intros G X Op Cl HK. destruct (Byte.eqb c b) eqn:E; [|exact HK]. apply Byte.byte_dec_bl in E. subst b. now apply P_lit.
Qed.

Lemma P_beginvalue s c : good s -> P (length (parseState s)) c (stateBeginValue s c).
Proof.
  intro G. unfold stateBeginValue. cbv zeta.
  destruct (isSpace c) eqn:Sp; [apply P_skip; assumption|].
  destruct (Byte.eqb c x7b) eqn:E1; [|destruct (Byte.eqb c x5b) eqn:E2].
  1,2: apply Byte.byte_dec_bl in E1 || apply Byte.byte_dec_bl in E2; subst c;
       (apply (P_push (set_step s _)); [apply good_set_step; [exact G | discriminate] | reflexivity | auto]).
  do 6 (apply P_lit_else; [exact G | discriminate | reflexivity | reflexivity |]).
  destruct ((49 <=? bn c)%N && (bn c <=? 57)%N) eqn:D; [|apply P_error].
  apply andb_prop in D as [D1 D2]. apply N.leb_le in D1, D2.
  apply P_lit; [exact G | discriminate | |]; unfold opener, closer, bz; apply orb_false_iff; split; apply Z.eqb_neq; lia.
Qed.

Lemma P_beginstring s c : good s -> P (length (parseState s)) c (stateBeginString s c).
Proof.
  intro G. unfold stateBeginString. brk; [apply P_skip; assumption | | apply P_error].
  destruct s as [x e p er]; destruct G as [He Hx]; cbn in He, Hx; subst er. leafgood.
Qed.

Ltac states := unfold stateInString, stateInStringEsc, stateInStringEscU, stateInStringEscU1, stateInStringEscU12,
  stateInStringEscU123, stateNeg, state1, state0, stateDot, stateDot0, stateE, stateESign, stateE0, stateT, stateTr,
  stateTru, stateF, stateFa, stateFal, stateFals, stateN, stateNu, stateNul.

Lemma P_step s c : good s -> P (length (parseState s)) c (step_fn (step s) s c).
Proof.
  intro G. pose proof G as [He Hx]. destruct (step s) eqn:X; cbn [step_fn].
  (* inside a token every path continues, ends the value or fails; the six other states one by one *)
  all: try solve [states; brk;
                  first [apply P_error | apply P_endvalue; exact G | apply P_cont0; exact G
                        | apply P_cont; [exact G | discriminate]]].
  - unfold stateBeginValueOrEmpty; brk;
      [apply P_skip; assumption | apply P_endvalue; exact G | apply P_beginvalue; exact G].
  - apply P_beginvalue; exact G.
  - unfold stateBeginStringOrEmpty. brk; [apply P_skip; assumption | | apply P_beginstring; exact G].
    cbv zeta. rewrite <- (len_settop (parseState s) parseObjectValue).
    apply (P_endvalue (set_parseState s (ps_settop (parseState s) parseObjectValue)) c).
    apply good_settop. exact G.
  - apply P_beginstring; exact G.
  - apply P_endtop; exact G.
  - exfalso; apply Hx; reflexivity.
Qed.

(* the scanner in the error state: every further step answers scanError, and so does eof *)
Lemma doomed_step s c : doomed s -> step_fn (step s) s c = (s, scanError).
Proof. intros [_ X]. rewrite X. reflexivity. Qed.

Lemma eof_err s : err s = true -> scanner_eof s = (s, scanError).
Proof. intro E. unfold scanner_eof. rewrite E. reflexivity. Qed.

Lemma eof_error_err s : snd (scanner_eof s) = scanError -> err (fst (scanner_eof s)) = true.
Proof.
  unfold scanner_eof. destruct (err s) eqn:E; [intros _; exact E|].
  destruct (endTop s); [discriminate|].
  destruct (endTop (fst _)); [discriminate|].
  destruct (err (fst _)) eqn:E2; cbn [negb]; intros _; [exact E2 | reflexivity].
Qed.

Lemma good_or_doomed n c s' v : P n c (s', v) -> good s' \/ doomed s'.
Proof. intros [[D _]|[G _]]; auto. Qed.

Lemma P_scanError n c s' : P n c (s', scanError) -> doomed s'.
Proof. intros [[D _] | (_ & V & _)]; [exact D | exfalso; unfold scanError in V; lia]. Qed.

Lemma scanner0_good pooled : good (scanner_reset pooled) /\ scanner_reset pooled = scanner0.
Proof. split; [split; [reflexivity | discriminate] | reflexivity]. Qed.

Lemma len_nonneg s : 0 <= len s.
Proof. unfold len. lia. Qed.

Lemma len_app a b : len (a ++ b) = len a + len b.
Proof. unfold len. rewrite app_length. lia. Qed.

Lemma slice_ge s a b : (a <? b) = false -> slice s a b = [].
Proof. intro H. apply Z.ltb_ge in H. unfold slice. replace (Z.to_nat (b - a)) with 0%nat by lia. reflexivity. Qed.

Lemma slice_to_end s a : 0 <= a -> slice s a (len s) = skipn (Z.to_nat a) s.
Proof. intro H. unfold slice, len. apply firstn_all2. rewrite skipn_length. lia. Qed.

Lemma rest_len s i t : 0 <= i -> skipn (Z.to_nat i) s = t -> t <> [] -> i + len t = len s.
Proof.
  intros H E N. assert (L : length t = (length s - Z.to_nat i)%nat) by (rewrite <- E; apply skipn_length).
  unfold len. destruct t; [contradiction|]. simpl in L. simpl. lia.
Qed.

Lemma at_rest s i t k : 0 <= i -> skipn (Z.to_nat i) s = t -> at_ s (i + Z.of_nat k) = nth k t x00.
Proof. intros H <-. unfold at_. rewrite <- nth_skipn. f_equal. lia. Qed.

Lemma advance1 s i c r : 0 <= i -> skipn (Z.to_nat i) s = c :: r ->
  skipn (Z.to_nat (i + 1)) s = r /\ forall a, 0 <= a <= i -> slice s a (i + 1) = slice s a i ++ [c].
Proof.
  intros H E.
  assert (L : length (c :: r) = (length s - Z.to_nat i)%nat) by (rewrite <- E; apply skipn_length).
  simpl in L. split.
  - replace (Z.to_nat (i + 1)) with (Z.to_nat i + 1)%nat by lia. rewrite <- skipn_skipn, E. reflexivity.
  - intros a Ha. unfold slice.
    replace (Z.to_nat (i + 1 - a)) with (Z.to_nat (i - a) + 1)%nat by lia.
    rewrite firstn_add.
    f_equal. rewrite skipn_skipn. replace (Z.to_nat a + Z.to_nat (i - a))%nat with (Z.to_nat i) by lia.
    rewrite E. reflexivity.
Qed.

Lemma trunc_app (out0 w : bytes) :
  in_slice 0 (len out0) (len (out0 ++ w)) = true /\ firstn (Z.to_nat (len out0)) (out0 ++ w) = out0.
Proof.
  split.
  - rewrite len_app. pose proof (len_nonneg out0). pose proof (len_nonneg w). apply slice_in_range; lia.
  - unfold len. rewrite Nat2Z.id, firstn_app, Nat.sub_diag, firstn_all. cbn. apply app_nil_r.
Qed.

Definition pre (out0 o : bytes) : Prop := exists w, o = out0 ++ w.

Lemma pre_refl out0 : pre out0 out0.
Proof. exists []. symmetry. apply app_nil_r. Qed.

Lemma pre_app out0 o x : pre out0 o -> pre out0 (o ++ x).
Proof. intros [w ->]. exists (w ++ x). symmetry. apply app_assoc. Qed.

(* the statements after either loop: on an error of eof the buffer is cut back to what it held *)
Lemma post_eof (K : res) out0 o scan : pre out0 o ->
  (let '(scan', eofv) := scanner_eof scan in
   if eofv =? scanError then
     if negb (in_slice 0 (len out0) (len o)) then RFail OutOfRange else
     let out := firstn (Z.to_nat (len out0)) o in
     if err scan' then RErr out else ROk out
   else K) = if snd (scanner_eof scan) =? scanError then RErr out0 else K.
Proof.
  intros [w ->]. pose proof (eof_error_err scan) as EE. destruct (scanner_eof scan) as [s2 v2]. cbn [fst snd] in *.
  destruct (v2 =? scanError) eqn:V; [|reflexivity]. destruct (trunc_app out0 w) as [T1 T2].
  rewrite T1, T2, EE by (apply Z.eqb_eq; exact V). reflexivity.
Qed.

Lemma eof_doomed scan : doomed scan -> snd (scanner_eof scan) =? scanError = true.
Proof. intros [E _]. rewrite (eof_err scan E). reflexivity. Qed.

Lemma post_doomed' src esc out0 scan start o : pre out0 o -> doomed scan ->
  compact_post src esc (len out0) scan start o = RErr out0.
Proof. intros HW D. unfold compact_post. rewrite (post_eof _ out0 o scan HW), (eof_doomed scan D). reflexivity. Qed.

Definition spc (esc : bool) (c : byte) : bool := esc && (((bz c =? 60) || (bz c =? 62)) || (bz c =? 38)).
Definition lsc (esc : bool) (src : bytes) (i : Z) (c : byte) : bool :=
  (((esc && (bz c =? 226)) && (i + 2 <? len src)) && (bz (at_ src (i + 1)) =? 128)) && (Z.ldiff (bz (at_ src (i + 2))) 1 =? 168).

Lemma hexg_hi c : in_idx (Z.shiftr (bz c) 4) (len go_hex) = true.
Proof. exact (proj1 (proj2 (proj2 (go_hex_digits c)))). Qed.
Lemma hexg_lo c : in_idx (Z.land (bz c) 15) (len go_hex) = true.
Proof. exact (proj2 (proj2 (proj2 (go_hex_digits c)))). Qed.
Lemma hexv_hi c : at_ go_hex (Z.shiftr (bz c) 4) = hex_hi c.
Proof. exact (proj1 (go_hex_digits c)). Qed.
Lemma hexv_lo c : at_ go_hex (Z.land (bz c) 15) = hex_lo c.
Proof. exact (proj1 (proj2 (go_hex_digits c))). Qed.

Lemma ltb_succ_false i k : 0 < k -> (i + k <? i) = false.
Proof. intro. apply Z.ltb_ge. lia. Qed.

Lemma slice_guard s a b : 0 <= a -> (a <? b) = true -> b <= len s -> in_slice a b (len s) = true.
Proof. intros A B C. apply Z.ltb_lt in B. apply slice_in_range; lia. Qed.

Lemma idx_guard j n : 0 <= j < n -> in_idx j n = true.
Proof. exact (idx_in_range j n). Qed.

Lemma compact_body_spec src esc oL i c scan start out : 0 <= start -> 0 <= i -> i <= len src ->
  compact_body src esc oL i c scan start out =
  let '(start1, out1) := if spc esc c then (i + 1, out ++ slice src start i ++ [x5c; x75; x30; x30; hex_hi c; hex_lo c])
                         else (start, out) in
  let '(start2, out2) := if lsc esc src i c
                         then (i + 3, out1 ++ slice src start1 i ++ [x5c; x75; x32; x30; x32; hex_lo (at_ src (i + 2))])
                         else (start1, out1) in
  let '(scan', v) := step_fn (step scan) scan c in
  if scanSkipSpace <=? v then
    if v =? scanError then compact_BBreak scan' start2 out2 else compact_BNext scan' (i + 1) (out2 ++ slice src start2 i)
  else compact_BNext scan' start2 out2.
Proof.
  intros Hs Hi Hl. unfold compact_body, spc. fold (lsc esc src i c).
  assert (G2 : (negb (esc && (bz c =? 226) && (i + 2 <? len src)) || in_idx (i + 1) (len src)) &&
               (negb (esc && (bz c =? 226) && (i + 2 <? len src) && (bz (at_ src (i + 1)) =? 128)) || in_idx (i + 2) (len src)) = true).
  { destruct (i + 2 <? len src) eqn:L2.
    - apply Z.ltb_lt in L2. rewrite !idx_guard, !orb_true_r by lia. reflexivity.
    - rewrite !andb_false_r. reflexivity. }
  rewrite G2. clear G2.
  assert (G3 : lsc esc src i c = true -> in_idx (i + 2) (len src) = true).
  { unfold lsc. rewrite !andb_true_iff. intros [[[[_ _] L2] _] _]. apply Z.ltb_lt in L2. apply idx_guard. lia. }
  rewrite !hexg_hi, !hexg_lo, !hexv_hi, !hexv_lo, !(ltb_succ_false i 1), !(ltb_succ_false i 3) by lia.
  cbn [negb andb].
  destruct (start <? i) eqn:SI;
    [rewrite (slice_guard src start i Hs SI Hl) | rewrite (slice_ge src start i SI)]; cbn [negb];
    (destruct (esc && ((bz c =? 60) || (bz c =? 62) || (bz c =? 38)));
     (destruct (lsc _ src i c) eqn:L; [rewrite (G3 eq_refl)|]); cbn [negb andb];
     destruct (step_fn (step scan) scan c) as [scan' v];
     (destruct (scanSkipSpace <=? v); [destruct (v =? scanError)|]);
     rewrite ?(slice_ge src (i + 1) i), ?(slice_ge src (i + 3) i) by (apply ltb_succ_false; lia);
     rewrite ?(slice_ge src start i) by exact SI;
     rewrite <- ?app_assoc, ?app_nil_r; cbn [app]; reflexivity).
Qed.

Definition lsm (r : bytes) : bool :=
  match r with
  | x80 :: xa8 :: _ | x80 :: xa9 :: _ => true
  | _ => false
  end.

Lemma compact_loop_cons esc s c r skip out :
  compact_loop esc s (c :: r) skip out =
  let (s', v) := step_fn (step s) s c in
  if (v =? scanError) then None else
  match skip with
  | S k => compact_loop esc s' r k out
  | O =>
      if esc && (Byte.eqb c x3c || Byte.eqb c x3e || Byte.eqb c x26) then
        compact_loop esc s' r 0 (hex_lo c :: hex_hi c :: x30 :: x30 :: x75 :: x5c :: out)
      else if esc && Byte.eqb c xe2 && lsm r then
        compact_loop esc s' r 2 (hex_lo (nth 1 r x00) :: x32 :: x30 :: x32 :: x75 :: x5c :: out)
      else if (scanSkipSpace <=? v) then compact_loop esc s' r 0 out
      else compact_loop esc s' r 0 (c :: out)
  end.
Proof.
  cbn [compact_loop]. destruct (step_fn (step s) s c) as [s' v]. destruct (v =? scanError); [reflexivity|].
  destruct skip; [|reflexivity].
  destruct (esc && (Byte.eqb c x3c || Byte.eqb c x3e || Byte.eqb c x26)); [reflexivity|].
  unfold lsm. destruct r as [|c1 [|c2 r']]; reflexivity.
Qed.

Lemma spc_eq esc c : spc esc c = esc && (Byte.eqb c x3c || Byte.eqb c x3e || Byte.eqb c x26).
Proof. unfold spc. rewrite <- !bz_eqb. reflexivity. Qed.

Lemma lsm_inv r : lsm r = true -> exists d r', r = x80 :: d :: r' /\ (d = xa8 \/ d = xa9).
Proof.
  change (lsm r) with (Codec.ls_head (xe2 :: r)). rewrite Codec.ls_head_is_ls.
  destruct (Codec.is_ls (xe2 :: r)) as [[x t]|] eqn:L; [intros _ | discriminate].
  apply Codec.is_ls_inv in L as [[L _]|[L _]]; injection L as ->; eauto.
Qed.

Lemma lsc_eq esc src i c r : 0 <= i -> skipn (Z.to_nat i) src = c :: r ->
  lsc esc src i c = esc && Byte.eqb c xe2 && lsm r /\
  (lsc esc src i c = true -> exists d r', r = x80 :: d :: r' /\ (d = xa8 \/ d = xa9) /\ at_ src (i + 2) = d /\ i + 3 <= len src).
Proof.
  intros Hi E. pose proof (rest_len src i (c :: r) Hi E ltac:(discriminate)) as L.
  unfold len in L. cbn [length] in L. unfold lsc. destruct (i + 2 <? len src) eqn:L2.
  - apply Z.ltb_lt in L2. destruct r as [|c1 [|c2 r']]; try (unfold len in L2; cbn [length] in L; lia).
    assert (A1 : at_ src (i + 1) = c1) by exact (at_rest src i _ 1%nat Hi E).
    assert (A2 : at_ src (i + 2) = c2) by exact (at_rest src i _ 2%nat Hi E).
    rewrite A1, A2, andb_true_r. change 226 with (bz xe2). rewrite bz_eqb.
    assert (R : (bz c1 =? 128) && (Z.ldiff (bz c2) 1 =? 168) = lsm (c1 :: c2 :: r')).
    { destruct c1; try reflexivity. destruct c2; reflexivity. }
    rewrite <- !andb_assoc, R. split; [reflexivity|].
    rewrite !andb_true_iff. intros (_ & _ & M). apply lsm_inv in M as (d & t & [= -> -> ->] & D).
    exists d, t. split; [reflexivity|]. split; [exact D|]. split; [reflexivity|]. unfold len. cbn [length] in L. lia.
  - rewrite !andb_false_r. split; [|discriminate]. destruct (lsm r) eqn:M; [|now rewrite andb_false_r].
    apply lsm_inv in M as (d & t & -> & _). apply Z.ltb_ge in L2. unfold len in L2. cbn [length] in L. lia.
Qed.

Definition nsp (c : byte) : Prop := c = x80 \/ c = xa8 \/ c = xa9.

Lemma nsp_facts esc src i c : nsp c -> spc esc c = false /\ lsc esc src i c = false /\ isSpace c = false.
Proof. intros [-> | [-> | ->]]; (split; [|split]); try reflexivity; destruct esc; reflexivity. Qed.

Lemma spc_lsc esc src i c : spc esc c = true -> lsc esc src i c = false.
Proof.
  rewrite spc_eq. intro H. apply andb_prop in H as [_ H]. unfold lsc.
  assert (E : (bz c =? 226) = false); [|now rewrite E, andb_false_r].
  apply orb_prop in H as [H|H]; [apply orb_prop in H as [H|H]|]; apply Byte.byte_dec_bl in H; subst c; reflexivity.
Qed.

Lemma lsc_e2 esc src i c : lsc esc src i c = true -> c = xe2.
Proof. unfold lsc. rewrite !andb_true_iff. intros ((((_ & H) & _) & _) & _). exact (bz_is c xe2 H). Qed.

Definition cfin (out0 : bytes) (m : option (scanner * bytes)) : res :=
  match m with
  | None => RErr out0
  | Some (s, o) => if snd (scanner_eof s) =? scanError then RErr out0 else ROk (out0 ++ rev o)
  end.

Definition gfin (src : bytes) (esc : bool) (out0 : bytes) (l : compact_l) : res :=
  match l with
  | compact_LFail f => RFail f
  | compact_LDone scan start out => compact_post src esc (len out0) scan start out
  end.

(* i: the index of the next byte, rest: the bytes from there on.  The model has written rev outm; the code
   has written outg and still holds back src[start:i]; after an escaped U+2028/9 the model skips the
   remaining bytes of the sequence one by one, where the code has moved start behind them. *)
Definition CInv (src out0 : bytes) (i : Z) (rest : bytes) (scan : scanner) (start : Z) (outg : bytes)
  (skip : nat) (outm : bytes) : Prop :=
  0 <= start <= len src /\ pre out0 outg /\
  (doomed scan \/
   (good scan /\
    match skip with
    | O => start <= i /\ outg ++ slice src start i = out0 ++ rev outm
    | S _ => start = i + Z.of_nat skip /\ outg = out0 ++ rev outm /\
             length (firstn skip rest) = skip /\ Forall nsp (firstn skip rest)
    end)).

Lemma compact_sim esc src out0 : forall rest i scan start outg skip outm,
  0 <= i -> skipn (Z.to_nat i) src = rest -> i + len rest = len src ->
  CInv src out0 i rest scan start outg skip outm ->
  gfin src esc out0 (compact_iter src esc (len out0) rest i scan start outg) =
  cfin out0 (compact_loop esc scan rest skip outm).
Proof.
  induction rest as [|c r IH]; intros i scan start outg skip outm Hi E L (Hs & HW & I).
  - (* end of the input *)
    cbn [compact_iter compact_loop gfin cfin]. change (len []) with 0 in L. assert (i = len src) by lia. subst i.
    unfold compact_post. rewrite (post_eof _ out0 outg scan HW).
    destruct I as [D | [G I]]; [rewrite (eof_doomed scan D); reflexivity|].
    destruct (snd (scanner_eof scan) =? scanError); [reflexivity|].
    destruct skip as [|k]; [|destruct I as (_ & _ & I3 & _); discriminate I3].
    destruct I as [I1 I2]. destruct (start <? len src) eqn:SL.
    + rewrite (slice_guard src start (len src) (proj1 Hs) SL (Z.le_refl _)). cbn [negb]. rewrite I2. reflexivity.
    + rewrite (slice_ge _ _ _ SL), app_nil_r in I2. rewrite I2. reflexivity.
  - (* one more byte *)
    assert (Hl : i <= len src) by (pose proof (len_nonneg (c :: r)); lia).
    destruct (advance1 src i c r Hi E) as [E' SL].
    assert (L' : (i + 1) + len r = len src) by (unfold len in *; cbn [length] in L; lia).
    assert (Hl1 : i + 1 <= len src) by (pose proof (len_nonneg r); lia).
    pose proof (fun scan start outg skip outm => IH (i + 1) scan start outg skip outm ltac:(lia) E' L') as IH'.
    cbn [compact_iter]. rewrite (compact_body_spec src esc (len out0) i c scan start outg) by lia.
    rewrite compact_loop_cons.
    destruct (lsc_eq esc src i c r Hi E) as [LQ LT]. rewrite <- spc_eq, <- LQ.
    destruct I as [D | [G I]].
    + (* the scanner is in the error state *)
      rewrite (doomed_step scan c D). change (scanError =? scanError) with true.
      change (scanSkipSpace <=? scanError) with true. cbn [cfin].
      destruct (spc esc c); destruct (lsc esc src i c); cbv beta iota zeta; cbn [gfin];
        apply post_doomed'; try exact D; repeat apply pre_app; exact HW.
    + pose proof (P_step scan c G) as HP. destruct (step_fn (step scan) scan c) as [s' v].
      destruct (v =? scanError) eqn:VE.
      { (* break *)
        apply Z.eqb_eq in VE. subst v. pose proof (P_scanError _ _ _ HP) as D'.
        change (scanSkipSpace <=? scanError) with true. change (scanError =? scanError) with true. cbn [cfin].
        destruct (spc esc c); destruct (lsc esc src i c); cbv beta iota zeta; cbn [gfin];
          apply post_doomed'; try exact D'; repeat apply pre_app; exact HW. }
      assert (K1 : (scanSkipSpace <=? v) = true -> isSpace c = false -> doomed s').
      { intros A B. destruct HP as [[D' _]|[_ (_ & Sp & _)]]; [exact D'|].
        apply Z.leb_le in A. unfold scanSkipSpace in A. rewrite Sp in B by lia. discriminate B. }
      assert (K2 : (scanSkipSpace <=? v) = false -> good s').
      { intros A. apply Z.leb_gt in A. destruct HP as [[_ [-> | ->]]|[G' _]];
          [discriminate VE | unfold scanEnd, scanSkipSpace in A; lia | exact G']. }
      assert (K3 : good s' \/ doomed s') by (apply (good_or_doomed _ _ _ _ HP)).
      destruct skip as [|k].
      * (* the model is not skipping *)
        destruct I as [I1 I2].
        destruct (spc esc c) eqn:SP.
        { rewrite (spc_lsc esc src i c SP). cbv beta iota zeta.
          rewrite (slice_ge src (i + 1) i), app_nil_r by (apply ltb_succ_false; lia).
          destruct (scanSkipSpace <=? v); cbv beta iota zeta;
            (apply IH';
             split; [lia|]; split; [repeat apply pre_app; exact HW|];
             destruct K3 as [G'|D']; [right; split; [exact G'|]; split; [lia|] | left; exact D'];
             rewrite (slice_ge src (i + 1) (i + 1)), app_nil_r by (apply Z.ltb_irrefl);
             rewrite app_assoc, I2; cbn [rev]; rewrite <- !app_assoc; reflexivity). }
        destruct (lsc esc src i c) eqn:LS.
        { destruct (LT eq_refl) as (d & r' & -> & Dd & Ad & L3). rewrite Ad. cbv beta iota zeta.
          rewrite (slice_ge src (i + 3) i) by (apply ltb_succ_false; lia).
          assert (NS : isSpace c = false) by (rewrite (lsc_e2 _ _ _ _ LS); reflexivity).
          destruct (scanSkipSpace <=? v) eqn:SK; cbv beta iota zeta.
          - apply IH'.
            split; [lia|]. split; [repeat apply pre_app; exact HW|]. left. apply K1; [reflexivity | exact NS].
          - apply IH'.
            split; [lia|]. split; [repeat apply pre_app; exact HW|]. right. split; [apply K2; reflexivity|].
            split; [lia|]. split.
            + rewrite app_assoc, I2. cbn [rev nth]. rewrite <- !app_assoc. reflexivity.
            + cbn [firstn length]. split; [reflexivity|].
              apply Forall_cons; [left; reflexivity | apply Forall_cons; [right; exact Dd | apply Forall_nil]]. }
        cbv beta iota zeta.
        destruct (scanSkipSpace <=? v) eqn:SK; cbv beta iota zeta.
        { apply IH'.
          split; [lia|]. split; [repeat apply pre_app; exact HW|].
          destruct K3 as [G'|D']; [right; split; [exact G'|]; split; [lia|] | left; exact D'].
          rewrite (slice_ge src (i + 1) (i + 1)), app_nil_r by (apply Z.ltb_irrefl). exact I2. }
        apply IH'.
        split; [lia|]. split; [exact HW|]. right. split; [apply K2; reflexivity|]. split; [lia|].
        rewrite (SL start) by lia. rewrite app_assoc, I2. cbn [rev]. rewrite <- app_assoc. reflexivity.
      * (* the model skips the rest of an escaped sequence *)
        destruct I as (I1 & I2 & I3 & I4). cbn [firstn length] in I3, I4.
        apply Forall_cons_iff in I4 as [Nc I4]. injection I3 as I3.
        destruct (nsp_facts esc src i c Nc) as (F1 & F2 & F3). rewrite F1, F2. cbv beta iota zeta.
        destruct (scanSkipSpace <=? v) eqn:SK; cbv beta iota zeta.
        { apply IH'.
          split; [lia|]. split; [repeat apply pre_app; exact HW|]. left. apply K1; [reflexivity | exact F3]. }
        apply IH'.
        split; [lia|]. split; [exact HW|]. right. split; [apply K2; reflexivity|].
        destruct k as [|k'].
        -- split; [lia|]. rewrite slice_ge by (apply Z.ltb_ge; lia). rewrite app_nil_r. exact I2.
        -- split; [lia|]. split; [exact I2|]. split; [exact I3 | exact I4].
Qed.

Theorem compact_run_is_model : forall pooled esc src out0,
  compact_run pooled src esc out0 =
  match compact_go esc src with Some o => ROk (out0 ++ o) | None => RErr out0 end.
Proof.
  intros pooled esc src out0. unfold compact_run. cbv zeta. rewrite (proj2 (scanner0_good pooled)).
  change (gfin src esc out0 (compact_iter src esc (len out0) src 0 scanner0 0 out0) =
          match compact_go esc src with Some o => ROk (out0 ++ o) | None => RErr out0 end).
  rewrite (compact_sim esc src out0 src 0 scanner0 0 out0 0%nat []).
  - unfold compact_go, cfin. destruct (compact_loop esc scanner0 src 0 []) as [[s o]|]; [|reflexivity].
    destruct (snd (scanner_eof s) =? scanError); reflexivity.
  - lia.
  - reflexivity.
  - lia.
  - split; [pose proof (len_nonneg src); lia|]. split; [apply pre_refl|]. right.
    split; [apply (scanner0_good scanner0)|]. split; [lia|]. rewrite slice_ge by reflexivity. reflexivity.
Qed.

Theorem compact_gen_is_model : forall esc bs, compact_gen esc bs = Scan.compact_go esc bs.
Proof.
  intros esc bs. unfold compact_gen. rewrite compact_run_is_model. destruct (compact_go esc bs); reflexivity.
Qed.

Corollary compact_run_no_failure : forall pooled esc src out0 f, compact_run pooled src esc out0 <> RFail f.
Proof. intros pooled esc src out0 f. rewrite compact_run_is_model. destruct (compact_go esc src); discriminate. Qed.

Definition nlw (ind : bytes) (depth : Z) : bytes := x0a :: rep_bytes (Z.to_nat depth) ind.

Lemma newline_iter_spec prefix ind depth : forall fuel i out, (Z.to_nat (depth - i) < fuel)%nat ->
  newline_iter fuel prefix ind depth i out = newline_LDone (out ++ rep_bytes (Z.to_nat (depth - i)) ind).
Proof.
  induction fuel as [|fuel IH]; intros i out F; [lia|].
  cbn [newline_iter]. destruct (i <? depth) eqn:C.
  - apply Z.ltb_lt in C. unfold newline_body. rewrite IH by lia.
    replace (Z.to_nat (depth - i)) with (S (Z.to_nat (depth - (i + 1)))) by lia.
    cbn [rep_bytes]. rewrite <- app_assoc. reflexivity.
  - apply Z.ltb_ge in C. replace (Z.to_nat (depth - i)) with 0%nat by lia. cbn [rep_bytes]. rewrite app_nil_r. reflexivity.
Qed.

Theorem newline_run_spec : forall prefix ind depth out,
  newline_run prefix ind depth out = VOk (out ++ [x0a] ++ prefix ++ rep_bytes (Z.to_nat depth) ind).
Proof.
  intros prefix ind depth out. unfold newline_run. cbv zeta. rewrite newline_iter_spec by lia.
  unfold newline_post. rewrite Z.sub_0_r, <- !app_assoc. reflexivity.
Qed.

(* the bytes that the switch of Indent tells apart *)
Inductive cclass (c : byte) : Prop :=
| CO : opener c = true -> closer c = false -> (bz c =? 44) = false -> (bz c =? 58) = false -> isSpace c = false -> cclass c
| CC : opener c = false -> closer c = true -> (bz c =? 44) = false -> (bz c =? 58) = false -> isSpace c = false -> cclass c
| C44 : opener c = false -> closer c = false -> (bz c =? 44) = true -> (bz c =? 58) = false -> isSpace c = false -> cclass c
| C58 : opener c = false -> closer c = false -> (bz c =? 44) = false -> (bz c =? 58) = true -> isSpace c = false -> cclass c
| CD : opener c = false -> closer c = false -> (bz c =? 44) = false -> (bz c =? 58) = false -> cclass c.

Lemma cclass_all c : cclass c.
Proof.
  destruct (opener c) eqn:O.
  { apply orb_prop in O as [O|O]; [apply (bz_is c x7b) in O | apply (bz_is c x5b) in O]; subst c; now apply CO. }
  destruct (closer c) eqn:C.
  { apply orb_prop in C as [C|C]; [apply (bz_is c x7d) in C | apply (bz_is c x5d) in C]; subst c; now apply CC. }
  destruct (bz c =? 44) eqn:K; [apply (bz_is c x2c) in K; subst c; now apply C44|].
  destruct (bz c =? 58) eqn:L; [apply (bz_is c x3a) in L; subst c; now apply C58 | now apply CD].
Qed.

Lemma indent_switch {T} (c : byte) (A B C D E : T) :
  match c with x7b | x5b => A | x2c => B | x3a => C | x7d | x5d => D | _ => E end =
  if opener c then A else if bz c =? 44 then B else if bz c =? 58 then C else if closer c then D else E.
Proof. destruct c; reflexivity. Qed.

Definition istep (ind : bytes) (need : bool) (depth v : Z) (c : byte) : bool * Z * bytes :=
  let '(need1, depth1, w1) :=
    if need && negb (v =? scanEndObject) && negb (v =? scanEndArray)
    then (false, depth + 1, nlw ind (depth + 1)) else (need, depth, []) in
  if v =? scanContinue then (need1, depth1, w1 ++ [c])
  else if opener c then (true, depth1, w1 ++ [c])
  else if bz c =? 44 then (need1, depth1, w1 ++ [c] ++ nlw ind depth1)
  else if bz c =? 58 then (need1, depth1, w1 ++ [c; x20])
  else if closer c then
    (if need1 then (false, depth1, w1 ++ [c]) else (need1, depth1 - 1, w1 ++ nlw ind (depth1 - 1) ++ [c]))
  else (need1, depth1, w1 ++ [c]).

Lemma indent_body_spec src ind oL c scan need depth out :
  indent_body src [] ind oL c scan need depth out =
  let '(scan', v) := step_fn (step scan) scan c in
  if v =? scanSkipSpace then indent_BNext scan' need depth out
  else if v =? scanError then indent_BBreak scan' need depth out
  else let '(need', depth', w) := istep ind need depth v c in indent_BNext scan' need' depth' (out ++ w).
Proof.
  unfold indent_body, istep, opener, closer. destruct (step_fn (step scan) scan c) as [scan' v].
  destruct (v =? scanSkipSpace); [reflexivity|]. destruct (v =? scanError); [reflexivity|].
  destruct (need && negb (v =? scanEndObject) && negb (v =? scanEndArray)); cbv beta iota zeta;
    rewrite ?newline_run_spec; (destruct (v =? scanContinue); [|
    destruct ((bz c =? 123) || (bz c =? 91)); [|
    destruct (bz c =? 44); [|
    destruct (bz c =? 58); [|
    destruct ((bz c =? 125) || (bz c =? 93)); [try destruct need|]]]]]);
    rewrite ?newline_run_spec; unfold nlw; rewrite <- ?app_assoc, ?app_nil_r; reflexivity.
Qed.

Lemma indent_loop_cons ind s c r need depth out :
  indent_loop ind s (c :: r) need depth out =
  let (s', v) := step_fn (step s) s c in
  if v =? scanSkipSpace then indent_loop ind s' r need depth out
  else if v =? scanError then None
  else let '(need', depth', w) := istep ind need (Z.of_nat depth) v c in
       indent_loop ind s' r need' (Z.to_nat depth') (rev w ++ out).
Proof.
  cbn [indent_loop]. destruct (step_fn (step s) s c) as [s' v].
  destruct (v =? scanSkipSpace); [reflexivity|]. destruct (v =? scanError); [reflexivity|].
  assert (E1 : Z.to_nat (Z.of_nat depth + 1) = S depth) by lia.
  assert (E2 : Z.to_nat (Z.of_nat depth - 1) = pred depth) by lia.
  unfold istep, nlw, newline_rev.
  destruct (need && negb (v =? scanEndObject) && negb (v =? scanEndArray)); cbv beta iota zeta;
    (destruct (v =? scanContinue); [|
    rewrite indent_switch; destruct (opener c); [|
    destruct (bz c =? 44); [|
    destruct (bz c =? 58); [|
    destruct (closer c); [try destruct need|]]]]]);
    rewrite ?Z.add_simpl_r, ?E1, ?E2, ?Nat2Z.id, ?rev_app_distr; cbn [rev app pred];
    rewrite ?rev_app_distr, <- ?app_assoc; reflexivity.
Qed.

Lemma rev_newline ind n o : rev (newline_rev ind n o) = rev o ++ x0a :: rep_bytes n ind.
Proof. unfold newline_rev. rewrite rev_app_distr, rev_involutive. reflexivity. Qed.

Definition ifin (src ind out0 : bytes) (l : indent_l) : res :=
  match l with
  | indent_LFail f => RFail f
  | indent_LDone scan need depth out => indent_post src [] ind (len out0) scan need depth out
  end.

Lemma ipost_doomed src ind out0 scan need depth o : pre out0 o -> doomed scan ->
  indent_post src [] ind (len out0) scan need depth o = RErr out0.
Proof. intros HW D. unfold indent_post. rewrite (post_eof _ out0 o scan HW), (eof_doomed scan D). reflexivity. Qed.

(* The depth of the code is an int, that of the model a nat: they agree as long as the scanner is not in
   its error state, because then  depth + (1 if an indent is pending) = nesting depth of the scanner.
   A closing bracket after a complete top-level value makes the depth of the code negative and that of
   the model stay 0: the scanner is in the error state from then on and both answers are errors. *)
Definition IInv (out0 : bytes) (scan : scanner) (needg : bool) (depthg : Z) (outg : bytes)
  (needm : bool) (depthm : nat) (outm : bytes) : Prop :=
  pre out0 outg /\
  (doomed scan \/
   (good scan /\ needm = needg /\ 0 <= depthg /\ depthm = Z.to_nat depthg /\
    depthg + (if needg then 1 else 0) = Z.of_nat (length (parseState scan)) /\ outg = out0 ++ rev outm)).

Lemma istep_depth ind n s' v c (need : bool) depth (need' : bool) depth' w :
  lenrel n s' v c -> (9 <= v -> isSpace c = true) -> 0 <= v <= 10 -> v <> scanSkipSpace ->
  0 <= depth -> depth + (if need then 1 else 0) = Z.of_nat n ->
  istep ind need depth v c = (need', depth', w) ->
  0 <= depth' /\ depth' + (if need' then 1 else 0) = Z.of_nat (length (parseState s')).
Proof.
  intros [LR1 LR2] Sp Vr NS Hd HN. unfold istep. rewrite <- andb_assoc, <- negb_orb. fold (isEnd v).
  apply Z.eqb_neq in NS. rewrite NS in LR1.
  (* a pending indent is taken now unless a closing bracket follows; then, by the class of the byte: the nesting
     depth changes with a bracket unless the op code is scanContinue, and scanEnd comes with white space only *)
  destruct need; [destruct (isEnd v) eqn:En; [specialize (LR2 eq_refl)|]|]; cbn [andb negb]; cbv beta iota zeta;
    (destruct (v =? scanContinue); cbn [orb] in LR1; [intros [= <- <- <-]; lia|]);
    (destruct (cclass_all c) as [C1 C2 C3 C4 C5 | C1 C2 C3 C4 C5 | C1 C2 C3 C4 C5 | C1 C2 C3 C4 C5 | C1 C2 C3 C4];
     rewrite ?C1, ?C2, ?C3, ?C4; rewrite ?C1, ?C2 in LR1; try congruence;
     destruct (v =? scanEnd) eqn:Ve;
     try (apply Z.eqb_eq in Ve; rewrite Sp in C5 by (rewrite Ve; unfold scanEnd; lia); discriminate C5);
     intros [= <- <- <-]; lia).
Qed.

Lemma indent_sim ind src out0 : forall rest scan needg depthg outg needm depthm outm,
  IInv out0 scan needg depthg outg needm depthm outm ->
  ifin src ind out0 (indent_iter src [] ind (len out0) rest scan needg depthg outg) =
  cfin out0 (indent_loop ind scan rest needm depthm outm).
Proof.
  induction rest as [|c r IH]; intros scan needg depthg outg needm depthm outm (HW & I).
  - cbn [indent_iter indent_loop ifin cfin]. unfold indent_post. rewrite (post_eof _ out0 outg scan HW).
    destruct I as [D | (G & _ & _ & _ & _ & ->)]; [rewrite (eof_doomed scan D)|]; reflexivity.
  - cbn [indent_iter]. rewrite indent_body_spec, indent_loop_cons.
    destruct I as [D | (G & -> & Hd & -> & HN & ->)].
    + rewrite (doomed_step scan c D). cbn [ifin cfin]. apply ipost_doomed; assumption.
    + pose proof (P_step scan c G) as HP. destruct (step_fn (step scan) scan c) as [s' v].
      rewrite Z2Nat.id by exact Hd.
      destruct (v =? scanSkipSpace) eqn:VS.
      { apply IH. split; [exact HW|]. destruct HP as [[D' _] | (G' & _ & _ & [LR1 _])]; [left; exact D' | right].
        apply Z.eqb_eq in VS. subst v. cbn in LR1. rewrite LR1. auto 10. }
      destruct (v =? scanError) eqn:VE.
      { cbn [ifin cfin]. apply Z.eqb_eq in VE. subst v. apply ipost_doomed; [exact HW | exact (P_scanError _ _ _ HP)]. }
      destruct (istep ind needg depthg v c) as [[need' depth'] w] eqn:IS. apply IH.
      split; [apply pre_app; exact HW|].
      destruct HP as [[D' _] | (G' & Vr & Sp & LR)]; [left; exact D' | right].
      apply Z.eqb_neq in VS.
      destruct (istep_depth ind _ s' v c needg depthg need' depth' w LR Sp Vr VS Hd HN IS) as [H1 H2].
      split; [exact G'|]. split; [reflexivity|]. split; [exact H1|]. split; [reflexivity|]. split; [exact H2|].
      rewrite rev_app_distr, rev_involutive, app_assoc. reflexivity.
Qed.

Theorem indent_run_is_model : forall pooled ind src out0,
  indent_run pooled src [] ind out0 =
  match indent_go ind src with Some o => ROk (out0 ++ o) | None => RErr out0 end.
Proof.
  intros pooled ind src out0. unfold indent_run. cbv zeta. rewrite (proj2 (scanner0_good pooled)).
  change (ifin src ind out0 (indent_iter src [] ind (len out0) src scanner0 false 0 out0) =
          match indent_go ind src with Some o => ROk (out0 ++ o) | None => RErr out0 end).
  rewrite (indent_sim ind src out0 src scanner0 false 0 out0 false 0%nat []).
  - unfold indent_go, cfin. destruct (indent_loop ind scanner0 src false 0 []) as [[s o]|]; [|reflexivity].
    destruct (snd (scanner_eof s) =? scanError); reflexivity.
  - split; [apply pre_refl|]. right. split; [apply (scanner0_good scanner0)|].
    split; [reflexivity|]. split; [lia|]. split; [reflexivity|]. split; [reflexivity|].
    symmetry. apply app_nil_r.
Qed.

Theorem indent_gen_is_model : forall indent bs, indent_gen [] indent bs = Scan.indent_go indent bs.
Proof.
  intros ind bs. unfold indent_gen. rewrite indent_run_is_model. destruct (indent_go ind bs); reflexivity.
Qed.

Corollary indent_run_no_failure : forall pooled ind src out0 f, indent_run pooled src [] ind out0 <> RFail f.
Proof. intros pooled ind src out0 f. rewrite indent_run_is_model. destruct (indent_go ind src); discriminate. Qed.

(* newline never fails, whatever its arguments (a negative depth included) *)
Corollary newline_run_no_failure : forall prefix ind depth out f, newline_run prefix ind depth out <> VFail f.
Proof. intros. rewrite newline_run_spec. discriminate. Qed.

Print Assumptions compact_run_is_model.
Print Assumptions compact_gen_is_model.
Print Assumptions indent_run_is_model.
Print Assumptions indent_gen_is_model.
Print Assumptions newline_run_spec.

(* ------------------------------------------------------------------ examples
   The right-hand sides were printed by the Go code itself (compact and Indent of a copy of
   v5/internal/json, run once): a nested document, strings with < > & and U+2028 / U+2029 (and U+202A,
   which stays) with escape off and on, ill-formed inputs (a closing bracket after a complete value, which
   makes the depth of Indent negative; a truncated document; U+2028 after the top-level value; all None),
   trailing white space (dropped by compact, kept by Indent), a string that ends in E2 80 (the index guard
   of src[i+2]), and Indent with a prefix (outside the theorem: json-patch always passes an empty one). *)
Example ex_compact_nested_false :
  compact_gen false [x20; x7b; x22; x61; x22; x3a; x20; x5b; x31; x2c; x20; x32; x2e; x35; x65; x33; x2c; x20; x7b; x7d; x2c; x20; x5b; x5d; x2c; x20; x7b; x22; x62; x22; x3a; x20; x6e; x75; x6c; x6c; x7d; x5d; x2c; x20; x22; x63; x22; x3a; x20; x22; x78; x20; x79; x22; x20; x2c; x22; x64; x22; x3a; x5b; x74; x72; x75; x65; x2c; x66; x61; x6c; x73; x65; x5d; x7d; x20] =
  Some [x7b; x22; x61; x22; x3a; x5b; x31; x2c; x32; x2e; x35; x65; x33; x2c; x7b; x7d; x2c; x5b; x5d; x2c; x7b; x22; x62; x22; x3a; x6e; x75; x6c; x6c; x7d; x5d; x2c; x22; x63; x22; x3a; x22; x78; x20; x79; x22; x2c; x22; x64; x22; x3a; x5b; x74; x72; x75; x65; x2c; x66; x61; x6c; x73; x65; x5d; x7d].
Proof. vm_compute. reflexivity. Qed.

Example ex_compact_nested_true :
  compact_gen true [x20; x7b; x22; x61; x22; x3a; x20; x5b; x31; x2c; x20; x32; x2e; x35; x65; x33; x2c; x20; x7b; x7d; x2c; x20; x5b; x5d; x2c; x20; x7b; x22; x62; x22; x3a; x20; x6e; x75; x6c; x6c; x7d; x5d; x2c; x20; x22; x63; x22; x3a; x20; x22; x78; x20; x79; x22; x20; x2c; x22; x64; x22; x3a; x5b; x74; x72; x75; x65; x2c; x66; x61; x6c; x73; x65; x5d; x7d; x20] =
  Some [x7b; x22; x61; x22; x3a; x5b; x31; x2c; x32; x2e; x35; x65; x33; x2c; x7b; x7d; x2c; x5b; x5d; x2c; x7b; x22; x62; x22; x3a; x6e; x75; x6c; x6c; x7d; x5d; x2c; x22; x63; x22; x3a; x22; x78; x20; x79; x22; x2c; x22; x64; x22; x3a; x5b; x74; x72; x75; x65; x2c; x66; x61; x6c; x73; x65; x5d; x7d].
Proof. vm_compute. reflexivity. Qed.

Example ex_indent_nested :
  indent_gen [] [x20; x20] [x20; x7b; x22; x61; x22; x3a; x20; x5b; x31; x2c; x20; x32; x2e; x35; x65; x33; x2c; x20; x7b; x7d; x2c; x20; x5b; x5d; x2c; x20; x7b; x22; x62; x22; x3a; x20; x6e; x75; x6c; x6c; x7d; x5d; x2c; x20; x22; x63; x22; x3a; x20; x22; x78; x20; x79; x22; x20; x2c; x22; x64; x22; x3a; x5b; x74; x72; x75; x65; x2c; x66; x61; x6c; x73; x65; x5d; x7d; x20] =
  Some [x7b; x0a; x20; x20; x22; x61; x22; x3a; x20; x5b; x0a; x20; x20; x20; x20; x31; x2c; x0a; x20; x20; x20; x20; x32; x2e; x35; x65; x33; x2c; x0a; x20; x20; x20; x20; x7b; x7d; x2c; x0a; x20; x20; x20; x20; x5b; x5d; x2c; x0a; x20; x20; x20; x20; x7b; x0a; x20; x20; x20; x20; x20; x20; x22; x62; x22; x3a; x20; x6e; x75; x6c; x6c; x0a; x20; x20; x20; x20; x7d; x0a; x20; x20; x5d; x2c; x0a; x20; x20; x22; x63; x22; x3a; x20; x22; x78; x20; x79; x22; x2c; x0a; x20; x20; x22; x64; x22; x3a; x20; x5b; x0a; x20; x20; x20; x20; x74; x72; x75; x65; x2c; x0a; x20; x20; x20; x20; x66; x61; x6c; x73; x65; x0a; x20; x20; x5d; x0a; x7d; x20].
Proof. vm_compute. reflexivity. Qed.

Example ex_compact_html_false :
  compact_gen false [x5b; x22; x3c; x61; x20; x68; x72; x65; x66; x3d; x5c; x22; x78; x5c; x22; x3e; x26; x61; x6d; x70; x3b; x3c; x2f; x61; x3e; x22; x2c; x20; x22; xe2; x80; xa8; x22; x20; x2c; x20; x22; x70; xe2; x80; xa9; x71; x22; x2c; x20; x22; xe2; x80; xaa; x22; x5d] =
  Some [x5b; x22; x3c; x61; x20; x68; x72; x65; x66; x3d; x5c; x22; x78; x5c; x22; x3e; x26; x61; x6d; x70; x3b; x3c; x2f; x61; x3e; x22; x2c; x22; xe2; x80; xa8; x22; x2c; x22; x70; xe2; x80; xa9; x71; x22; x2c; x22; xe2; x80; xaa; x22; x5d].
Proof. vm_compute. reflexivity. Qed.

Example ex_compact_html_true :
  compact_gen true [x5b; x22; x3c; x61; x20; x68; x72; x65; x66; x3d; x5c; x22; x78; x5c; x22; x3e; x26; x61; x6d; x70; x3b; x3c; x2f; x61; x3e; x22; x2c; x20; x22; xe2; x80; xa8; x22; x20; x2c; x20; x22; x70; xe2; x80; xa9; x71; x22; x2c; x20; x22; xe2; x80; xaa; x22; x5d] =
  Some [x5b; x22; x5c; x75; x30; x30; x33; x63; x61; x20; x68; x72; x65; x66; x3d; x5c; x22; x78; x5c; x22; x5c; x75; x30; x30; x33; x65; x5c; x75; x30; x30; x32; x36; x61; x6d; x70; x3b; x5c; x75; x30; x30; x33; x63; x2f; x61; x5c; x75; x30; x30; x33; x65; x22; x2c; x22; x5c; x75; x32; x30; x32; x38; x22; x2c; x22; x70; x5c; x75; x32; x30; x32; x39; x71; x22; x2c; x22; xe2; x80; xaa; x22; x5d].
Proof. vm_compute. reflexivity. Qed.

Example ex_indent_html :
  indent_gen [] [x20; x20] [x5b; x22; x3c; x61; x20; x68; x72; x65; x66; x3d; x5c; x22; x78; x5c; x22; x3e; x26; x61; x6d; x70; x3b; x3c; x2f; x61; x3e; x22; x2c; x20; x22; xe2; x80; xa8; x22; x20; x2c; x20; x22; x70; xe2; x80; xa9; x71; x22; x2c; x20; x22; xe2; x80; xaa; x22; x5d] =
  Some [x5b; x0a; x20; x20; x22; x3c; x61; x20; x68; x72; x65; x66; x3d; x5c; x22; x78; x5c; x22; x3e; x26; x61; x6d; x70; x3b; x3c; x2f; x61; x3e; x22; x2c; x0a; x20; x20; x22; xe2; x80; xa8; x22; x2c; x0a; x20; x20; x22; x70; xe2; x80; xa9; x71; x22; x2c; x0a; x20; x20; x22; xe2; x80; xaa; x22; x0a; x5d].
Proof. vm_compute. reflexivity. Qed.

Example ex_compact_bad_close_false :
  compact_gen false [x31; x7d] =
  None.
Proof. vm_compute. reflexivity. Qed.

Example ex_compact_bad_close_true :
  compact_gen true [x31; x7d] =
  None.
Proof. vm_compute. reflexivity. Qed.

Example ex_indent_bad_close :
  indent_gen [] [x20; x20] [x31; x7d] =
  None.
Proof. vm_compute. reflexivity. Qed.

Example ex_compact_bad_trunc_false :
  compact_gen false [x7b; x22; x61; x22; x3a; x20; x5b; x31; x2c; x20; x32] =
  None.
Proof. vm_compute. reflexivity. Qed.

Example ex_compact_bad_trunc_true :
  compact_gen true [x7b; x22; x61; x22; x3a; x20; x5b; x31; x2c; x20; x32] =
  None.
Proof. vm_compute. reflexivity. Qed.

Example ex_indent_bad_trunc :
  indent_gen [] [x20; x20] [x7b; x22; x61; x22; x3a; x20; x5b; x31; x2c; x20; x32] =
  None.
Proof. vm_compute. reflexivity. Qed.

Example ex_compact_bad_ls_after_top_false :
  compact_gen false [x31; x20; xe2; x80; xa8] =
  None.
Proof. vm_compute. reflexivity. Qed.

Example ex_compact_bad_ls_after_top_true :
  compact_gen true [x31; x20; xe2; x80; xa8] =
  None.
Proof. vm_compute. reflexivity. Qed.

Example ex_indent_bad_ls_after_top :
  indent_gen [] [x20; x20] [x31; x20; xe2; x80; xa8] =
  None.
Proof. vm_compute. reflexivity. Qed.

Example ex_compact_trailing_false :
  compact_gen false [x5b; x31; x2c; x7b; x22; x61; x22; x3a; x5b; x5d; x7d; x5d; x20; x20; x0a] =
  Some [x5b; x31; x2c; x7b; x22; x61; x22; x3a; x5b; x5d; x7d; x5d].
Proof. vm_compute. reflexivity. Qed.

Example ex_compact_trailing_true :
  compact_gen true [x5b; x31; x2c; x7b; x22; x61; x22; x3a; x5b; x5d; x7d; x5d; x20; x20; x0a] =
  Some [x5b; x31; x2c; x7b; x22; x61; x22; x3a; x5b; x5d; x7d; x5d].
Proof. vm_compute. reflexivity. Qed.

Example ex_indent_trailing :
  indent_gen [] [x20; x20] [x5b; x31; x2c; x7b; x22; x61; x22; x3a; x5b; x5d; x7d; x5d; x20; x20; x0a] =
  Some [x5b; x0a; x20; x20; x31; x2c; x0a; x20; x20; x7b; x0a; x20; x20; x20; x20; x22; x61; x22; x3a; x20; x5b; x5d; x0a; x20; x20; x7d; x0a; x5d; x20; x20; x0a].
Proof. vm_compute. reflexivity. Qed.

Example ex_compact_short_e2_false :
  compact_gen false [x22; xe2; x80; x22] =
  Some [x22; xe2; x80; x22].
Proof. vm_compute. reflexivity. Qed.

Example ex_compact_short_e2_true :
  compact_gen true [x22; xe2; x80; x22] =
  Some [x22; xe2; x80; x22].
Proof. vm_compute. reflexivity. Qed.

Example ex_indent_short_e2 :
  indent_gen [] [x20; x20] [x22; xe2; x80; x22] =
  Some [x22; xe2; x80; x22].
Proof. vm_compute. reflexivity. Qed.

Example ex_indent_prefix :
  indent_gen [x3e; x20] [x09] [x7b; x22; x61; x22; x3a; x5b; x31; x2c; x32; x5d; x7d] =
  Some [x7b; x0a; x3e; x20; x09; x22; x61; x22; x3a; x20; x5b; x0a; x3e; x20; x09; x09; x31; x2c; x0a; x3e; x20; x09; x09; x32; x0a; x3e; x20; x09; x5d; x0a; x3e; x20; x7d].
Proof. vm_compute. reflexivity. Qed.

