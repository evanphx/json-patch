(* TieFacts.v — what the ties of the translated string functions (QuoteTie.v, UnquoteTie.v, IndentTie.v) share: the list
   surgery behind index and slice expressions, the tactics that decide integer tests, bytes read as Go integers,
   everything DecodeRune checks of a well-formed sequence, in integers, EncodeRune of what DecodeRune found
   (decode_rune_encode), and the hex digits of a byte against Go's table. *)
From Coq Require Import Lia ZifyN.
From JP Require Import Bytes Strings Utf8Rune Utf16Rune JsonFacts.
Local Open Scope Z_scope.

Lemma skipn_skipn {A} a b (l : list A) : skipn a (skipn b l) = skipn (b + a) l.
Proof.
  revert l. induction b as [|b IH]; intro l; [reflexivity|].
  destruct l as [|x l]; [now rewrite !skipn_nil|]. cbn [Nat.add skipn]. apply IH.
Qed.

Lemma nth_skipn {A} n k (l : list A) d : nth (n + k) l d = nth k (skipn n l) d.
Proof.
  revert l. induction n as [|n IH]; intro l; [reflexivity|].
  destruct l as [|x l]; [destruct k; reflexivity|]. cbn [Nat.add nth skipn]. apply IH.
Qed.

Lemma firstn_add {A} j m (u : list A) : firstn (j + m) u = firstn j u ++ firstn m (skipn j u).
Proof.
  revert u. induction j as [|j IH]; intro u; [reflexivity|].
  destruct u as [|y u]; [cbn; now rewrite firstn_nil|]. cbn [Nat.add firstn skipn app]. f_equal. apply IH.
Qed.

(* the range guards of index and slice expressions, as every generated file defines them (in_idx, in_slice) *)
Lemma idx_in_range i n : 0 <= i < n -> (0 <=? i) && (i <? n) = true.
Proof. intro H. rewrite andb_true_iff, Z.leb_le, Z.ltb_lt. exact H. Qed.

Lemma slice_in_range a b n : 0 <= a <= b -> b <= n -> (0 <=? a) && (a <=? b) && (b <=? n) = true.
Proof. intros H1 H2. rewrite !andb_true_iff, !Z.leb_le. lia. Qed.

(* replace the integer comparisons of the goal that mention no byte (tests on a byte are rewritten into the
   model's, bz_eqb and bz_ltb below) and that lia can decide from the context by their values *)
Ltac no_byte a b := lazymatch constr:((a, b)) with context [bz _] => fail | _ => idtac end.
Ltac zdecide :=
  rewrite ?Z.geb_leb, ?Z.gtb_ltb;
  repeat match goal with
  | |- context [?a <? ?b] => no_byte a b;
      first [ replace (a <? b) with true by (symmetry; apply Z.ltb_lt; lia)
            | replace (a <? b) with false by (symmetry; apply Z.ltb_ge; lia) ]
  | |- context [?a <=? ?b] => no_byte a b;
      first [ replace (a <=? b) with true by (symmetry; apply Z.leb_le; lia)
            | replace (a <=? b) with false by (symmetry; apply Z.leb_gt; lia) ]
  | |- context [?a =? ?b] => no_byte a b;
      first [ replace (a =? b) with true by (symmetry; apply Z.eqb_eq; lia)
            | replace (a =? b) with false by (symmetry; apply Z.eqb_neq; lia) ]
  end;
  cbn [negb andb orb].

Lemma ltb_of_N a b : (Z.of_N a <? Z.of_N b) = (a <? b)%N.
Proof. unfold Z.ltb, N.ltb. now rewrite N2Z.inj_compare. Qed.

Lemma leb_of_N a b : (Z.of_N a <=? Z.of_N b) = (a <=? b)%N.
Proof. unfold Z.leb, N.leb. now rewrite N2Z.inj_compare. Qed.

Lemma bz_ltb c k : (bz c <? Z.of_N k) = (bn c <? k)%N.
Proof. apply ltb_of_N. Qed.

Lemma bz_lt32 c : (bz c <? 32) = (bn c <? 32)%N.
Proof. exact (bz_ltb c 32). Qed.

Lemma bz_lt128 c : (bz c <? 128) = (bn c <? 128)%N.
Proof. exact (bz_ltb c 128). Qed.

Lemma byte_is c v : bz c = v -> nb (Z.to_N v) = c.
Proof. intros <-. unfold bz. rewrite N2Z.id. apply nb_bn. Qed.

Lemma bz_eqb c d : (bz c =? bz d) = Byte.eqb c d.
Proof.
  destruct (Byte.eqb c d) eqn:E; [apply Byte.byte_dec_bl in E; subst; apply Z.eqb_refl|].
  apply Z.eqb_neq. intro Q. apply N2Z.inj, JsonFacts.bn_inj in Q. subst d. now rewrite (Byte.byte_dec_lb eq_refl) in E.
Qed.

(* the well-formed sequences of utf8_len, with everything DecodeRune checks *)
Lemma utf8_len_inv c r : (bn c <? 128)%N = false ->
  match utf8_len (c :: r) with
  | 0%nat => True
  | 1%nat => False
  | 2%nat => exists c1 r', r = c1 :: r' /\ 194 <= bz c < 224 /\ 128 <= bz c1 <= 191
  | 3%nat => exists c1 c2 r', r = c1 :: c2 :: r' /\ 224 <= bz c < 240 /\ 128 <= bz c1 <= 191 /\ 128 <= bz c2 <= 191 /\
               (bz c = 224 -> 160 <= bz c1) /\ (bz c = 237 -> bz c1 <= 159)
  | 4%nat => exists c1 c2 c3 r', r = c1 :: c2 :: c3 :: r' /\ 240 <= bz c < 245 /\ (bz c = 240 -> 144 <= bz c1) /\
               (bz c = 244 -> bz c1 <= 143) /\ 128 <= bz c1 <= 191 /\ 128 <= bz c2 <= 191 /\ 128 <= bz c3 <= 191
  | _ => False
  end.
Proof.
  intro H. unfold utf8_len. cbv zeta. rewrite H. unfold bz.
  destruct (bn c <? 194)%N eqn:E1; [exact I|]. apply N.ltb_ge in E1.
  destruct (bn c <? 224)%N eqn:E2.
  { apply N.ltb_lt in E2. destruct r as [|c1 r']; [exact I|]. destruct (cont c1) eqn:C; [|exact I].
    unfold cont, in_range in C. apply andb_prop in C as [C1 C2]. apply N.leb_le in C1, C2.
    exists c1, r'. split; [reflexivity|]. lia. }
  apply N.ltb_ge in E2.
  destruct (bn c <? 240)%N eqn:E3.
  { apply N.ltb_lt in E3. destruct r as [|c1 [|c2 r']]; try exact I.
    destruct (in_range _ _ c1 && cont c2) eqn:C; [|exact I].
    apply andb_prop in C as [C1 C2]. unfold cont, in_range in C1, C2.
    apply andb_prop in C1 as [C1 C1'], C2 as [C2 C2']. apply N.leb_le in C1, C1', C2, C2'.
    exists c1, c2, r'. split; [reflexivity|].
    destruct (bn c =? 224)%N eqn:Q1; [apply N.eqb_eq in Q1 | apply N.eqb_neq in Q1];
    (destruct (bn c =? 237)%N eqn:Q2; [apply N.eqb_eq in Q2 | apply N.eqb_neq in Q2]); lia. }
  apply N.ltb_ge in E3.
  destruct (bn c <? 245)%N eqn:E4; [|exact I]. apply N.ltb_lt in E4.
  destruct r as [|c1 [|c2 [|c3 r']]]; try exact I.
  destruct (in_range _ _ c1 && cont c2 && cont c3) eqn:C; [|exact I].
  apply andb_prop in C as [C C3]. apply andb_prop in C as [C1 C2]. unfold cont, in_range in C1, C2, C3.
  apply andb_prop in C1 as [C1 C1'], C2 as [C2 C2'], C3 as [C3 C3']. apply N.leb_le in C1, C1', C2, C2', C3, C3'.
  exists c1, c2, c3, r'. split; [reflexivity|].
  destruct (bn c =? 240)%N eqn:Q1; [apply N.eqb_eq in Q1 | apply N.eqb_neq in Q1];
  (destruct (bn c =? 244)%N eqn:Q2; [apply N.eqb_eq in Q2 | apply N.eqb_neq in Q2]); lia.
Qed.

Ltac ndecide :=
  repeat match goal with
  | |- context [(?a <? ?b)%N] =>
      first [ replace (a <? b)%N with true by (symmetry; apply N.ltb_lt; lia)
            | replace (a <? b)%N with false by (symmetry; apply N.ltb_ge; lia) ]
  end.

(* EncodeRune on the ranges of the encoded lengths *)
Lemma enc2 v : 128 <= v < 2048 -> encode_rune_z v = [nb (Z.to_N (192 + v / 64)); nb (Z.to_N (128 + v mod 64))].
Proof.
  intro H. unfold encode_rune_z, is_surrogate_z, encode_rune. zdecide. ndecide.
  f_equal; [|f_equal]; f_equal; zify; Z.div_mod_to_equations; lia.
Qed.

Lemma enc3 v : 2048 <= v < 65536 -> ~ (55296 <= v < 57344) ->
  encode_rune_z v = [nb (Z.to_N (224 + v / 4096)); nb (Z.to_N (128 + (v / 64) mod 64)); nb (Z.to_N (128 + v mod 64))].
Proof.
  intros H S. unfold encode_rune_z, is_surrogate_z, encode_rune.
  assert (Q : (55296 <=? v) && (v <? 57344) = false).
  { destruct (55296 <=? v) eqn:A; [apply Z.leb_le in A | reflexivity].
    destruct (v <? 57344) eqn:B; [apply Z.ltb_lt in B; lia | reflexivity]. }
  rewrite Q. zdecide. ndecide.
  f_equal; [|f_equal; [|f_equal]]; f_equal; zify; Z.div_mod_to_equations; lia.
Qed.

Lemma enc4 v : 65536 <= v < 1114112 ->
  encode_rune_z v = [nb (Z.to_N (240 + v / 262144)); nb (Z.to_N (128 + (v / 4096) mod 64));
                     nb (Z.to_N (128 + (v / 64) mod 64)); nb (Z.to_N (128 + v mod 64))].
Proof.
  intro H. unfold encode_rune_z, is_surrogate_z, encode_rune. zdecide. ndecide.
  f_equal; [|f_equal; [|f_equal; [|f_equal]]]; f_equal; zify; Z.div_mod_to_equations; lia.
Qed.

(* DecodeRune at a byte >= 0x80, and EncodeRune of what it found *)
Lemma decode_rune_encode c r : (bn c <? 128)%N = false ->
  match utf8_len (c :: r) with
  | O => decode_rune (c :: r) = (65533, 1)
  | S n => exists rv, decode_rune (c :: r) = (rv, Z.of_nat (S n)) /\ (2 <= S n)%nat /\
                      encode_rune_z rv = firstn (S n) (c :: r)
  end.
Proof.
  (* the payload of a byte is the byte less its marker: the rune is the number with these digits in base 64 *)
  intro H. pose proof (utf8_len_inv c r H) as I. unfold decode_rune.
  destruct (utf8_len (c :: r)) as [|[|[|[|[|k]]]]] eqn:E; try contradiction.
  - destruct r; reflexivity.
  - destruct I as (c1 & r' & -> & B0 & B1). exists ((bz c - 192) * 64 + (bz c1 - 128)).
    split; [do 2 f_equal; lia|]. split; [lia|]. rewrite enc2 by lia. cbn [firstn].
    f_equal; [|f_equal]; apply byte_is; lia.
  - destruct I as (c1 & c2 & r' & -> & B0 & B1 & B2 & B3 & B4).
    exists (((bz c - 224) * 64 + (bz c1 - 128)) * 64 + (bz c2 - 128)).
    split; [do 2 f_equal; lia|]. split; [lia|]. rewrite enc3 by lia. cbn [firstn].
    f_equal; [|f_equal; [|f_equal]]; apply byte_is; lia.
  - destruct I as (c1 & c2 & c3 & r' & -> & B0 & B1 & B2 & B3 & B4 & B5).
    exists ((((bz c - 240) * 64 + (bz c1 - 128)) * 64 + (bz c2 - 128)) * 64 + (bz c3 - 128)).
    split; [do 2 f_equal; lia|]. split; [lia|]. rewrite enc4 by lia. cbn [firstn].
    f_equal; [|f_equal; [|f_equal; [|f_equal]]]; apply byte_is; lia.
Qed.

(* the two hex digits of a byte as the Go code reads them off its table hex (the generated files each define it) *)
Lemma go_hex_digits c :
  let h := [x30; x31; x32; x33; x34; x35; x36; x37; x38; x39; x61; x62; x63; x64; x65; x66] in
  nth (Z.to_nat (Z.shiftr (bz c) 4)) h x00 = hexdigit (bn c / 16) /\
  nth (Z.to_nat (Z.land (bz c) 15)) h x00 = hexdigit (bn c mod 16) /\
  (0 <=? Z.shiftr (bz c) 4) && (Z.shiftr (bz c) 4 <? 16) = true /\
  (0 <=? Z.land (bz c) 15) && (Z.land (bz c) 15 <? 16) = true.
Proof.
  (* the shift is the quotient and the mask the remainder by 16; both are below 16, where the table is hexdigit *)
  intro h. pose proof (bn_lt_256 c) as L. unfold bz.
  assert (D : forall m, (m < 16)%N ->
            nth (Z.to_nat (Z.of_N m)) h x00 = hexdigit m /\ (0 <=? Z.of_N m) && (Z.of_N m <? 16) = true).
  { intros m M. split; [|apply idx_in_range; lia]. replace (Z.to_nat (Z.of_N m)) with (N.to_nat m) by lia.
    apply nth_indep. change (N.to_nat m < 16)%nat. lia. }
  rewrite Z.shiftr_div_pow2, (Z.land_ones _ 4) by lia. change (2 ^ 4) with (Z.of_N 16). rewrite <- N2Z.inj_div, <- N2Z.inj_mod.
  destruct (D (bn c / 16)%N) as [A1 A2]; [apply N.div_lt_upper_bound; lia|].
  destruct (D (bn c mod 16)%N) as [B1 B2]; [apply N.mod_lt; lia|]. auto.
Qed.
