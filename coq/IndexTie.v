(* IndexTie.v -- the array index arithmetic of v5/patch.go, as re-translated on every run by
   tools/goidx2v into gen/IndexGen.v (partialArray.get / set / add / remove: strconv.Atoi result,
   bounds checks, negative indices, 64-bit wrap-around, a bounds test before every index and
   slice expression, the list of slice effects), agrees with the hand-written model of ImplV5.v
   (resolve_idx_get / con_get, ary_set, ary_add, ary_remove) for EVERY length and EVERY index
   of the int range.

   Two steps per method:
     1. <m>_gen_spec : idx_<m>_gen = spec_<m>      integers only; case analysis + lia; this is
                                                   the step a change of patch.go breaks
     2. <m>_spec_model : model = adapter (spec_<m>)  lists; independent of patch.go
   and the corollaries <m>_tie on tokens: the model function is the generated function read
   through the adapter.  spec_<m> is the integer skeleton of the model function (same tests in
   the same order, no wrap-around), with the slice work written as the effect list patch.go
   performs.  Before step 1 a table of boundary values is evaluated and printed: on the unchanged
   patch.go it is empty; after a change of behaviour it lists concrete (neg, allow, len, atoi)
   with both outcomes, and the step-1 proof then stops with the symbolic case (show_case).
   Comparison of effects is syntactic up to integer arithmetic: re-ordering two independent slice
   statements of patch.go needs ins_effs / rm_effs below to be re-ordered with them.
   Go int is taken as 64 bit (wrap64 in IndexGen.v). *)
From Coq Require Import Lia.
From JP Require Import Bytes Pointer ImplV5.
From JP.gen Require Import IndexGen.

Local Open Scope Z_scope.
Arguments wrap64 : simpl never.

Definition in64 (z : Z) : Prop := int64_min <= z <= int64_max.
Definition atoi_ok (a : option Z) : Prop := match a with Some z => in64 z | None => True end.

Lemma wrap64_id z : in64 z -> wrap64 z = z.
Proof.
  unfold in64, int64_min, int64_max, wrap64. intro H.
  rewrite Z.mod_small by lia. lia.
Qed.

Lemma wrap64_over z : int64_max < z <= int64_max + 18446744073709551616 -> wrap64 z = z - 18446744073709551616.
Proof.
  unfold int64_max, wrap64. intro H.
  replace (z + 9223372036854775808) with (z - 9223372036854775808 + 1 * 18446744073709551616) by lia.
  rewrite Z.mod_add, Z.mod_small by lia. lia.
Qed.

Lemma wrap64_under z : int64_min - 18446744073709551616 <= z < int64_min -> wrap64 z = z + 18446744073709551616.
Proof.
  unfold int64_min, wrap64. intro H.
  replace (z + 9223372036854775808) with (z + 27670116110564327424 + (-1) * 18446744073709551616) by lia.
  rewrite Z.mod_add, Z.mod_small by lia. lia.
Qed.

Lemma wrap64_in64 z : in64 (wrap64 z).
Proof.
  unfold in64, int64_min, int64_max, wrap64.
  pose proof (Z.mod_pos_bound (z + 9223372036854775808) 18446744073709551616 eq_refl). lia.
Qed.

(* strconv.Atoi only returns values of the int range *)
Lemma atoi_in64 s : atoi_ok (atoi s).
Proof.
  unfold atoi_ok, atoi.
  destruct (match s with
            | x2d :: r => (true, r)
            | x2b :: r => (false, r)
            | _ => (false, s)
            end) as [ng ds].
  destruct ds as [|c r]; [exact I|].
  destruct (digits_val 0 (c :: r)) as [v|]; [|exact I].
  destruct ((int64_min <=? (if ng then - v else v)) && ((if ng then - v else v) <=? int64_max)) eqn:E; [|exact I].
  apply andb_prop in E as [E1 E2]. apply Z.leb_le in E1. apply Z.leb_le in E2. split; assumption.
Qed.

(* ---- what the effects do to the two slices (Go: make, copy, element assignment, append) ---- *)
Section Run.
  Context {A : Type} (nilv v : A).

  (* x[i] = v *)
  Definition upd (l : list A) (i : Z) : list A :=
    firstn (Z.to_nat i) l ++ v :: skipn (S (Z.to_nat i)) l.

  (* x[a:b] *)
  Definition slice (l : list A) (a b : Z) : list A :=
    firstn (Z.to_nat (b - a)) (skipn (Z.to_nat a) l).

  (* copy(dst[a:b], src): the first min(b-a, len src) elements of src overwrite dst from a on *)
  Definition blit (dst : list A) (a b : Z) (src : list A) : list A :=
    let n := Nat.min (Z.to_nat (b - a)) (length src) in
    firstn (Z.to_nat a) dst ++ firstn n src ++ skipn (Z.to_nat a + n) dst.

  Definition sel (st : list A * list A) (x : sl) : list A :=
    match x with SNodes => fst st | SAry => snd st end.
  Definition put (st : list A * list A) (x : sl) (l : list A) : list A * list A :=
    match x with SNodes => (l, snd st) | SAry => (fst st, l) end.

  (* state: (d.nodes, the made slice) *)
  Definition step (st : list A * list A) (e : eff) : list A * list A :=
    match e with
    | EAppend => (fst st ++ [v], snd st)
    | EMake n => (fst st, repeat nilv (Z.to_nat n))
    | ECopy d a b s c e' => put st d (blit (sel st d) a b (slice (sel st s) c e'))
    | EStore x i => put st x (upd (sel st x) i)
    | ECommit => (snd st, snd st)
    end.

  (* d.nodes after the effects *)
  Definition run (es : list eff) (ns : list A) : list A := fst (fold_left step es (ns, [])).
End Run.

Section RunFacts.
  Context {A : Type} (nilv v : A).

  Lemma firstn_len_app (p l : list A) : firstn (length p) (p ++ l) = p.
  Proof. induction p as [|x p IH]; simpl; [destruct l; reflexivity | now rewrite IH]. Qed.

  Lemma skipn_len_app (p l : list A) : skipn (length p) (p ++ l) = l.
  Proof. induction p as [|x p IH]; simpl; auto. Qed.

  (* dst = p ++ q ++ r with |p| = a and |q| = |src| = b - a: copy(dst[a:b], src) replaces q by src *)
  Lemma blit_app (p q r src : list A) a b :
    length p = Z.to_nat a -> length src = Z.to_nat (b - a) -> length q = length src ->
    blit (p ++ q ++ r) a b src = p ++ src ++ r.
  Proof.
    intros Hp Hs Hq. unfold blit. rewrite <- Hs, Nat.min_id, firstn_all, <- Hp, firstn_len_app.
    f_equal. f_equal. rewrite <- Hq, <- app_length, app_assoc. apply skipn_len_app.
  Qed.

  Lemma upd_app (p r : list A) x i : length p = Z.to_nat i -> upd v (p ++ x :: r) i = p ++ v :: r.
  Proof.
    intro Hp. unfold upd. rewrite <- Hp, firstn_len_app. f_equal. f_equal.
    change (x :: r) with ([x] ++ r). rewrite app_assoc.
    replace (S (length p)) with (length (p ++ [x])) by (rewrite app_length; simpl; lia).
    apply skipn_len_app.
  Qed.

  Lemma slice_prefix (l : list A) i : slice l 0 i = firstn (Z.to_nat i) l.
  Proof. unfold slice. now rewrite Z.sub_0_r. Qed.

  Lemma slice_suffix (l : list A) a : 0 <= a <= zlen l -> slice l a (zlen l) = skipn (Z.to_nat a) l.
  Proof.
    intro H. unfold slice, zlen in *. apply firstn_all2. rewrite skipn_length. lia.
  Qed.

  Lemma length_prefix (l : list A) i : 0 <= i <= zlen l -> length (firstn (Z.to_nat i) l) = Z.to_nat i.
  Proof. intro H. apply firstn_length_le. unfold zlen in H. lia. Qed.

  (* ary := make([]T, k); copy(ary[0:i], nodes[0:i]): add and remove begin with it *)
  Lemma copy_prefix (ns : list A) k i : 0 <= i <= zlen ns -> i <= k ->
    blit (repeat nilv (Z.to_nat k)) 0 i (slice ns 0 i) = firstn (Z.to_nat i) ns ++ repeat nilv (Z.to_nat (k - i)).
  Proof.
    intros H K. pose proof (length_prefix ns i H) as L. rewrite slice_prefix.
    replace (Z.to_nat k) with (Z.to_nat i + Z.to_nat (k - i))%nat by lia. rewrite repeat_app.
    apply (blit_app [] (repeat nilv (Z.to_nat i))); [reflexivity | rewrite L; f_equal; lia | rewrite repeat_length, L; reflexivity].
  Qed.

  (* copy(ary[a:b], nodes[j:]) where ary[a:b] is the rest of ary and as long as nodes[j:]: add and remove end with it *)
  Lemma copy_suffix (d ns : list A) a b j : length d = Z.to_nat a -> 0 <= j <= zlen ns -> b - a = zlen ns - j ->
    blit (d ++ repeat nilv (Z.to_nat (b - a))) a b (slice ns j (zlen ns)) = d ++ skipn (Z.to_nat j) ns.
  Proof.
    intros D J E. rewrite slice_suffix by exact J.
    assert (L : length (skipn (Z.to_nat j) ns) = Z.to_nat (b - a)) by (rewrite skipn_length; unfold zlen in *; lia).
    pose proof (blit_app d (repeat nilv (Z.to_nat (b - a))) [] _ a b D L) as B. rewrite !app_nil_r in B.
    apply B. rewrite repeat_length, L. reflexivity.
  Qed.
End RunFacts.

(* the effects of add at position i, and of remove at position i, on a slice of length len *)
Definition ins_effs (len i : Z) : list eff :=
  [EMake (len + 1); ECopy SAry 0 i SNodes 0 i; EStore SAry i;
   ECopy SAry (i + 1) (len + 1) SNodes i len; ECommit].

Definition rm_effs (len i : Z) : list eff :=
  [EMake (len - 1); ECopy SAry 0 i SNodes 0 i; ECopy SAry i (len - 1) SNodes (i + 1) len; ECommit].

Lemma run_ins {A} (nilv v : A) (ns : list A) i : 0 <= i <= zlen ns ->
  run nilv v (ins_effs (zlen ns) i) ns = firstn (Z.to_nat i) ns ++ v :: skipn (Z.to_nat i) ns.
Proof.
  intro H. unfold run, ins_effs. cbn [fold_left step put sel fst snd].
  pose proof (length_prefix ns i H) as L. rewrite copy_prefix by lia.
  (* ary[i] = val: the first of the blanks *)
  replace (zlen ns + 1 - i) with (Z.succ (zlen ns + 1 - (i + 1))) by lia. rewrite Z2Nat.inj_succ by lia. cbn [repeat].
  rewrite upd_app by exact L.
  (* copy(ary[i+1:], nodes[i:]) *)
  change (v :: repeat nilv ?m) with ([v] ++ repeat nilv m).
  rewrite app_assoc, copy_suffix, <- app_assoc; [reflexivity | rewrite app_length, L; cbn; lia | lia | lia].
Qed.

Lemma run_rm {A} (nilv v : A) (ns : list A) i : 0 <= i < zlen ns ->
  run nilv v (rm_effs (zlen ns) i) ns = firstn (Z.to_nat i) ns ++ skipn (S (Z.to_nat i)) ns.
Proof.
  intro H. unfold run, rm_effs. cbn [fold_left step put sel fst snd].
  rewrite copy_prefix, copy_suffix; [f_equal; f_equal; lia | apply length_prefix; lia | lia ..].
Qed.

(* ---- the integer skeletons of the model functions ---- *)
(* resolve_idx_get / con_get on an array; emp is key == "" *)
Definition spec_get (neg : bool) (len : Z) (a : option Z) (emp : bool) : outcome :=
  if emp then GSelf else
  match a with
  | None => GErr CAtoi
  | Some idx =>
      if idx <? 0 then
        if negb neg then GErr CInvalidIndex
        else if idx <? - len then GErr CInvalidIndex
        else let idx := idx + len in
             if len <=? idx then GErr CInvalidIndex else GRet idx
      else if len <=? idx then GErr CInvalidIndex else GRet idx
  end.

(* ary_set *)
Definition spec_set (neg : bool) (len : Z) (a : option Z) : outcome :=
  match a with
  | None => GErr CAtoi
  | Some idx =>
      if idx <? 0 then
        if negb neg then GErr CInvalidIndex
        else if idx <? - len then GErr CInvalidIndex
        else let idx := idx + len in
             if len <=? idx then GPanic else GDone [EStore SNodes idx]
      else if len <=? idx then GPanic else GDone [EStore SNodes idx]
  end.

(* ary_add; dash is key == "-" *)
Definition spec_add (neg : bool) (len : Z) (a : option Z) (dash : bool) : outcome :=
  if dash then GDone [EAppend] else
  match a with
  | None => GErr CAtoi
  | Some idx =>
      let sz := len + 1 in
      if sz <=? idx then GErr CInvalidIndex
      else if idx <? 0 then
        if negb neg then GErr CInvalidIndex
        else if idx <? - sz then GErr CInvalidIndex
        else let idx := idx + sz in
             if len <? idx then GPanic else GDone (ins_effs len idx)
      else GDone (ins_effs len idx)
  end.

(* ary_remove *)
Definition spec_remove (neg allow : bool) (len : Z) (a : option Z) : outcome :=
  match a with
  | None => GErr CAtoi
  | Some idx =>
      if len <=? idx then (if allow then GDone [] else GErr CInvalidIndex)
      else if idx <? 0 then
        if negb neg then GErr CInvalidIndex
        else if idx <? - len then (if allow then GDone [] else GErr CInvalidIndex)
        else let idx := idx + len in GDone (rm_effs len idx)
      else GDone (rm_effs len idx)
  end.

(* ---- concrete boundary values: printed when a tie is broken ---- *)
(* When a tie is broken the general theorems below (get_gen_spec ... remove_gen_spec) fail with a
   symbolic case; this table evaluates both sides on the boundary values of every test and lists
   the inputs (neg, allow, len, atoi result) on which the function generated from patch.go and
   the skeleton of the model differ, with both outcomes. *)
Definition outcome_eq_dec (x y : outcome) : {x = y} + {x <> y}.
Proof.
  repeat (decide equality; try apply Z.eq_dec).
Defined.

Definition grid_lens (top : Z) : list Z := [0; 1; 2; 3; top - 1; top].

Definition grid_idxs (len : Z) : list (option Z) :=
  None :: map Some
    (nodup Z.eq_dec (filter (fun z => (int64_min <=? z) && (z <=? int64_max))
       [int64_min; int64_min + 1; - len - 2; - len - 1; - len; - len + 1; -2; -1; 0; 1;
        len - 1; len; len + 1; len + 2; int64_max - 1; int64_max])).

Definition grid_bad (top : Z) (f g : bool -> bool -> Z -> option Z -> outcome)
  : list (bool * bool * Z * option Z * outcome * outcome) :=
  flat_map (fun neg => flat_map (fun allow => flat_map (fun len => flat_map (fun a =>
    if outcome_eq_dec (f neg allow len a) (g neg allow len a) then []
    else [(neg, allow, len, a, f neg allow len a, g neg allow len a)])
    (grid_idxs len)) (grid_lens top)) [false; true]) [false; true].

Definition nokey (_ : list byte) : bool := false.

Definition bad_get := grid_bad int64_max (fun n al l a => idx_get_gen n al l a nokey) (fun n _ l a => spec_get n l a false).
Definition bad_set := grid_bad int64_max (fun n al l a => idx_set_gen n al l a nokey) (fun n _ l a => spec_set n l a).
Definition bad_add := grid_bad (int64_max - 1) (fun n al l a => idx_add_gen n al l a nokey) (fun n _ l a => spec_add n l a false).
Definition bad_remove := grid_bad int64_max (fun n al l a => idx_remove_gen n al l a nokey) (fun n al l a => spec_remove n al l a).

(* (neg, allow, len, atoi, outcome of patch.go as translated, outcome of the model) *)
Eval vm_compute in (bad_get, bad_set, bad_add, bad_remove).

(* ---- step 1: the generated functions are the skeletons, for every int ---- *)
Ltac show_case f :=
  idtac "UNPROVED CASE --" f "as translated from patch.go differs from the model here:";
  try (match goal with H : ?T |- _ =>
         lazymatch type of T with Prop => idtac "   " H ":" T | _ => idtac "   " H ":" T end; fail end);
  match goal with |- ?G => idtac "   |-" G end.

Ltac range_tac := unfold in64, int64_min, int64_max in *; lia.

Ltac no_wrap t := lazymatch t with context [wrap64 _] => fail | _ => idtac end.

Ltac tie_step :=
  first
  [ match goal with |- context [if ?b then _ else _] => is_var b; destruct b end
  | match goal with |- context [negb ?b] => is_var b; destruct b end
  | progress cbn [negb andb orb]
  | (* a wrap-around that cannot happen here *)
    match goal with |- context [wrap64 ?z] => no_wrap z; rewrite (wrap64_id z) by range_tac end
  | match goal with |- context [Z.ltb ?a ?b] => no_wrap a; no_wrap b;
      destruct (Z.ltb_spec a b); try (exfalso; range_tac) end
  | match goal with |- context [Z.leb ?a ?b] => no_wrap a; no_wrap b;
      destruct (Z.leb_spec a b); try (exfalso; range_tac) end
  | match goal with |- context [Z.eqb ?a ?b] => no_wrap a; no_wrap b;
      destruct (Z.eqb_spec a b); try (exfalso; range_tac) end
  | (* a wrap-around that can happen (not met on the unchanged patch.go): split on it, so that a
       harmless one is proved and a harmful one is shown with its cause *)
    match goal with |- context [wrap64 ?z] => no_wrap z;
      destruct (Z_lt_le_dec int64_max z) as [?OVERFLOW|?];
      [ rewrite (wrap64_over z) by range_tac
      | destruct (Z_lt_le_dec z int64_min) as [?UNDERFLOW|?];
        [ rewrite (wrap64_under z) by range_tac | rewrite (wrap64_id z) by range_tac ] ] end ].

(* equal outcomes: same constructors, integer arguments equal by arithmetic *)
Lemma ap_eq {A B} (f g : A -> B) a b : f = g -> a = b -> f a = g b.
Proof. intros; subst; reflexivity. Qed.

Ltac eff_eq :=
  match goal with
  | |- @eq Z _ _ => range_tac
  | |- ?f ?a = ?g ?b => apply ap_eq; eff_eq
  | |- _ => reflexivity
  end.

(* f: the generated function, for the message; the caller unfolds it, its skeleton and the effect lists *)
Ltac tie_auto f := cbv zeta; repeat tie_step; first [ reflexivity | solve [eff_eq] | show_case f ].

Theorem get_gen_spec neg allow len a keyeq :
  0 <= len <= int64_max -> atoi_ok a ->
  idx_get_gen neg allow len a keyeq = spec_get neg len a (keyeq []).
Proof.
  intros Hl Ha. unfold idx_get_gen, spec_get.
  destruct (keyeq []); [reflexivity|].
  destruct a as [idx|]; [simpl in Ha|reflexivity].
  tie_auto idx_get_gen.
Qed.

Theorem set_gen_spec neg allow len a keyeq :
  0 <= len <= int64_max -> atoi_ok a ->
  idx_set_gen neg allow len a keyeq = spec_set neg len a.
Proof.
  intros Hl Ha. unfold idx_set_gen, spec_set.
  destruct a as [idx|]; [simpl in Ha|reflexivity].
  tie_auto idx_set_gen.
Qed.

(* len + 1 must be an int: see add_overflow_at_max_len below *)
Theorem add_gen_spec neg allow len a keyeq :
  0 <= len < int64_max -> atoi_ok a ->
  idx_add_gen neg allow len a keyeq = spec_add neg len a (keyeq [x2d]).
Proof.
  intros Hl Ha. unfold idx_add_gen, spec_add, ins_effs.
  destruct (keyeq [x2d]); [reflexivity|].
  destruct a as [idx|]; [simpl in Ha|reflexivity].
  tie_auto idx_add_gen.
Qed.

Theorem remove_gen_spec neg allow len a keyeq :
  0 <= len <= int64_max -> atoi_ok a ->
  idx_remove_gen neg allow len a keyeq = spec_remove neg allow len a.
Proof.
  intros Hl Ha. unfold idx_remove_gen, spec_remove, rm_effs.
  destruct a as [idx|]; [simpl in Ha|reflexivity].
  tie_auto idx_remove_gen.
Qed.

(* ---- step 2: the model functions are their skeletons read through the adapters ---- *)
Definition cls (c : errcls) : errclass :=
  match c with CInvalidIndex => EInvalidIndex | CMissing => EMissing | CAtoi => EAtoi | COther => EOther end.

(* the result of get: the index found (resolve_idx_get), the node (con_get) *)
Definition res_idx (g : outcome) : res nat :=
  match g with
  | GRet i => Ok (Z.to_nat i)
  | GErr c => Err (cls c)
  | GSelf | GDone _ | GPanic => Panic
  end.

Definition res_node (self : node) (ns : list node) (g : outcome) : res node :=
  match g with
  | GSelf => Ok self
  | GRet i => Ok (nth (Z.to_nat i) ns NNil)
  | GErr c => Err (cls c)
  | GDone _ | GPanic => Panic
  end.

(* the result of set / add / remove: d.nodes after the effects *)
Definition res_nodes (ns : list node) (v : node) (g : outcome) : res (list node) :=
  match g with
  | GDone es => Ok (run NNil v es ns)
  | GErr c => Err (cls c)
  | GSelf | GRet _ | GPanic => Panic
  end.

Lemma bseq_nil key : bseq key [] = match key with [] => true | _ => false end.
Proof. destruct key; reflexivity. Qed.

Theorem get_spec_model o len key :
  resolve_idx_get o len key = res_idx (spec_get (o_neg o) len (atoi key) false).
Proof.
  unfold resolve_idx_get, spec_get. destruct (atoi key) as [idx|]; [|reflexivity].
  destruct (idx <? 0).
  - destruct (o_neg o); [|reflexivity]. cbn [negb].
    destruct (idx <? - len); [reflexivity|]. cbv zeta. destruct (len <=? idx + len); reflexivity.
  - destruct (len <=? idx); reflexivity.
Qed.

Theorem con_get_spec_model o self ns key :
  con_get o (KAry self ns) key = res_node self ns (spec_get (o_neg o) (zlen ns) (atoi key) (bseq key [])).
Proof.
  rewrite bseq_nil. cbn [con_get]. destruct key as [|c r]; [reflexivity|].
  rewrite get_spec_model. unfold spec_get.
  destruct (atoi (c :: r)) as [idx|]; [|reflexivity].
  destruct (idx <? 0).
  - destruct (o_neg o); [|reflexivity]. cbn [negb].
    destruct (idx <? - zlen ns); [reflexivity|]. cbv zeta. destruct (zlen ns <=? idx + zlen ns); reflexivity.
  - destruct (zlen ns <=? idx); reflexivity.
Qed.

Theorem set_spec_model o ns key v :
  ary_set o ns key v = res_nodes ns v (spec_set (o_neg o) (zlen ns) (atoi key)).
Proof.
  unfold ary_set, spec_set. destruct (atoi key) as [idx|]; [|reflexivity]. cbv zeta.
  destruct (idx <? 0).
  - destruct (o_neg o); [|reflexivity]. cbn [negb].
    destruct (idx <? - zlen ns); [reflexivity|]. destruct (zlen ns <=? idx + zlen ns); reflexivity.
  - destruct (zlen ns <=? idx); reflexivity.
Qed.

Lemma zlen_nonneg {A} (l : list A) : 0 <= zlen l.
Proof. unfold zlen. lia. Qed.

Theorem add_spec_model o ns key v :
  ary_add o ns key v = res_nodes ns v (spec_add (o_neg o) (zlen ns) (atoi key) (bseq key [x2d])).
Proof.
  unfold ary_add, spec_add. destruct (bseq key [x2d]); [reflexivity|].
  destruct (atoi key) as [idx|]; [|reflexivity]. cbv zeta.
  pose proof (zlen_nonneg ns) as L0.
  destruct (Z.leb_spec (zlen ns + 1) idx); [reflexivity|].
  destruct (Z.ltb_spec idx 0).
  - destruct (o_neg o); [|reflexivity]. cbn [negb].
    destruct (Z.ltb_spec idx (- (zlen ns + 1))); [reflexivity|].
    destruct (Z.ltb_spec (zlen ns) (idx + (zlen ns + 1))); [reflexivity|].
    cbn [res_nodes]. rewrite run_ins by lia. reflexivity.
  - cbn [res_nodes]. rewrite run_ins by lia. reflexivity.
Qed.

Theorem remove_spec_model o ns key :
  ary_remove o ns key = res_nodes ns NNil (spec_remove (o_neg o) (o_allow o) (zlen ns) (atoi key)).
Proof.
  unfold ary_remove, spec_remove. destruct (atoi key) as [idx|]; [|reflexivity]. cbv zeta.
  destruct (Z.leb_spec (zlen ns) idx); [destruct (o_allow o); reflexivity|].
  destruct (Z.ltb_spec idx 0).
  - destruct (o_neg o); [|reflexivity]. cbn [negb].
    destruct (Z.ltb_spec idx (- zlen ns)); [destruct (o_allow o); reflexivity|].
    cbn [res_nodes]. rewrite run_rm by lia. reflexivity.
  - cbn [res_nodes]. rewrite run_rm by lia. reflexivity.
Qed.

(* ---- the ties, on tokens: each model function is the function generated from patch.go ---- *)
(* hypothesis: the slice is shorter than 2^63 (for add: its length plus one is an int) *)
Theorem resolve_idx_get_tie o len key :
  0 <= len <= int64_max ->
  resolve_idx_get o len key = res_idx (idx_get_gen (o_neg o) (o_allow o) len (atoi key) (fun _ => false)).
Proof.
  intro H. rewrite get_gen_spec by (auto using atoi_in64). apply get_spec_model.
Qed.

Theorem con_get_tie o self ns key :
  zlen ns <= int64_max ->
  con_get o (KAry self ns) key = res_node self ns (idx_get_gen (o_neg o) (o_allow o) (zlen ns) (atoi key) (bseq key)).
Proof.
  intro H. pose proof (zlen_nonneg ns) as L0.
  rewrite get_gen_spec by (auto using atoi_in64). apply con_get_spec_model.
Qed.

Theorem ary_set_tie o ns key v :
  zlen ns <= int64_max ->
  ary_set o ns key v = res_nodes ns v (idx_set_gen (o_neg o) (o_allow o) (zlen ns) (atoi key) (bseq key)).
Proof.
  intro H. pose proof (zlen_nonneg ns) as L0.
  rewrite set_gen_spec by (auto using atoi_in64). apply set_spec_model.
Qed.

Theorem ary_add_tie o ns key v :
  zlen ns < int64_max ->
  ary_add o ns key v = res_nodes ns v (idx_add_gen (o_neg o) (o_allow o) (zlen ns) (atoi key) (bseq key)).
Proof.
  intro H. pose proof (zlen_nonneg ns) as L0.
  rewrite add_gen_spec by (auto using atoi_in64). apply add_spec_model.
Qed.

Theorem ary_remove_tie o ns key :
  zlen ns <= int64_max ->
  ary_remove o ns key = res_nodes ns NNil (idx_remove_gen (o_neg o) (o_allow o) (zlen ns) (atoi key) (bseq key)).
Proof.
  intro H. pose proof (zlen_nonneg ns) as L0.
  rewrite remove_gen_spec by (auto using atoi_in64). apply remove_spec_model.
Qed.

(* ---- the table of boundary values is empty: its points lie in the domain of step 1 ---- *)
Lemma flat_map_nil {A B} (f : A -> list B) l : (forall x, In x l -> f x = []) -> flat_map f l = [].
Proof.
  intro H. induction l as [|x l IH]; [reflexivity|]. cbn [flat_map].
  rewrite (H x (or_introl eq_refl)), IH; [reflexivity|]. intros y Hy. apply H. now right.
Qed.

Lemma grid_lens_ok top len : 3 <= top -> In len (grid_lens top) -> 0 <= len <= top.
Proof. intros T H. cbn [grid_lens In] in H. lia. Qed.

(* grid_idxs, for any list of candidates (with the concrete list the kernel would evaluate the filter) *)
Lemma grid_idxs_ok l a :
  In a (None :: map Some (nodup Z.eq_dec (filter (fun z => (int64_min <=? z) && (z <=? int64_max)) l))) -> atoi_ok a.
Proof.
  intros [<-|H]; [exact I|]. apply in_map_iff in H as [z [<- H]]. apply nodup_In, filter_In in H as [_ H].
  apply andb_prop in H as [H1 H2]. split; [apply Z.leb_le, H1 | apply Z.leb_le, H2].
Qed.

Lemma grid_bad_nil top f g :
  (forall neg allow len a, In len (grid_lens top) -> In a (grid_idxs len) -> f neg allow len a = g neg allow len a) ->
  grid_bad top f g = [].
Proof.
  intro H. unfold grid_bad. apply flat_map_nil; intros neg _. apply flat_map_nil; intros allow _.
  apply flat_map_nil; intros len Hl. apply flat_map_nil; intros a Ha.
  destruct (outcome_eq_dec _ _) as [_|N]; [reflexivity | destruct (N (H neg allow len a Hl Ha))].
Qed.

Example boundary_values_agree : (bad_get, bad_set, bad_add, bad_remove) = ([], [], [], []).
Proof.
  repeat apply f_equal2; apply grid_bad_nil; intros neg allow len a Hl Ha;
    apply grid_lens_ok in Hl; try range_tac; apply grid_idxs_ok in Ha.
  - apply get_gen_spec; assumption.
  - apply set_gen_spec; assumption.
  - apply add_gen_spec; [range_tac | assumption].
  - apply remove_gen_spec; assumption.
Qed.

(* ---- where the range hypothesis of add is needed ---- *)
(* With len(d.nodes) = 2^63-1 the Go code computes sz = len+1 = -2^63 and make panics; the model
   computes with unbounded integers.  A slice of that length cannot exist (2^66 bytes of
   pointers), so this is the edge of the hypothesis zlen ns < int64_max, not a reachable case. *)
Example add_overflow_at_max_len :
  idx_add_gen false false int64_max (Some 0) nokey = GPanic /\
  spec_add false int64_max (Some 0) false = GDone (ins_effs int64_max 0).
Proof. split; vm_compute; reflexivity. Qed.

(* the panic of set is real (index out of range); Patch.replace calls get first *)
Example set_out_of_range_panics : idx_set_gen false false 2 (Some 2) nokey = GPanic.
Proof. vm_compute. reflexivity. Qed.

(* the most negative int, whose negation overflows: patch.go never negates idx (it compares
   idx < -len), so nothing wraps *)
Example most_negative_index :
  idx_get_gen true false 3 (Some int64_min) nokey = GErr CInvalidIndex /\
  idx_remove_gen true true 3 (Some int64_min) nokey = GDone [] /\
  idx_add_gen true false 3 (Some (-4)) nokey = GDone (ins_effs 3 0).
Proof. repeat split; vm_compute; reflexivity. Qed.

Print Assumptions get_gen_spec.
Print Assumptions set_gen_spec.
Print Assumptions add_gen_spec.
Print Assumptions remove_gen_spec.
Print Assumptions resolve_idx_get_tie.
Print Assumptions con_get_tie.
Print Assumptions ary_set_tie.
Print Assumptions ary_add_tie.
Print Assumptions ary_remove_tie.
