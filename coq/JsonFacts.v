(* JsonFacts.v — facts about byte strings, association lists and the two equalities on decoded
   values (oeqb: ordered, jeq: objects as finite maps).  Proof infrastructure, no model code. *)
From Coq Require Import Lia.
From JP Require Import Bytes Json.

Lemma bseq_refl a : bseq a a = true.
Proof. induction a as [|x a IH]; simpl; auto. now rewrite IH, (Byte.byte_dec_lb (eq_refl x)). Qed.

Lemma bseq_eq a b : bseq a b = true -> a = b.
Proof.
  revert b; induction a as [|x a IH]; intros [|y b]; simpl; try discriminate; auto.
  intro H. apply andb_prop in H as [H1 H2]. apply Byte.byte_dec_bl in H1. subst. f_equal; auto.
Qed.

Lemma bseq_iff a b : bseq a b = true <-> a = b.
Proof. split; [apply bseq_eq | intros ->; apply bseq_refl]. Qed.

Lemma bseq_sym a b : bseq a b = bseq b a.
Proof.
  destruct (bseq a b) eqn:E.
  - apply bseq_eq in E; subst; symmetry; apply bseq_refl.
  - destruct (bseq b a) eqn:E'; auto. apply bseq_eq in E'; subst. rewrite bseq_refl in E; discriminate.
Qed.

Lemma bseq_neq a b : bseq a b = false <-> a <> b.
Proof.
  split.
  - intros H E. subst. rewrite bseq_refl in H. discriminate.
  - intro H. destruct (bseq a b) eqn:E; auto. apply bseq_eq in E. contradiction.
Qed.

Lemma kmem_In k ks : kmem k ks = true <-> In k ks.
Proof.
  induction ks as [|k' ks IH]; simpl.
  - split; [discriminate | tauto].
  - rewrite orb_true_iff, IH, bseq_iff. split; intros [H|H]; auto.
Qed.

Lemma kmem_false_In k ks : kmem k ks = false <-> ~ In k ks.
Proof.
  split; intro H.
  - intro Hin. apply kmem_In in Hin. congruence.
  - destruct (kmem k ks) eqn:E; auto. exfalso. apply H. now apply kmem_In.
Qed.

Lemma knodup_NoDup ks : knodup ks = true <-> NoDup ks.
Proof.
  induction ks as [|k ks IH]; simpl.
  - split; [constructor | reflexivity].
  - rewrite andb_true_iff, negb_true_iff, kmem_false_In, IH. split.
    + intros [H1 H2]. now constructor.
    + intro H. inversion H; subst. tauto.
Qed.

Lemma NoDup_app_intro {A} (l m : list A) :
  NoDup l -> NoDup m -> (forall x, In x l -> In x m -> False) -> NoDup (l ++ m).
Proof.
  induction l as [|x l IH]; simpl; intros Hl Hm D; auto. inversion Hl; subst. constructor.
  - rewrite in_app_iff. intros [H|H]; auto. apply (D x); auto.
  - apply IH; auto. intros y Hy1 Hy2. apply (D y); auto.
Qed.

(* an invariant of a tree type, written as a nested fixpoint over the list of children *)
Lemma all_fix_Forall {A} (P : A -> Prop) l :
  (fix all (l : list A) : Prop := match l with [] => True | x :: r => P x /\ all r end) l <-> Forall P l.
Proof. induction l; [split; constructor | rewrite Forall_cons_iff, IHl; reflexivity]. Qed.

Section AssocFacts.
  Context {A : Type}.
  Implicit Types (m : list (bytes * A)) (k : bytes).

  Lemma aget_In k (x : A) m : aget k m = Some x -> In (k, x) m.
  Proof.
    induction m as [|[k' v'] m IH]; simpl; try discriminate.
    destruct (bseq k k') eqn:E; auto. intro H. inversion H; subst. apply bseq_eq in E. subst. auto.
  Qed.

  Lemma aget_In_fst k m v : aget k m = Some v -> In k (map fst m).
  Proof. intro H. exact (in_map fst m (k, v) (aget_In k v m H)). Qed.

  Lemma Forall_aget (P : bytes * A -> Prop) k m v : Forall P m -> aget k m = Some v -> P (k, v).
  Proof. intros F E. apply aget_In in E. rewrite Forall_forall in F. apply (F _ E). Qed.

  Lemma In_aget_nodup k (x : A) m : NoDup (map fst m) -> In (k, x) m -> aget k m = Some x.
  Proof.
    induction m as [|[k' v'] m IH]; simpl; [tauto|]. intros H Hin. inversion H; subst.
    destruct Hin as [E|Hin].
    - inversion E; subst. now rewrite bseq_refl.
    - destruct (bseq k k') eqn:Ek.
      + apply bseq_eq in Ek; subst. exfalso. apply H2. apply in_map_iff. exists (k', x); auto.
      + auto.
  Qed.

  Lemma aget_None_notin k m : aget k m = None <-> ~ In k (map fst m).
  Proof.
    induction m as [|[k' v'] m IH]; simpl.
    - tauto.
    - destruct (bseq k k') eqn:E.
      + apply bseq_eq in E. subst. split; [discriminate | intro H; exfalso; auto].
      + apply bseq_neq in E. rewrite IH. split; intro H; [intros [H1|H1]; auto | auto].
  Qed.

  Lemma aget_Some_in k m : In k (map fst m) -> exists v, aget k m = Some v.
  Proof.
    intro H. destruct (aget k m) eqn:E; eauto. apply aget_None_notin in E. contradiction.
  Qed.

  Lemma In_keys_aget k m : In k (map fst m) <-> aget k m <> None.
  Proof.
    split.
    - intros H E. apply aget_None_notin in E. contradiction.
    - intro H. destruct (aget k m) eqn:E; [eapply aget_In_fst; eauto | congruence].
  Qed.

  Lemma amem_In k m : amem k m = true <-> In k (map fst m).
  Proof.
    unfold amem. destruct (aget k m) eqn:E.
    - split; auto. intros _. eapply aget_In_fst; eauto.
    - apply aget_None_notin in E. split; [discriminate | contradiction].
  Qed.

  Lemma aget_app k (l m : list (bytes * A)) :
    aget k (l ++ m) = match aget k l with Some v => Some v | None => aget k m end.
  Proof. induction l as [|[k' v] l IH]; simpl; auto. destruct (bseq k k'); auto. Qed.

  Lemma aget_aset k k' (v : A) m : aget k (aset k' v m) = if bseq k k' then Some v else aget k m.
  Proof.
    induction m as [|[k2 v2] m IH]; simpl; [reflexivity|].
    destruct (bseq k' k2) eqn:E; simpl.
    - apply bseq_eq in E. subst k2. destruct (bseq k k'); reflexivity.
    - rewrite IH. destruct (bseq k k2) eqn:E2; [|reflexivity].
      apply bseq_eq in E2. subst k2. now rewrite bseq_sym, E.
  Qed.

  Lemma aget_aset_same k (v : A) m : aget k (aset k v m) = Some v.
  Proof. now rewrite aget_aset, bseq_refl. Qed.

  Lemma aget_aset_other k k' (v : A) m : bseq k k' = false -> aget k (aset k' v m) = aget k m.
  Proof. intro H. now rewrite aget_aset, H. Qed.

  Lemma keys_aset k v m :
    map fst (aset k v m) = if amem k m then map fst m else map fst m ++ [k].
  Proof.
    induction m as [|[k' v'] m IH]; simpl; auto.
    unfold amem in *. simpl. destruct (bseq k k') eqn:E; simpl; auto.
    rewrite IH. destruct (aget k m); auto.
  Qed.

  Lemma NoDup_keys_aset k v m : NoDup (map fst m) -> NoDup (map fst (aset k v m)).
  Proof.
    intro H. rewrite keys_aset. destruct (amem k m) eqn:E; [exact H|].
    apply NoDup_app_intro; [exact H | constructor; [intros [] | constructor] |].
    intros x Hx [<-|[]]. apply amem_In in Hx. congruence.
  Qed.

  Lemma aset_same k (v : A) m : aget k m = Some v -> aset k v m = m.
  Proof.
    induction m as [|[k' v'] m IH]; simpl; try discriminate.
    destruct (bseq k k') eqn:E.
    - intro H. inversion H; subst. apply bseq_eq in E. subst. reflexivity.
    - intro H. f_equal. auto.
  Qed.

  Lemma aset_notin k (v : A) m : ~ In k (map fst m) -> aset k v m = m ++ [(k, v)].
  Proof.
    induction m as [|[k' v'] m IH]; simpl; intro H; auto.
    assert (bseq k k' = false) by (apply bseq_neq; intro; subst; auto). rewrite H0. f_equal. apply IH. auto.
  Qed.

  Lemma Forall_aset_key (P : bytes * A -> Prop) k v m : Forall P m -> P (k, v) -> Forall P (aset k v m).
  Proof.
    intros H Hv. induction m as [|[k' v'] m IH]; simpl.
    - constructor; auto.
    - inversion H; subst. destruct (bseq k k') eqn:E; constructor; auto.
      apply bseq_eq in E. subst. exact Hv.
  Qed.

  Lemma Forall_aset (P : bytes * A -> Prop) k v m :
    Forall P m -> (forall k', P (k', v)) -> Forall P (aset k v m).
  Proof. intros H Hv. apply Forall_aset_key; auto. Qed.

  Lemma aget_filter_key (p : bytes -> bool) k m :
    aget k (filter (fun kv => p (fst kv)) m) = if p k then aget k m else None.
  Proof.
    induction m as [|[k' v] m IH]; simpl; [destruct (p k); reflexivity|].
    destruct (bseq k k') eqn:E.
    - apply bseq_eq in E. subst k'. destruct (p k); simpl; [now rewrite bseq_refl | exact IH].
    - destruct (p k'); simpl; rewrite ?E; exact IH.
  Qed.

  Lemma NoDup_keys_filter (f : bytes * A -> bool) m : NoDup (map fst m) -> NoDup (map fst (filter f m)).
  Proof.
    induction m as [|kv m IH]; simpl; intro N; [constructor|]. inversion N; subst.
    destruct (f kv); simpl; auto. constructor; auto.
    intro H. apply in_map_iff in H as [kv' [E H]]. apply filter_In in H as [H _]. rewrite <- E in *. auto using in_map.
  Qed.

  (* adel keeps the members under the other names: what holds of a filter holds of it *)
  Lemma adel_filter k m : adel k m = filter (fun kv => negb (bseq k (fst kv))) m.
  Proof. induction m as [|[k' v] m IH]; simpl; [reflexivity|]. destruct (bseq k k'); simpl; now rewrite IH. Qed.

  Lemma aget_adel k k' m : aget k (adel k' m) = if bseq k k' then None else aget k m.
  Proof.
    rewrite adel_filter, (aget_filter_key (fun x => negb (bseq k' x))), (bseq_sym k' k).
    destruct (bseq k k'); reflexivity.
  Qed.

  Lemma aget_adel_same k m : aget k (adel k m) = None.
  Proof. now rewrite aget_adel, bseq_refl. Qed.

  Lemma aget_adel_other k k' m : bseq k k' = false -> aget k (adel k' m) = aget k m.
  Proof. intro H. now rewrite aget_adel, H. Qed.

  Lemma In_keys_adel k m x : In x (map fst (adel k m)) <-> In x (map fst m) /\ x <> k.
  Proof.
    rewrite !In_keys_aget, aget_adel. destruct (bseq x k) eqn:E.
    - apply bseq_eq in E. split; [intros []; reflexivity | tauto].
    - apply bseq_neq in E. tauto.
  Qed.

  Lemma keys_adel_notin k m : ~ In k (map fst (adel k m)).
  Proof. intro H. apply In_keys_adel in H as [_ H]. now apply H. Qed.

  Lemma keys_adel_incl k m x : In x (map fst (adel k m)) -> In x (map fst m).
  Proof. intro H. apply In_keys_adel in H. apply H. Qed.

  Lemma NoDup_keys_adel k m : NoDup (map fst m) -> NoDup (map fst (adel k m)).
  Proof. rewrite adel_filter. apply NoDup_keys_filter. Qed.

  Lemma Forall_adel (P : bytes * A -> Prop) k m : Forall P m -> Forall P (adel k m).
  Proof. rewrite adel_filter. apply incl_Forall, incl_filter. Qed.

  Lemma adel_notin k m : ~ In k (map fst m) -> adel k m = m.
  Proof.
    induction m as [|[k' v'] m IH]; simpl; auto. intro H.
    destruct (bseq k k') eqn:E.
    - apply bseq_eq in E. subst. exfalso. auto.
    - f_equal. apply IH. auto.
  Qed.

  Lemma length_keys_adel_in k m :
    NoDup (map fst m) -> In k (map fst m) -> S (length (adel k m)) = length m.
  Proof.
    induction m as [|[k' v'] m IH]; simpl; [tauto|]. intros H Hin. inversion H; subst.
    destruct (bseq k k') eqn:E.
    - apply bseq_eq in E. subst. rewrite adel_notin; auto.
    - apply bseq_neq in E. simpl. f_equal. apply IH; auto. destruct Hin; congruence.
  Qed.
End AssocFacts.

Section MapSnd.
  Context {A B : Type} (f : A -> B).
  Definition msnd (m : list (bytes * A)) : list (bytes * B) := map (fun kv => (fst kv, f (snd kv))) m.

  Lemma msnd_keys m : map fst (msnd m) = map fst m.
  Proof. unfold msnd. rewrite map_map. reflexivity. Qed.

  Lemma aget_msnd k m : aget k (msnd m) = option_map f (aget k m).
  Proof. induction m as [|[k' v] m IH]; simpl; auto. destruct (bseq k k'); auto. Qed.

  Lemma amem_msnd k m : amem k (msnd m) = amem k m.
  Proof. unfold amem. rewrite aget_msnd. destruct (aget k m); reflexivity. Qed.

  Lemma aset_msnd k v m : aset k (f v) (msnd m) = msnd (aset k v m).
  Proof. induction m as [|[k' v'] m IH]; simpl; auto. destruct (bseq k k'); simpl; auto. f_equal. exact IH. Qed.

  Lemma adel_msnd k m : adel k (msnd m) = msnd (adel k m).
  Proof. induction m as [|[k' v'] m IH]; simpl; auto. destruct (bseq k k'); simpl; auto. f_equal. exact IH. Qed.

  (* the same lookup as a tree type's denotation writes it: a nested fixpoint over the members *)
  Lemma look_fix_aget k m :
    (fix look (m : list (bytes * A)) : option B :=
       match m with [] => None | (k', v) :: r => if bseq k k' then Some (f v) else look r end) m
    = option_map f (aget k m).
  Proof. induction m as [|[k' v] m IH]; simpl; auto. destruct (bseq k k'); auto. Qed.
End MapSnd.

Lemma aget_map_snd {A B} (f : A -> B) k (m : list (bytes * A)) :
  aget k (map (fun kv => (fst kv, f (snd kv))) m) = option_map f (aget k m).
Proof. exact (aget_msnd f k m). Qed.

(* ---- maps updated key by key: m[k] = x or delete(m, k), driven by the members of another map ---- *)
Section KeyWise.
  Context {A B : Type}.
  Implicit Types (m : list (bytes * A)) (k : bytes).

  Definition kset k (o : option A) m := match o with Some x => aset k x m | None => adel k m end.

  Lemma aget_kset k' k o m : aget k' (kset k o m) = if bseq k' k then o else aget k' m.
  Proof. destruct o; [apply aget_aset | apply aget_adel]. Qed.

  Lemma NoDup_keys_kset k o m : NoDup (map fst m) -> NoDup (map fst (kset k o m)).
  Proof. destruct o; [apply NoDup_keys_aset | apply NoDup_keys_adel]. Qed.

  Lemma Forall_kset (P : bytes * A -> Prop) k o m :
    Forall P m -> (forall x, o = Some x -> P (k, x)) -> Forall P (kset k o m).
  Proof. intros F H. destruct o; [apply Forall_aset_key; auto | apply Forall_adel; exact F]. Qed.

  (* every member (k, v) of ps in turn replaces what m holds under k by f v (what m holds under k) *)
  Variable f : B -> option A -> option A.

  Fixpoint kfold (ps : list (bytes * B)) m : list (bytes * A) :=
    match ps with
    | [] => m
    | (k, v) :: r => kfold r (kset k (f v (aget k m)) m)
    end.

  Lemma kfold_lookup k ps : forall m, NoDup (map fst ps) ->
    aget k (kfold ps m) = match aget k ps with Some v => f v (aget k m) | None => aget k m end.
  Proof.
    induction ps as [|[k' v] ps IH]; intros m N; [reflexivity|]. inversion N as [|? ? Hk N']; subst.
    cbn [kfold aget]. rewrite (IH _ N'), aget_kset. destruct (bseq k k') eqn:E; [|reflexivity].
    apply bseq_eq in E. subst k'. apply aget_None_notin in Hk. rewrite Hk. reflexivity.
  Qed.

  Lemma kfold_nodup ps : forall m, NoDup (map fst m) -> NoDup (map fst (kfold ps m)).
  Proof. induction ps as [|[k v] ps IH]; intros m N; [exact N|]. apply IH, NoDup_keys_kset, N. Qed.

  Lemma kfold_Forall (P : bytes * A -> Prop) ps : forall m,
    Forall P m ->
    (forall k v o x, In (k, v) ps -> (forall y, o = Some y -> P (k, y)) -> f v o = Some x -> P (k, x)) ->
    Forall P (kfold ps m).
  Proof.
    induction ps as [|[k v] ps IH]; intros m F H; [exact F|]. cbn [kfold].
    apply IH; [|intros; eapply H; eauto; now right].
    apply Forall_kset; [exact F|]. intros x E. apply (H k v (aget k m) x); [now left | | exact E].
    intros y Ey. apply (Forall_aget _ _ _ _ F Ey).
  Qed.
End KeyWise.

Section OjsonInd.
  Variable P : ojson -> Prop.
  Hypothesis Hnull : P ONull.
  Hypothesis Hbool : forall b, P (OBool b).
  Hypothesis Hnum : forall l, P (ONum l).
  Hypothesis Hstr : forall s, P (OStr s).
  Hypothesis Harr : forall l, Forall P l -> P (OArr l).
  Hypothesis Hobj : forall ms, Forall (fun kv => P (snd kv)) ms -> P (OObj ms).

  Fixpoint ojson_rect' (j : ojson) : P j :=
    match j with
    | ONull => Hnull
    | OBool b => Hbool b
    | ONum l => Hnum l
    | OStr s => Hstr s
    | OArr l =>
        Harr l ((fix go (l : list ojson) : Forall P l :=
                   match l with
                   | [] => Forall_nil _
                   | x :: r => Forall_cons _ (ojson_rect' x) (go r)
                   end) l)
    | OObj ms =>
        Hobj ms ((fix go (ms : list (bytes * ojson)) : Forall (fun kv => P (snd kv)) ms :=
                    match ms with
                    | [] => Forall_nil _
                    | kv :: r => Forall_cons _ (ojson_rect' (snd kv)) (go r)
                    end) ms)
    end.
End OjsonInd.

Section TjsonInd.
  Variable P : tjson -> Prop.
  Hypothesis Hnull : P TNull.
  Hypothesis Htrue : P TTrue.
  Hypothesis Hfalse : P TFalse.
  Hypothesis Hnum : forall l, P (TNum l).
  Hypothesis Hstr : forall s, P (TStr s).
  Hypothesis Harr : forall l, Forall P l -> P (TArr l).
  Hypothesis Hobj : forall ms, Forall (fun kv => P (snd kv)) ms -> P (TObj ms).
  Fixpoint tjson_rect' (t : tjson) : P t :=
    match t with
    | TNull => Hnull | TTrue => Htrue | TFalse => Hfalse
    | TNum l => Hnum l | TStr s => Hstr s
    | TArr l =>
        Harr l ((fix go (l : list tjson) : Forall P l :=
                   match l with [] => Forall_nil _ | x :: r => Forall_cons _ (tjson_rect' x) (go r) end) l)
    | TObj ms =>
        Hobj ms ((fix go (m : list (bytes * tjson)) : Forall (fun kv => P (snd kv)) m :=
                    match m with [] => Forall_nil _ | kv :: r => Forall_cons _ (tjson_rect' (snd kv)) (go r) end) ms)
    end.
End TjsonInd.

(* the two local fixpoints of jeq, as functions of their own *)
Fixpoint jeq_list (l m : list ojson) : bool :=
  match l, m with
  | [], [] => true
  | x :: l', y :: m' => jeq x y && jeq_list l' m'
  | _, _ => false
  end.

Fixpoint jeq_members (l m : list (bytes * ojson)) : bool :=
  match l with
  | [] => true
  | (k, x) :: l' => match aget k m with Some y => jeq x y && jeq_members l' m | None => false end
  end.

Lemma jeq_arr l m : jeq (OArr l) (OArr m) = jeq_list l m.
Proof. simpl. revert m. induction l as [|x l IH]; intros [|y m]; simpl; auto; try (now rewrite IH). Qed.

Lemma jeq_list_spec l m : jeq_list l m = true <-> Forall2 (fun x y => jeq x y = true) l m.
Proof.
  revert m. induction l as [|x l IH]; intros [|y m]; simpl; split; intro H; try discriminate; try constructor;
    try (inversion H; fail).
  - apply andb_prop in H. tauto.
  - apply IH. apply andb_prop in H. tauto.
  - inversion H; subst. apply andb_true_intro. split; auto. apply IH; auto.
Qed.

Lemma jeq_obj l m : jeq (OObj l) (OObj m) = (length l =? length m)%nat && jeq_members l m.
Proof.
  simpl. f_equal. induction l as [|[k x] l IH]; simpl; auto.
  destruct (aget k m); auto. now rewrite IH.
Qed.

Lemma jeq_members_spec l m :
  jeq_members l m = true <->
  (forall k x, In (k, x) l -> exists y, aget k m = Some y /\ jeq x y = true).
Proof.
  induction l as [|[k x] l IH]; simpl.
  - split; auto. intros _ k x [].
  - split.
    + intros H k' x' [E|Hin].
      * inversion E; subst. destruct (aget k' m); try discriminate. apply andb_prop in H as [H1 _]. eauto.
      * destruct (aget k m); try discriminate. apply andb_prop in H as [_ H2]. apply IH; auto.
    + intro H. destruct (H k x (or_introl eq_refl)) as [y [E1 E2]]. rewrite E1, E2. simpl.
      apply IH. intros; apply H; auto.
Qed.

Lemma onodup_arr l : onodup (OArr l) = true <-> Forall (fun x => onodup x = true) l.
Proof. simpl. rewrite forallb_forall, Forall_forall. tauto. Qed.

Lemma onodup_obj ms :
  onodup (OObj ms) = true <-> NoDup (map fst ms) /\ Forall (fun kv => onodup (snd kv) = true) ms.
Proof. simpl. rewrite andb_true_iff, knodup_NoDup, forallb_forall, Forall_forall. tauto. Qed.

Definition orel {A B} (R : A -> B -> Prop) (a : option A) (b : option B) : Prop :=
  match a, b with
  | Some x, Some y => R x y
  | None, None => True
  | _, _ => False
  end.

Lemma members_rel_char {A B} (R : A -> B -> Prop) (l : list (bytes * A)) (m : list (bytes * B)) :
  NoDup (map fst l) -> NoDup (map fst m) ->
  (length l = length m /\ (forall k x, In (k, x) l -> exists y, aget k m = Some y /\ R x y)) <->
  (forall k, orel R (aget k l) (aget k m)).
Proof.
  intros Nl Nm. split.
  - intros [Hlen H] k.
    assert (Incl : incl (map fst l) (map fst m)).
    { intros k' Hk. apply in_map_iff in Hk as [[k2 x] [E Hin]]. simpl in E; subst.
      destruct (H _ _ Hin) as [y [E _]]. eapply aget_In_fst; eauto. }
    assert (Incl' : incl (map fst m) (map fst l)).
    { apply NoDup_length_incl; auto. rewrite !map_length. lia. }
    unfold orel. destruct (aget k l) as [x|] eqn:El.
    + apply aget_In in El. destruct (H _ _ El) as [y [E1 E2]]. now rewrite E1.
    + destruct (aget k m) as [y|] eqn:Em; auto.
      apply aget_In_fst in Em. apply Incl' in Em. apply aget_None_notin in El. contradiction.
  - intro H.
    assert (K : forall k, In k (map fst l) <-> In k (map fst m)).
    { intro k. rewrite !In_keys_aget. specialize (H k). unfold orel in H.
      destruct (aget k l), (aget k m); split; congruence || contradiction. }
    split.
    + apply Nat.le_antisymm; rewrite <- (map_length fst l), <- (map_length fst m);
        apply NoDup_incl_length; auto; intro k; apply K.
    + intros k x Hin. apply In_aget_nodup in Hin; auto. specialize (H k). rewrite Hin in H.
      unfold orel in H. destruct (aget k m) as [y|]; try contradiction. eauto.
Qed.

Definition lookup_rel (R : ojson -> ojson -> Prop) (a b : option ojson) : Prop :=
  match a, b with
  | Some x, Some y => R x y
  | None, None => True
  | _, _ => False
  end.

Lemma jeq_obj_char l m :
  NoDup (map fst l) -> NoDup (map fst m) ->
  (jeq (OObj l) (OObj m) = true <->
   forall k, lookup_rel (fun x y => jeq x y = true) (aget k l) (aget k m)).
Proof.
  intros Nl Nm. rewrite jeq_obj, andb_true_iff, Nat.eqb_eq, jeq_members_spec.
  apply (members_rel_char (fun x y => jeq x y = true)); assumption.
Qed.

Lemma jeq_null_iff a b : jeq a b = true -> (a = ONull <-> b = ONull).
Proof. destruct a, b; intro H; try discriminate H; split; intro E; try reflexivity; discriminate E. Qed.

(* ---- jeq is an equivalence on values without duplicate names ---- *)
Lemma jeq_refl j : onodup j = true -> jeq j j = true.
Proof.
  induction j using ojson_rect'; intro N; try reflexivity.
  - simpl. destruct b; reflexivity.
  - simpl. apply bseq_refl.
  - simpl. apply bseq_refl.
  - rewrite jeq_arr. apply jeq_list_spec. apply onodup_arr in N.
    induction l as [|x l IH]; constructor.
    + inversion H; inversion N; subst; auto.
    + inversion H; inversion N; subst; auto.
  - apply onodup_obj in N as [N1 N2]. apply jeq_obj_char; auto. intro k.
    unfold lookup_rel. destruct (aget k ms) as [x|] eqn:E; auto.
    apply aget_In in E. rewrite Forall_forall in H, N2. apply (H _ E). apply (N2 _ E).
Qed.

Lemma jeq_sym a : forall b, onodup a = true -> onodup b = true -> jeq a b = true -> jeq b a = true.
Proof.
  induction a using ojson_rect'; intros b' Na Nb E; destruct b'; try discriminate; auto.
  - simpl in *. destruct b, b0; auto.
  - simpl in *. now rewrite bseq_sym.
  - simpl in *. now rewrite bseq_sym.
  - rewrite jeq_arr in *. apply jeq_list_spec in E. apply jeq_list_spec.
    apply onodup_arr in Na. apply onodup_arr in Nb.
    revert l0 E Nb. induction l as [|x l IH]; intros l0 E Nb; inversion E; subst; constructor.
    + inversion H; inversion Na; inversion Nb; subst. auto.
    + inversion H; inversion Na; inversion Nb; subst. apply IH; auto.
  - apply onodup_obj in Na as [Na1 Na2]. apply onodup_obj in Nb as [Nb1 Nb2].
    apply jeq_obj_char; auto. rewrite jeq_obj_char in E; auto. intro k. specialize (E k).
    unfold lookup_rel in *. destruct (aget k ms) as [x|] eqn:E1, (aget k ms0) as [y|] eqn:E2; auto.
    apply aget_In in E1. apply aget_In in E2. rewrite Forall_forall in H, Na2, Nb2.
    apply (H _ E1 y); [apply (Na2 _ E1) | apply (Nb2 _ E2) | exact E].
Qed.

Lemma jeq_sym_eq a b : onodup a = true -> onodup b = true -> jeq a b = jeq b a.
Proof. intros Na Nb. apply Bool.eq_true_iff_eq. split; apply jeq_sym; assumption. Qed.

Lemma jeq_trans a : forall b c, onodup a = true -> onodup b = true -> onodup c = true ->
  jeq a b = true -> jeq b c = true -> jeq a c = true.
Proof.
  induction a using ojson_rect'; intros b' c Na Nb Nc E1 E2; destruct b'; try discriminate; destruct c; try discriminate; auto.
  - simpl in *. destruct b, b0, b1; auto.
  - simpl in *. apply bseq_eq in E1, E2. subst. apply bseq_refl.
  - simpl in *. apply bseq_eq in E1, E2. subst. apply bseq_refl.
  - rewrite jeq_arr in *. apply jeq_list_spec in E1, E2. apply jeq_list_spec.
    apply onodup_arr in Na, Nb, Nc.
    revert l0 l1 E1 E2 Nb Nc. induction l as [|x l IH]; intros l0 l1 E1 E2 Nb Nc; inversion E1; subst; inversion E2; subst; constructor.
    + inversion H; inversion Na; inversion Nb; inversion Nc; subst. eauto.
    + inversion H; inversion Na; inversion Nb; inversion Nc; subst. eapply IH; eauto.
  - apply onodup_obj in Na as [Na1 Na2]. apply onodup_obj in Nb as [Nb1 Nb2]. apply onodup_obj in Nc as [Nc1 Nc2].
    apply jeq_obj_char; auto. rewrite jeq_obj_char in E1, E2; auto. intro k. specialize (E1 k). specialize (E2 k).
    unfold lookup_rel in *.
    destruct (aget k ms) as [x|] eqn:G1, (aget k ms0) as [y|] eqn:G2, (aget k ms1) as [z|] eqn:G3; auto; try contradiction.
    apply aget_In in G1, G2, G3. rewrite Forall_forall in H, Na2, Nb2, Nc2.
    apply (H _ G1 y z); [apply (Na2 _ G1) | apply (Nb2 _ G2) | apply (Nc2 _ G3) | exact E1 | exact E2].
Qed.

Lemma oeqb_eq a : forall b, oeqb a b = true <-> a = b.
Proof.
  induction a using ojson_rect'; intro b'; destruct b'; simpl; try (split; [discriminate | intro E; inversion E]; fail);
    try (split; reflexivity).
  - destruct b, b0; simpl; split; intro E; try discriminate; try reflexivity; inversion E.
  - rewrite bseq_iff. split; intro E; [subst | inversion E]; auto.
  - rewrite bseq_iff. split; intro E; [subst | inversion E]; auto.
  - revert l0. induction l as [|x l IH]; intros [|y l0]; try (split; [discriminate | intro E; inversion E]; fail).
    + split; reflexivity.
    + inversion H; subst. rewrite andb_true_iff, H2, (IH H3). split; [intros [-> E]; inversion E; auto | intro E; inversion E; auto].
  - revert ms0. induction ms as [|[k x] ms IH]; intros [|[k' y] ms0]; try (split; [discriminate | intro E; inversion E]; fail).
    + split; reflexivity.
    + inversion H; subst. simpl in H2. rewrite !andb_true_iff, bseq_iff, H2, (IH H3).
      split; [intros [[-> ->] E]; inversion E; auto | intro E; inversion E; auto].
Qed.

(* a byte is its number; bytes that a test tells apart are different *)
Lemma bn_lt_256 c : (bn c < 256)%N.
Proof. unfold bn. pose proof (Byte.to_N_bounded c). lia. Qed.

Lemma nb_bn c : nb (bn c) = c.
Proof. unfold nb, bn. now rewrite Byte.of_to_N. Qed.

Lemma bn_nb v : (v < 256)%N -> bn (nb v) = v.
Proof.
  intro H. unfold bn, nb. destruct (Byte.of_N v) as [b|] eqn:E.
  - apply Byte.to_of_N in E. exact E.
  - apply Byte.of_N_None_iff in E. lia.
Qed.

Lemma bn_inj c d : bn c = bn d -> c = d.
Proof. intro H. now rewrite <- (nb_bn c), H, nb_bn. Qed.

Lemma eqb_differ (p : byte -> bool) c d : p c <> p d -> Byte.eqb c d = false.
Proof. intro H. destruct (Byte.eqb c d) eqn:E; [|reflexivity]. apply Byte.byte_dec_bl in E. now subst d. Qed.
