(* Totality.v — C04 for the v5 patch engine: api_apply never yields RPanic, for EVERY options record,
   EVERY document byte string, EVERY indent and every operation list whose add/replace operations
   on the whole document carry a value member (op_ok; DecodePatch guarantees it, and it is exactly
   the condition under which the model panics: see op_not_ok_panics).

   The walk over the six operations is ApplyFacts.step_post: for any predicate on nodes closed under what the
   engine does to a node and any class of failures the container methods stay within.  Here: the predicate ninv
   (ninv_closed) and the class "any error, no panic" (within_nopanic).

   The invariant is much weaker than Abs.nwf: it only says that every key of a member map is in the
   ordered key list of its partialDoc (kinv), hereditarily through the parsed part of the tree.
   It holds for every decoded text (duplicate names included), is preserved by every operation for
   arbitrary tokens, and excludes every Panic producer of ImplV5. *)
From Coq Require Import Lia.
From JP Require Import Bytes Json Text Strings Den Pointer ImplV5 DecodeFacts JsonFacts Abs ImplFacts ListFacts ApplyFacts.

Lemma build_with_keys {A} (f : tjson -> A) ms : forall acc x,
  In x (map fst (build_with f ms acc)) -> In x (map fst acc) \/ In x (map (fun kv => unquote (fst kv)) ms).
Proof.
  induction ms as [|[k v] ms IH]; intros acc x H; simpl in *; auto.
  apply IH in H as [H|H]; auto. rewrite keys_aset in H. destruct (amem (unquote k) acc); auto.
  apply in_app_or in H as [H|[H|[]]]; auto.
Qed.

Definition con_self (c : con) : node :=
  match c with KDoc s _ _ => s | KDocNil s _ => s | KAry s _ => s end.

(* the invariant of this file: every name of the member map is in the key list (one of the two inclusions of
   Abs.keys_agree, and neither NoDup) *)
Definition kinv (keys : list bytes) (obj : list (bytes * node)) : Prop :=
  forall k, In k (map fst obj) -> In k keys.

Fixpoint ninv (n : node) : Prop :=
  match n with
  | NNil => True
  | NRaw _ => True
  | NDoc keys obj =>
      kinv keys obj /\
      (fix all (m : list (bytes * node)) : Prop :=
         match m with [] => True | kv :: r => ninv (snd kv) /\ all r end) obj
  | NAry ns =>
      (fix all (l : list node) : Prop := match l with [] => True | x :: r => ninv x /\ all r end) ns
  end.

Lemma ninv_doc keys obj : ninv (NDoc keys obj) <-> kinv keys obj /\ Forall (fun kv => ninv (snd kv)) obj.
Proof. apply and_iff_compat_l, (all_fix_Forall (fun kv => ninv (snd kv))). Qed.

Lemma ninv_ary ns : ninv (NAry ns) <-> Forall ninv ns.
Proof. apply all_fix_Forall. Qed.

Arguments ninv : simpl never.
Lemma ninv_nil : ninv NNil. Proof. exact I. Qed.
Lemma ninv_raw t : ninv (NRaw t). Proof. exact I. Qed.
Lemma ninv_child t : ninv (child t). Proof. destruct t; exact I. Qed.

Definition cinv (c : con) : Prop := ninv (con_self c) /\ ninv (node_of_con c).

Definition rinv (r : root) : Prop := match r with RCon c => cinv c | RNull => True end.

Lemma cinv_node c : cinv c -> ninv (node_of_con c).
Proof. intros [_ H]. exact H. Qed.

Lemma kinv_aset_in keys obj k (v : node) : kinv keys obj -> In k keys -> kinv keys (aset k v obj).
Proof.
  intros K Hin x Hx. rewrite keys_aset in Hx. destruct (amem k obj); auto.
  apply in_app_or in Hx as [Hx|[Hx|[]]]; auto. subst; auto.
Qed.

Lemma kinv_doc_set keys obj k v : kinv keys obj -> kinv (fst (doc_set keys obj k v)) (snd (doc_set keys obj k v)).
Proof.
  intro K. unfold doc_set. cbn [fst snd]. destruct (kmem k keys) eqn:M.
  - apply kinv_aset_in; auto. now apply kmem_In.
  - apply kinv_aset_in.
    + intros x Hx. apply in_or_app. left. auto.
    + apply in_or_app. right. now left.
Qed.

Lemma In_kdel1_other k keys x : In x keys -> x <> k -> In x (kdel1 k keys).
Proof.
  induction keys as [|k' keys IH]; simpl; auto. intros [H|H] N.
  - subst k'. assert (E : bseq k x = false) by (apply bseq_neq; congruence). rewrite E. now left.
  - destruct (bseq k k'); auto. right. auto.
Qed.

Lemma kinv_del keys obj k : kinv keys obj -> kinv (kdel1 k keys) (adel k obj).
Proof.
  intros K x Hx. apply In_keys_adel in Hx as [H1 H2]. apply In_kdel1_other; auto.
Qed.

Lemma ninv_build f ms :
  Forall (fun kv => ninv (f (snd kv))) ms -> ninv (NDoc (map (fun kv => unquote (fst kv)) ms) (build_with f ms [])).
Proof.
  intro F. apply ninv_doc. split.
  - intros x Hx. apply build_with_keys in Hx as [[]|Hx]. exact Hx.
  - apply build_with_Forall; [constructor | exact F].
Qed.

Lemma ninv_doc_of ms : ninv (NDoc (fst (doc_of ms)) (snd (doc_of ms))).
Proof.
  unfold doc_of. cbn [fst snd]. rewrite build_obj_with. apply ninv_build, Forall_forall. intros kv _. apply ninv_child.
Qed.

Lemma into_con_inv n ch : ninv n -> into_con n = Some ch -> cinv ch.
Proof.
  intros N H. destruct n as [|t|keys obj|ns]; simpl in H; try discriminate.
  - destruct t; try discriminate.
    + inversion H; subst. split; [exact I|]. apply ninv_ary. rewrite Forall_map. apply Forall_forall. intros x _. apply ninv_child.
    + inversion H; subst. split; [exact I | exact (ninv_doc_of ms)].
  - inversion H; subst. split; [exact I | exact N].
  - inversion H; subst. split; [exact I | exact N].
Qed.

Lemma ninv_deep_t t : ninv (deep_t t).
Proof.
  induction t as [| | |l|s|l IH|ms IH] using tjson_rect'; try exact I.
  - cbn [deep_t]. apply ninv_ary. rewrite Forall_map. exact IH.
  - rewrite deep_t_obj. exact (ninv_build deep_t ms IH).
Qed.

Lemma ninv_deep n : ninv n -> ninv (deep n).
Proof.
  induction n as [|t|keys obj IH|ns IH] using node_rect'; intro N.
  - exact I.
  - destruct t; try exact I; apply ninv_deep_t.
  - cbn [deep]. apply ninv_doc in N as [K F]. apply ninv_doc. split.
    + intros x Hx. rewrite map_map in Hx. cbn [fst] in Hx. auto.
    + rewrite Forall_map. cbn [snd]. rewrite Forall_forall in *. intros kv Hin. apply IH; auto.
  - cbn [deep]. apply ninv_ary in N. apply ninv_ary. rewrite Forall_map. rewrite Forall_forall in *.
    intros x Hin. apply IH; auto.
Qed.

Theorem ninv_closed : closed ninv.
Proof.
  split; [split|..].
  - exact I.
  - exact ninv_ary.
  - intros keys obj k v N E. apply ninv_doc in N as [_ F]. apply aget_In in E. rewrite Forall_forall in F. apply (F _ E).
  - intros keys obj k x v N E Hv. apply ninv_doc in N as [K F]. apply ninv_doc. split.
    + apply kinv_aset_in; auto. apply K. eapply aget_In_fst; eauto.
    + apply Forall_aset; auto.
  - intros keys obj k v N Hv. apply ninv_doc in N as [K F]. apply ninv_doc. split.
    + now apply kinv_doc_set.
    + unfold doc_set. cbn [snd]. apply Forall_aset; auto.
  - intros keys obj k N. apply ninv_doc in N as [K F]. apply ninv_doc. split; [now apply kinv_del | now apply Forall_adel].
  - exact into_con_inv.
  - apply ninv_doc. split; [intros k []|constructor].
  - exact ninv_deep.
Qed.

Lemma ninv_deep_copy o v : ninv (fst (deep_copy o v)).
Proof. destruct v; exact I. Qed.

Definition stinv (st : state) : Prop := rinv (s_root st).

(* every operation keeps it, whatever its value member holds *)
Theorem step_stinv o st op st' : stinv st -> step o st op = Ok st' -> stinv st'.
Proof.
  intro S. apply (step_inv ninv_closed I (fun o v _ => ninv_deep_copy o v) o st op st' S). intros t _. exact I.
Qed.

Lemma load_doc_stinv o t r : load_doc o t = Ok r -> rinv r.
Proof. exact (load_doc_inv ninv_closed o t r I). Qed.

Lemma resolve_idx_get_nopanic o len key : resolve_idx_get o len key <> Panic.
Proof.
  unfold resolve_idx_get. destruct (atoi key) as [idx|]; [|discriminate].
  destruct (idx <? 0)%Z.
  - destruct (negb (o_neg o)); [discriminate|]. destruct (idx <? - len)%Z; [discriminate|].
    destruct (len <=? idx + len)%Z; discriminate.
  - destruct (len <=? idx)%Z; discriminate.
Qed.

Lemma con_get_nopanic o c key : con_get o c key <> Panic.
Proof.
  destruct c as [s keys obj|s st|s ns]; simpl; destruct key as [|b key]; try discriminate.
  - destruct (aget (b :: key) obj); discriminate.
  - pose proof (resolve_idx_get_nopanic o (zlen ns) (b :: key)) as R.
    destruct (resolve_idx_get o (zlen ns) (b :: key)); try discriminate. congruence.
Qed.

Lemma ary_remove_nopanic o ns key : ary_remove o ns key <> Panic.
Proof. intro H. pose proof (ary_remove_cases o ns key) as C. now rewrite H in C. Qed.

Lemma con_add_nopanic o c key v : con_add o c key v <> Panic.
Proof.
  destruct c as [s keys obj|s st|s ns]; simpl; try discriminate.
  pose proof (ary_add_never_panics o ns key v) as R. destruct (ary_add o ns key v); try discriminate. congruence.
Qed.

Lemma atoi_nil : atoi [] = None. Proof. reflexivity. Qed.

(* partialArray.set is unchecked: it cannot panic after the get that replace performs first *)
Lemma con_set_after_get_nopanic o c key v x : con_get o c key = Ok x -> con_set o c key v <> Panic.
Proof.
  intro G. destruct c as [s keys obj|s st|s ns]; simpl in *.
  - destruct (doc_set keys obj key v); discriminate.
  - discriminate.
  - destruct key as [|b key].
    + unfold ary_set. rewrite atoi_nil. discriminate.
    + destruct (resolve_idx_get o (zlen ns) (b :: key)) as [i| |] eqn:R; try discriminate.
      rewrite (ary_set_after_get o ns (b :: key) v i R). discriminate.
Qed.

(* partialDoc.remove slices keys at the index of the key: the invariant puts every key of the map
   in the key list *)
Lemma con_remove_nopanic o c key : cinv c -> con_remove o c key <> Panic.
Proof.
  intros [Cs Cn]. destruct c as [s keys obj|s st|s ns]; simpl in *; try discriminate.
  - destruct (amem key obj) eqn:M.
    + apply ninv_doc in Cn as [K _]. apply amem_In in M. apply K in M. apply kmem_In in M. rewrite M. discriminate.
    + destruct (o_allow o); discriminate.
  - pose proof (ary_remove_nopanic o ns key) as R. destruct (ary_remove o ns key); try discriminate. congruence.
Qed.

Lemma op_value_shape op : op_value op = None \/ exists t, op_value op = Some (NRaw t).
Proof. unfold op_value. destruct (aget (B "value") op) as [[t|]|]; eauto. Qed.

Lemma op_value_amem op : amem (B "value") op = true -> exists t, op_value op = Some (NRaw t).
Proof. unfold amem, op_value. destruct (aget (B "value") op) as [[t|]|]; eauto. discriminate. Qed.

Lemma op_str_nopanic op name : op_str op name <> Panic.
Proof. unfold op_str. destruct (aget name op) as [[[]|]|]; discriminate. Qed.

Lemma root_of_value_nopanic o t : root_of_value o t <> Panic.
Proof. destruct t; simpl; discriminate. Qed.

(* the one requirement on an operation: add / replace aimed at the whole document carry a value
   (validateOperation checks it for every add and replace) *)
Definition op_ok (op : operation) : bool :=
  match op_kind op with
  | KAdd | KReplace =>
      match op_str op (B "path") with
      | Ok [] => amem (B "value") op
      | _ => true
      end
  | _ => true
  end.

Lemma validate_op_ok op : validate_operation op = true -> op_ok op = true.
Proof.
  unfold validate_operation, op_ok. destruct (op_kind op); auto;
    destruct (amem (B "value") op); simpl; try discriminate; destruct (op_str op (B "path")) as [[|]| |]; auto.
Qed.

(* the container methods never panic on containers with the invariant; partialArray.set is unchecked, and is
   reached only after the get that replace performs first *)
Lemma within_nopanic : within ninv (fun _ => True) False.
Proof.
  assert (NP : forall A (r : res A), r <> Panic -> post (fun _ => True) (fun _ => True) False r)
    by (intros A [a|e|] H; [exact I | exact I | congruence]).
  split; try exact I; intros; apply NP.
  - apply con_get_nopanic.
  - apply con_add_nopanic.
  - eapply con_set_after_get_nopanic; eauto.
  - now apply con_remove_nopanic.
Qed.

Theorem step_nopanic o st op : stinv st -> op_ok op = true -> step o st op <> Panic.
Proof.
  intros S OK H.
  pose proof (step_post ninv_closed I within_nopanic o st op (fun _ => I) (fun _ _ _ _ => I)) as P.
  rewrite H in P. apply P; [|intros _ v _; apply ninv_deep_copy | exact S | intros _ t _; exact I].
  intros K Pth. left. unfold op_ok in OK. rewrite Pth in OK. destruct K as [K|K]; rewrite K in OK; exact OK.
Qed.

(* the condition is exactly the one under which the model panics *)
Theorem op_not_ok_panics o st op : op_ok op = false -> step o st op = Panic.
Proof.
  unfold op_ok, step. destruct (op_kind op) eqn:K; try discriminate.
  - unfold op_add. destruct (op_str op (B "path")) as [[|b path]| |]; try discriminate.
    unfold amem, op_value. destruct (aget (B "value") op); [discriminate | reflexivity].
  - unfold op_replace. destruct (op_str op (B "path")) as [[|b path]| |]; try discriminate.
    unfold amem, op_value. destruct (aget (B "value") op); [discriminate | reflexivity].
Qed.

Theorem apply_from_never_panics o : forall p i st,
  stinv st -> forallb op_ok p = true -> forall j, apply_from o i st p <> APanic j.
Proof.
  induction p as [|op p IH]; intros i st S OK j; simpl; [discriminate|].
  simpl in OK. apply andb_true_iff in OK as [OK1 OK2].
  pose proof (step_nopanic o st op S OK1) as NP. pose proof (step_stinv o st op) as PR.
  destruct (step o st op) as [st'|e|]; [|discriminate|congruence].
  apply IH; auto.
Qed.

Theorem apply_tree_never_panics o indent p t : forallb op_ok p = true -> apply_tree o indent p t <> RPanic.
Proof.
  intro OK. unfold apply_tree.
  pose proof (load_doc_stinv o t) as LI.
  assert (LN : load_doc o t <> Panic) by exact (root_of_value_nopanic o t).
  destruct (load_doc o t) as [r| |]; [|discriminate|congruence].
  pose proof (apply_from_never_panics o p 0%nat (mkState r 0) (LI r eq_refl) OK) as AP.
  destruct (apply_from o 0 (mkState r 0) p) as [st|i e|i]; [|discriminate|exfalso; eapply AP; reflexivity].
  destruct (s_root st) as [[| |]|]; simpl; discriminate.
Qed.

Theorem api_apply_never_panics o indent p doc : forallb op_ok p = true -> api_apply o indent p doc <> RPanic.
Proof.
  intro OK. unfold api_apply. destruct doc as [|b doc]; [discriminate|].
  destruct (parse (b :: doc)); [now apply apply_tree_never_panics | discriminate].
Qed.

(* conversely, for the head of the patch: a not-ok operation that is first panics on every document
   that loads (op_not_ok_panics holds in every state, so a later one panics too if it is reached,
   which is not stated).  op_ok is thus the weakest condition on the patch alone, up to operations
   that are never reached *)
Theorem api_apply_panics_on_not_ok o indent op p doc t r :
  parse doc = Some t -> doc <> [] -> load_doc o t = Ok r -> op_ok op = false ->
  api_apply o indent (op :: p) doc = RPanic.
Proof.
  intros P NE L NOK. unfold api_apply. destruct doc; [congruence|]. rewrite P. unfold apply_tree. rewrite L.
  simpl. rewrite (op_not_ok_panics o _ op NOK). reflexivity.
Qed.

Lemma decode_patch_ok t p : decode_patch_t t = Some p -> forallb op_ok p = true.
Proof.
  intro H. apply decode_patch_spec in H as [[_ ->]|(mss & _ & -> & F)]; [reflexivity|].
  apply forallb_forall. intros op Hop. apply in_map_iff in Hop as (ms & <- & Hm).
  rewrite Forall_forall in F. apply validate_op_ok, F, Hm.
Qed.

Theorem api_decode_ok bs p : api_decode bs = Some p -> forallb op_ok p = true.
Proof. unfold api_decode. destruct (parse bs); [apply decode_patch_ok | discriminate]. Qed.

Theorem decode_apply_never_panics o indent patch doc p :
  api_decode patch = Some p -> api_apply o indent p doc <> RPanic.
Proof. intro D. apply api_apply_never_panics. eapply api_decode_ok; eauto. Qed.

(* the hand-assembled operations outside op_ok: the panic of add / replace without value *)
Example add_without_value_panics :
  api_apply (mkOpts false 0 false false true [] None) [] [[(B "op", Some (TStr (B "add"))); (B "path", Some (TStr []))]] (B "{}") = RPanic.
Proof. vm_compute. reflexivity. Qed.

Example replace_without_value_panics :
  api_apply (mkOpts false 0 false false true [] None) [] [[(B "op", Some (TStr (B "replace"))); (B "path", Some (TStr []))]] (B "[]") = RPanic.
Proof. vm_compute. reflexivity. Qed.

Example add_without_value_rejected :
  api_decode (B "[{""op"":""add"",""path"":""""}]") = None /\ api_decode (B "[{""op"":""replace"",""path"":""""}]") = None.
Proof. vm_compute. split; reflexivity. Qed.

Print Assumptions api_apply_never_panics.
Print Assumptions decode_apply_never_panics.
Print Assumptions op_not_ok_panics.
