(* V4ApplySim.v — the legacy root package (ImplV4: bare Go maps, get of an absent member reads as
   nil, replace of an absent member adds it, Equal on string spellings) against the RFC 6902
   reference (Rfc6902.v), on the values the legacy nodes denote (aval4: members in the order of
   the association list that models the Go map).  Legacy counterpart of ApplySim.v. *)
From Coq Require Import Lia.
From Coq Require Import Permutation.
From JP Require MergeOrder V4MergeFacts V4EqualFacts StrInv.
From JP Require Import Bytes Json Text Strings Den Pointer Rfc6902 ImplV5 ImplMerge ImplV4 DecodeFacts JsonFacts Abs
                       EqualFacts ImplFacts RefFacts ApplyFacts ApplySim Domain Codec.

Definition d4 (g : opts4) : dialect := mkDialect (g_neg g).

Lemma d4_dia g : dia (o5 g) = d4 g.
Proof. reflexivity. Qed.

(* ---- the value of a legacy node ---- *)
(* the key list of a live legacy map is [] and plays no part in its value: the members are those
   of the map, in association-list order.  A non-empty key list is the tag of raw_null4 / nil_doc4
   (ImplV4.v), which ngood4 below excludes; aval4 is meaningless on them *)
Fixpoint aval4 (n : node) : ojson :=
  match n with
  | NNil => ONull
  | NRaw t => den t
  | NDoc _ obj => OObj (map (fun kv => (fst kv, aval4 (snd kv))) obj)
  | NAry ns => OArr (map aval4 ns)
  end.

Definition amap4 (obj : list (bytes * node)) : list (bytes * ojson) :=
  map (fun kv => (fst kv, aval4 (snd kv))) obj.

Lemma aval4_doc ks obj : aval4 (NDoc ks obj) = OObj (amap4 obj).
Proof. reflexivity. Qed.

(* string bodies the legacy Equal may compare by spelling: the spelling IS the content (no escapes,
   valid UTF-8), and the HTML-escaping encoder leaves it alone (no <, >, &, U+2028, U+2029) *)
Definition splain (b : bytes) : Prop := unquote b = b /\ html_escape b = b.

Fixpoint tplain (t : tjson) : Prop :=
  match t with
  | TStr b => splain b
  | TArr l => (fix all (l : list tjson) : Prop := match l with [] => True | x :: r => tplain x /\ all r end) l
  | TObj ms => (fix all (m : list (bytes * tjson)) : Prop :=
                  match m with [] => True | kv :: r => tplain (snd kv) /\ all r end) ms
  | _ => True
  end.

Lemma tplain_arr l : tplain (TArr l) <-> Forall tplain l.
Proof. exact (all_fix_Forall tplain l). Qed.

Lemma tplain_obj ms : tplain (TObj ms) <-> Forall (fun kv => tplain (snd kv)) ms.
Proof. exact (all_fix_Forall (fun kv => tplain (snd kv)) ms). Qed.
Arguments tplain : simpl never.

(* member names of a raw message: HTML escaping does not change what they decode to, and they
   decode to valid UTF-8 (both hold of every name the scanner accepts, see tsb_tkeys) *)
Definition kok (k : bytes) : Prop := unquote (html_escape k) = unquote k /\ utf8 (unquote k).

Fixpoint tkeys (t : tjson) : Prop :=
  match t with
  | TArr l => (fix all (l : list tjson) : Prop := match l with [] => True | x :: r => tkeys x /\ all r end) l
  | TObj ms => (fix all (m : list (bytes * tjson)) : Prop :=
                  match m with [] => True | kv :: r => (kok (fst kv) /\ tkeys (snd kv)) /\ all r end) ms
  | _ => True
  end.

Lemma tkeys_arr l : tkeys (TArr l) <-> Forall tkeys l.
Proof. exact (all_fix_Forall tkeys l). Qed.

Lemma tkeys_obj ms : tkeys (TObj ms) <-> Forall (fun kv => kok (fst kv) /\ tkeys (snd kv)) ms.
Proof. exact (all_fix_Forall (fun kv => kok (fst kv) /\ tkeys (snd kv)) ms). Qed.
Arguments tkeys : simpl never.

Lemma sbody_kok k : sbody k -> kok k.
Proof. intro S. split; [apply unquote_he, S | apply sbody_unquote_utf8, S]. Qed.

Lemma tsb_tkeys t : tsb t -> tkeys t.
Proof.
  induction t using tjson_rect'; intro S; try exact I.
  - apply tkeys_arr. apply tsb_arr in S. rewrite Forall_forall in *. intros x Hx. apply (H x Hx). apply (S x Hx).
  - apply tkeys_obj. apply tsb_obj in S. rewrite Forall_forall in *. intros kv Hk. destruct (S kv Hk) as [S1 S2].
    split; [apply sbody_kok; exact S1 | apply (H kv Hk); exact S2].
Qed.

(* a raw message the legacy package may hold: no duplicate names, number literals well formed, strings
   plain, member names as kok asks (tkeys).  raw4: moreover not null (a decoded null is the nil node); the
   node NRaw TNull is the operation value null (ImplV4.raw_nil4: a lazyNode with a nil raw message), which a
   state may hold *)
Definition rawok (t : tjson) : Prop := tnodup t = true /\ tlit t = true /\ tplain t /\ tkeys t.
Definition raw4 (t : tjson) : Prop := t <> TNull /\ rawok t.

Fixpoint ngood4 (n : node) : Prop :=
  match n with
  | NNil => True
  | NRaw t => rawok t
  | NDoc ks obj =>
      (* a live map (key list []); the two tagged nodes raw_null4 / nil_doc4 (the raw text null a copy
         of a non-nil null stores, and what a walk through it leaves) are NOT in the invariant *)
      ks = [] /\ NoDup (map fst obj) /\ Forall utf8 (map fst obj) /\
      (fix all (m : list (bytes * node)) : Prop :=
         match m with [] => True | kv :: r => ngood4 (snd kv) /\ all r end) obj
  | NAry ns =>
      (fix all (l : list node) : Prop := match l with [] => True | x :: r => ngood4 x /\ all r end) ns
  end.

(* a good member map: distinct names, in valid UTF-8 (they are Go strings that came out of the
   decoder), good values *)
Definition ogood4 (obj : list (bytes * node)) : Prop :=
  NoDup (map fst obj) /\ Forall utf8 (map fst obj) /\ Forall (fun kv => ngood4 (snd kv)) obj.

Lemma ngood4_doc ks obj : ngood4 (NDoc ks obj) <-> ks = [] /\ ogood4 obj.
Proof. unfold ogood4. cbn [ngood4]. rewrite (all_fix_Forall (fun kv => ngood4 (snd kv)) obj). reflexivity. Qed.

Lemma ngood4_ary ns : ngood4 (NAry ns) <-> Forall ngood4 ns.
Proof. exact (all_fix_Forall ngood4 ns). Qed.
Arguments ngood4 : simpl never.

Lemma ngood4_nil : ngood4 NNil. Proof. exact I. Qed.
Lemma ngood4_raw t : ngood4 (NRaw t) <-> rawok t. Proof. reflexivity. Qed.
Lemma ngood4_raw4 t : raw4 t -> ngood4 (NRaw t). Proof. intros [_ R]. exact R. Qed.
Lemma ngood4_raw_nn t : ngood4 (NRaw t) -> t <> TNull -> raw4 t. Proof. intros R N. split; [exact N | exact R]. Qed.
Lemma ngood4_raw_nil : ngood4 raw_nil4. Proof. repeat split. Qed.

Definition cval4 (c : con4) : ojson := aval4 (node_of_con4 c).
Definition cgood4 (c : con4) : Prop := ngood4 (node_of_con4 c) /\ c <> DDocNil.

Lemma cgood4_doc obj : cgood4 (DDoc obj) <-> ogood4 obj.
Proof.
  unfold cgood4. cbn [node_of_con4]. rewrite ngood4_doc. split; [tauto|]. intro H. split; [split; [reflexivity | exact H] | discriminate].
Qed.

Lemma cgood4_ary ns : cgood4 (DAry ns) <-> Forall ngood4 ns.
Proof.
  unfold cgood4. cbn [node_of_con4]. rewrite ngood4_ary. split; [tauto|]. intro H. split; [exact H | discriminate].
Qed.

Lemma cgood4_cases c : cgood4 c ->
  (exists obj, c = DDoc obj /\ ogood4 obj) \/ (exists ns, c = DAry ns /\ Forall ngood4 ns).
Proof.
  intro G. destruct c as [obj| |ns]; [left | destruct G as [_ []]; reflexivity | right].
  - exists obj. split; [reflexivity | apply cgood4_doc, G].
  - exists ns. split; [reflexivity | apply cgood4_ary, G].
Qed.

Lemma cval4_doc obj : cval4 (DDoc obj) = OObj (msnd aval4 obj).
Proof. reflexivity. Qed.

Lemma cval4_ary ns : cval4 (DAry ns) = OArr (map aval4 ns).
Proof. reflexivity. Qed.

Lemma cgood4_container c : cgood4 c -> is_container (cval4 c) = true.
Proof. intros _. destruct c; reflexivity. Qed.

Lemma aval4_child t : aval4 (child t) = den t.
Proof. destruct t; reflexivity. Qed.

Lemma raw4_arr l : raw4 (TArr l) -> Forall (fun t => ngood4 (child t)) l.
Proof.
  intros [_ [T [L [P K]]]]. apply tnodup_arr in T. apply tplain_arr in P. apply tkeys_arr in K. simpl in L. rewrite forallb_forall in L.
  rewrite Forall_forall in *. intros t Ht. specialize (T _ Ht). specialize (P _ Ht). specialize (L _ Ht). specialize (K _ Ht).
  destruct t; try exact I; (split; [exact T|]; split; [exact L |]; split; [exact P | exact K]).
Qed.

Lemma raw4_obj ms : raw4 (TObj ms) ->
  NoDup (map (fun kv => unquote (fst kv)) ms) /\ Forall utf8 (map (fun kv => unquote (fst kv)) ms) /\
  Forall (fun kv => ngood4 (child (snd kv))) ms.
Proof.
  intros [_ [T [L [P K]]]]. apply tnodup_obj in T as [N T]. apply tplain_obj in P. apply tlit_members in L. apply tkeys_obj in K.
  split; [exact N|]. split.
  - rewrite Forall_map. rewrite Forall_forall in *. intros kv Hk. exact (proj2 (proj1 (K _ Hk))).
  - rewrite Forall_forall in *. intros kv Hk. specialize (T _ Hk). specialize (P _ Hk). specialize (L _ Hk).
    pose proof (proj2 (K _ Hk)) as K2.
    destruct (snd kv); try exact I; (split; [exact T|]; split; [exact L |]; split; [exact P | exact K2]).
Qed.

Lemma parsed4_obj ms : raw4 (TObj ms) -> cval4 (DDoc (obj_of ms)) = den (TObj ms) /\ cgood4 (DDoc (obj_of ms)).
Proof.
  intro R. pose proof (raw4_obj ms R) as [N [U F]]. destruct R as [_ [T _]].
  rewrite (den_obj_nodup ms T), (V4MergeFacts.obj_of_nodup ms N). split.
  - rewrite cval4_doc. f_equal. unfold den_members, msnd. rewrite map_map. apply map_ext.
    intro kv. cbn [fst snd]. now rewrite aval4_child.
  - apply cgood4_doc. split; [|split].
    + rewrite map_map. cbn [fst]. exact N.
    + rewrite map_map. cbn [fst]. exact U.
    + rewrite Forall_map. exact F.
Qed.

Lemma parsed4_arr l : raw4 (TArr l) -> cval4 (DAry (map child l)) = den (TArr l) /\ cgood4 (DAry (map child l)).
Proof.
  intro R. pose proof (raw4_arr l R) as F. split.
  - rewrite cval4_ary. cbn [den]. f_equal. rewrite map_map. apply map_ext. intro t. apply aval4_child.
  - apply cgood4_ary. rewrite Forall_map. exact F.
Qed.

Lemma into_con4_sim v :
  ngood4 v ->
  if is_container (aval4 v)
  then exists ch, into_con4 v = Some ch /\ cval4 ch = aval4 v /\ cgood4 ch
  else into_con4 v = None.
Proof.
  intro G. destruct v as [|t|ks obj|ns]; cbn [aval4 into_con4].
  - reflexivity.
  - destruct t; try reflexivity.
    + apply ngood4_raw_nn in G; [|discriminate].
      simpl is_container. destruct (parsed4_arr l G) as [P1 P2]. exists (DAry (map child l)). auto.
    + apply ngood4_raw_nn in G; [|discriminate].
      destruct (parsed4_obj ms G) as [P1 P2]. rewrite <- P1. simpl is_container. exists (DDoc (obj_of ms)). auto.
  - pose proof (proj1 (proj1 (ngood4_doc ks obj) G)) as Ek. subst ks.
    simpl is_container. exists (DDoc obj). split; auto. split; [reflexivity|]. split; [exact G | discriminate].
  - simpl is_container. exists (DAry ns). split; auto. split; [reflexivity|]. split; [exact G | discriminate].
Qed.

Lemma ogood4_aset k v obj : ogood4 obj -> utf8 k -> ngood4 v -> ogood4 (aset k v obj).
Proof.
  intros [N [U Gs]] Uk Gv. split; [apply NoDup_keys_aset; exact N|]. split.
  - rewrite keys_aset. destruct (amem k obj); [exact U|]. apply Forall_app. split; [exact U|]. constructor; [exact Uk | constructor].
  - apply Forall_aset; auto.
Qed.

Lemma ogood4_adel k obj : ogood4 obj -> ogood4 (adel k obj).
Proof.
  intros [N [U Gs]]. split; [apply NoDup_keys_adel; exact N|]. split.
  - rewrite Forall_forall in *. intros x Hx. apply U. eapply keys_adel_incl; eauto.
  - apply Forall_adel; auto.
Qed.

(* reference tokens: the domain of ApplySim, with its last conjunct (valid UTF-8: the tokens are pieces of a
   decoded JSON string) stated a second time, on its own; the two domains are equal (tok_dom4_iff) *)
Definition tok_dom4 (t : bytes) : Prop := tok_dom t /\ utf8 t.

Lemma tok_dom4_iff t : tok_dom4 t <-> tok_dom t.
Proof. split; [intros [D _]; exact D | intro D; split; [exact D | exact (tok_dom_utf8 t D)]]. Qed.

Lemma dom_split4 r :
  Forall tok_dom4 (map decode_token (split_slash r)) ->
  Forall tok_dom4 (map decode_token (path_parts r)) /\ tok_dom4 (path_key r).
Proof.
  intro H. rewrite (tokens_split _ (split_slash_nonempty r)) in H. apply Forall_app in H as [H1 H2].
  split; auto. inversion H2; auto.
Qed.

(* ---- the container methods against the reference's leaf operations ---- *)
Lemma nth_map_aval4 ns i : nth i (map aval4 ns) ONull = aval4 (nth i ns NNil).
Proof. change ONull with (aval4 NNil). apply map_nth. Qed.

Lemma resolve_idx_agrees4 g (ns : list node) key i :
  tok_dom key -> resolve_idx_get (o5 g) (ImplV5.zlen ns) key = Ok i ->
  idx_existing (d4 g) (Rfc6902.zlen (map aval4 ns)) key = Some i.
Proof.
  intros D R. rewrite zlen_map. pose proof (resolve_idx_get_dom (o5 g) ns key D) as Q. rewrite d4_dia in Q.
  destruct (idx_existing (d4 g) (Rfc6902.zlen ns) key) as [i'|].
  - destruct Q as [Q _]. rewrite Q in R. inversion R. reflexivity.
  - destruct Q as [e [Q _]]. rewrite Q in R. discriminate.
Qed.

(* the array methods on a token that is canonical and small: the index the reference resolves, or an
   index error *)
Lemma con4_get_index g (ns : list node) t :
  tok_small t -> tok_canonical t ->
  match idx_existing (d4 g) (Rfc6902.zlen ns) t with
  | Some i => con4_get g (DAry ns) t = Ok (nth i ns NNil) /\ (i < length ns)%nat
  | None => exists e, con4_get g (DAry ns) t = Err e /\ (e = EInvalidIndex \/ e = EAtoi)
  end.
Proof.
  intros S C. pose proof (resolve_idx_get_ref (o5 g) ns t S C) as R. cbn [con4_get]. rewrite d4_dia in R.
  destruct (idx_existing (d4 g) (Rfc6902.zlen ns) t).
  - destruct R as [R L]. rewrite R. auto.
  - destruct R as [e [R Re]]. rewrite R. eauto.
Qed.

Lemma con4_add_index g (ns : list node) t v :
  tok_small t -> add_tok t ->
  match idx_insert (d4 g) (Rfc6902.zlen ns) t with
  | Some i => con4_add g (DAry ns) t v = Ok (DAry (insert_at i v ns)) /\ (i <= length ns)%nat
  | None => exists e, con4_add g (DAry ns) t v = Err e /\ (e = EInvalidIndex \/ e = EAtoi)
  end.
Proof.
  intros S C. pose proof (ary_add_ref (o5 g) ns t v S C) as R. cbn [con4_add]. rewrite d4_dia in R.
  destruct (idx_insert (d4 g) (Rfc6902.zlen ns) t).
  - destruct R as [R L]. rewrite R. auto.
  - destruct R as [e [R Re]]. rewrite R. eauto.
Qed.

Lemma con4_remove_index g (ns : list node) t :
  tok_small t -> tok_canonical t ->
  match idx_existing (d4 g) (Rfc6902.zlen ns) t with
  | Some i => con4_remove g (DAry ns) t = Ok (DAry (remove_at i ns)) /\ (i < length ns)%nat
  | None => exists e, con4_remove g (DAry ns) t = Err e /\ (e = EInvalidIndex \/ e = EAtoi)
  end.
Proof.
  intros S C. pose proof (ary_remove_ref (o5 g) ns t eq_refl S C) as R. cbn [con4_remove]. rewrite d4_dia in R.
  destruct (idx_existing (d4 g) (Rfc6902.zlen ns) t).
  - destruct R as [R L]. rewrite R. auto.
  - destruct R as [e [R Re]]. rewrite R. eauto.
Qed.

(* get: an absent member of an object reads as the nil node and never fails *)
Lemma con4_get_sim g c key :
  cgood4 c -> tok_dom4 key ->
  match child_at (d4 g) (cval4 c) key with
  | Some j => exists v, con4_get g c key = Ok v /\ aval4 v = j /\ ngood4 v
  | None => match c with
            | DAry _ => exists e, con4_get g c key = Err e /\ (e = EInvalidIndex \/ e = EAtoi)
            | _ => con4_get g c key = Ok NNil
            end
  end.
Proof.
  intros [(obj & -> & N & U & Gv) | (ns & -> & G)]%cgood4_cases [D Uk].
  - rewrite cval4_doc. cbn [child_at con4_get]. rewrite aget_msnd.
    destruct (aget key obj) as [v|] eqn:E; cbn [option_map]; [|reflexivity].
    exists v. split; auto. split; auto. apply aget_In in E. rewrite Forall_forall in Gv. apply (Gv _ E).
  - rewrite cval4_ary. cbn [child_at con4_get].
    rewrite zlen_map. pose proof (resolve_idx_get_dom (o5 g) ns key D) as R. rewrite d4_dia in R.
    destruct (idx_existing (d4 g) (Rfc6902.zlen ns) key) as [i|].
    + destruct R as [R L]. rewrite R. exists (nth i ns NNil). split; auto. split; [symmetry; apply nth_map_aval4|].
      apply Forall_nth; auto.
    + destruct R as [e [R Re]]. rewrite R. eauto.
Qed.

(* a successful get of a non-nil node is a get of an existing location *)
Lemma con4_get_ok_child g c key v :
  cgood4 c -> tok_dom4 key -> con4_get g c key = Ok v -> v <> NNil ->
  child_at (d4 g) (cval4 c) key = Some (aval4 v) /\ ngood4 v.
Proof.
  intros G D H NN. pose proof (con4_get_sim g c key G D) as S.
  destruct (child_at (d4 g) (cval4 c) key) as [j|].
  - destruct S as [v' [S1 [S2 S3]]]. rewrite S1 in H. inversion H; subst. auto.
  - destruct c; [rewrite S in H; inversion H; congruence | rewrite S in H; inversion H; congruence |].
    destruct S as [e [S _]]. rewrite S in H. discriminate.
Qed.

(* get at the leaf against the reference's get_leaf: an absent member of an object reads as the nil node *)
Lemma get_leaf4_sim g cp key : cgood4 cp -> tok_dom4 key ->
  match get_leaf (d4 g) (cval4 cp) key with
  | ROk j => exists v, con4_get g cp key = Ok v /\ aval4 v = j /\ ngood4 v
  | RFail cz => (cz = FMissingMember /\ con4_get g cp key = Ok NNil) \/
                (cz = FIndex /\ exists e, con4_get g cp key = Err e /\ (e = EInvalidIndex \/ e = EAtoi))
  end.
Proof.
  intros G D. pose proof (con4_get_sim g cp key G D) as CG.
  destruct (cgood4_cases cp G) as [(obj & -> & _) | (ns & -> & _)].
  - rewrite cval4_doc in *. cbn [get_leaf child_at] in *. destruct (aget key _); [exact CG | left; split; [reflexivity | exact CG]].
  - rewrite cval4_ary in *. cbn [get_leaf child_at] in *.
    destruct (idx_existing (d4 g) (Rfc6902.zlen (map aval4 ns)) key); [exact CG | right; split; [reflexivity | exact CG]].
Qed.

Lemma con4_add_sim g cp key v :
  cgood4 cp -> tok_dom4 key -> ngood4 v ->
  match add_leaf (d4 g) (aval4 v) (cval4 cp) key with
  | ROk j' => exists cp', con4_add g cp key v = Ok cp' /\ cval4 cp' = j' /\ cgood4 cp'
  | RFail cz => cz = FIndex /\ exists e, con4_add g cp key v = Err e /\ (e = EInvalidIndex \/ e = EAtoi)
  end.
Proof.
  intros [(obj & -> & G) | (ns & -> & G)]%cgood4_cases [D Uk] Gv.
  - rewrite cval4_doc. cbn [add_leaf con4_add]. rewrite aset_msnd.
    eexists. split; [reflexivity|]. split; [reflexivity|]. apply cgood4_doc. apply ogood4_aset; auto.
  - rewrite cval4_ary. cbn [add_leaf con4_add].
    rewrite zlen_map.
    pose proof (ary_add_fits (o5 g) ns key v (tok_small_fits _ _ (proj1 (proj2 D))) (proj1 (proj2 (proj2 D)))) as R. rewrite d4_dia in R.
    destruct (idx_insert (d4 g) (Rfc6902.zlen ns) key) as [i|].
    + destruct R as [R L]. rewrite R. eexists. split; [reflexivity|]. rewrite cval4_ary.
      split; [f_equal; apply map_insert_at|]. apply cgood4_ary. apply Forall_insert_at; auto.
    + destruct R as [e [R Re]]. rewrite R. split; auto. eauto.
Qed.

Lemma con4_remove_sim g cp key :
  cgood4 cp -> tok_dom4 key ->
  match remove_leaf (d4 g) (cval4 cp) key with
  | ROk j' => exists cp', con4_remove g cp key = Ok cp' /\ cval4 cp' = j' /\ cgood4 cp'
  | RFail cz => exists e, con4_remove g cp key = Err e /\
               ((cz = FMissingMember /\ e = EMissing) \/ (cz = FIndex /\ (e = EInvalidIndex \/ e = EAtoi)))
  end.
Proof.
  intros [(obj & -> & G) | (ns & -> & G)]%cgood4_cases [D Uk].
  - rewrite cval4_doc. cbn [remove_leaf con4_remove]. rewrite amem_msnd. destruct (amem key obj) eqn:M.
    + rewrite adel_msnd. eexists. split; [reflexivity|]. split; [reflexivity|]. apply cgood4_doc. apply ogood4_adel; auto.
    + exists EMissing. split; auto.
  - rewrite cval4_ary. cbn [remove_leaf con4_remove].
    rewrite zlen_map.
    pose proof (ary_remove_fits (o5 g) ns key (tok_small_fits _ _ (proj1 (proj2 D))) (proj1 (proj2 (proj2 D)))) as R. rewrite d4_dia in R.
    destruct (idx_existing (d4 g) (Rfc6902.zlen ns) key) as [i|].
    + destruct R as [R L]. rewrite R. eexists. split; [reflexivity|]. rewrite cval4_ary.
      split; [f_equal; apply map_remove_at|]. apply cgood4_ary. apply Forall_remove_at; auto.
    + destruct (R eq_refl) as [e [R' Re]]. rewrite R'. exists e. split; auto.
Qed.

Lemma add_is_replace_present d v ms key :
  amem key ms = true -> replace_leaf d v (OObj ms) key = add_leaf d v (OObj ms) key.
Proof. intro M. cbn [replace_leaf add_leaf]. now rewrite M. Qed.

(* putting a (parsed) child back where get found it *)
Lemma con4_put_sim g c key ch v :
  cgood4 c -> tok_dom4 key -> con4_get g c key = Ok v -> ngood4 ch ->
  cval4 (con4_put g c key ch) = put_child (d4 g) (cval4 c) key (aval4 ch) /\ cgood4 (con4_put g c key ch).
Proof.
  intros [(obj & -> & G) | (ns & -> & G)]%cgood4_cases [D Uk] Hg Gc.
  - cbn [con4_put]. rewrite !cval4_doc. cbn [put_child].
    rewrite aset_msnd. split; [reflexivity|]. apply cgood4_doc. apply ogood4_aset; auto.
  - cbn [con4_get] in Hg.
    destruct (resolve_idx_get (o5 g) (ImplV5.zlen ns) key) as [i| |] eqn:R; try discriminate.
    cbn [con4_put]. rewrite R, !cval4_ary. cbn [put_child].
    rewrite (resolve_idx_agrees4 g ns key i D R).
    change (firstn i ns ++ ch :: skipn (S i) ns) with (set_at i ch ns).
    split; [now rewrite map_set_at|]. apply cgood4_ary. apply Forall_set_at; auto.
Qed.

(* the pointer walk of the legacy findObject, as ApplySim.walk_spec: back puts what the leaf action leaves of cp
   back along the path (the con4_put of every level, innermost first); every leaf action f, of any result type,
   since walk4 runs f once, at cp, and each operation hands it its own *)
Lemma walk4_spec g parts : forall c,
  cgood4 c -> Forall tok_dom4 (map decode_token parts) ->
  match descend (d4 g) (map decode_token parts) (cval4 c) with
  | Some p =>
      if is_container p then
        exists cp (back : con4 -> con4), cval4 cp = p /\ cgood4 cp /\
          (forall A (f : con4 -> A * con4), walk4 g parts c f = (Some (fst (f cp)), back (snd (f cp)))) /\
          (forall cp', cgood4 cp' ->
             cval4 (back cp') = rebuild (d4 g) (map decode_token parts) (cval4 c) (cval4 cp') /\ cgood4 (back cp'))
      else exists c', (forall A (f : con4 -> A * con4), walk4 g parts c f = (None, c')) /\ cval4 c' = cval4 c /\ cgood4 c'
  | None => exists c', (forall A (f : con4 -> A * con4), walk4 g parts c f = (None, c')) /\ cval4 c' = cval4 c /\ cgood4 c'
  end.
Proof.
  induction parts as [|p parts IH]; intros c G D.
  - cbn [map descend]. rewrite (cgood4_container c G). exists c, (fun x => x). split; [reflexivity|]. split; [exact G|]. split.
    + intros A f. cbn [walk4]. destruct (f c); reflexivity.
    + intros cp' Gcp'. split; [reflexivity | exact Gcp'].
  - cbn [map descend]. inversion D as [|? ? Dk Dr]; subst.
    pose proof (con4_get_sim g c (decode_token p) G Dk) as CG.
    destruct (child_at (d4 g) (cval4 c) (decode_token p)) as [j|] eqn:Ech.
    + destruct CG as [next [Hg [Ev Gn]]].
      pose proof (into_con4_sim next Gn) as IC. rewrite Ev in IC.
      assert (Fail_case : forall ch', cval4 ch' = j -> cgood4 ch' ->
                cval4 (con4_put g c (decode_token p) (node_of_con4 ch')) = cval4 c /\
                cgood4 (con4_put g c (decode_token p) (node_of_con4 ch'))).
      { intros ch' Ev' Gc'. destruct (con4_put_sim g c (decode_token p) (node_of_con4 ch') next G Dk Hg (proj1 Gc')) as [Q1 Q2].
        split; auto. rewrite Q1. fold (cval4 ch'). rewrite Ev'. apply put_child_same. exact Ech. }
      destruct (is_container j) eqn:Cj.
      * destruct IC as [ch [Hic [Evc Gch]]]. specialize (IH ch Gch Dr). rewrite Evc in IH.
        destruct (descend (d4 g) (map decode_token parts) j) as [p'|] eqn:Ed.
        -- destruct (is_container p') eqn:Cp.
           ++ destruct IH as [cp [back [E1 [E2 [E3 E4]]]]].
              exists cp, (fun x => con4_put g c (decode_token p) (node_of_con4 (back x))).
              split; auto. split; auto. split.
              ** intros A f. cbn [walk4]. rewrite Hg, Hic, (E3 A f). reflexivity.
              ** intros cp' Gcp'. destruct (E4 cp' Gcp') as [F1 F2].
                 destruct (con4_put_sim g c (decode_token p) (node_of_con4 (back cp')) next G Dk Hg (proj1 F2)) as [Q1 Q2].
                 split; auto. rewrite Q1. cbn [rebuild]. rewrite Ech. fold (cval4 (back cp')). rewrite F1. reflexivity.
           ++ destruct IH as [ch' [W1 [W2 W3]]].
              exists (con4_put g c (decode_token p) (node_of_con4 ch')). split.
              ** intros A f. cbn [walk4]. rewrite Hg, Hic, (W1 A f). reflexivity.
              ** apply Fail_case; auto; congruence.
        -- destruct IH as [ch' [W1 [W2 W3]]].
           exists (con4_put g c (decode_token p) (node_of_con4 ch')). split.
           ++ intros A f. cbn [walk4]. rewrite Hg, Hic, (W1 A f). reflexivity.
           ++ apply Fail_case; auto; congruence.
      * assert (W : forall A (f : con4 -> A * con4), walk4 g (p :: parts) c f = (None, c)).
        { intros A f. cbn [walk4]. rewrite Hg, IC. reflexivity. }
        destruct parts as [|p2 parts].
        -- cbn [map descend]. rewrite Cj. exists c. auto.
        -- cbn [map descend]. replace (child_at (d4 g) j (decode_token p2)) with (@None ojson)
             by (destruct j; try reflexivity; discriminate).
           exists c. auto.
    + exists c. split; auto. intros A f. cbn [walk4].
      destruct c as [obj| |ns]; [rewrite CG; reflexivity | rewrite CG; reflexivity |].
      destruct CG as [e [Hg _]]. rewrite Hg. reflexivity.
Qed.

Lemma find4_spec {A} g c r (f : con4 -> bytes -> A * con4) :
  cgood4 c -> Forall tok_dom4 (map decode_token (split_slash r)) ->
  match descend (d4 g) (map decode_token (path_parts r)) (cval4 c) with
  | Some p =>
      if is_container p then
        exists cp (back : con4 -> con4), cval4 cp = p /\ cgood4 cp /\
          find4 g c (x2f :: r) f = (Some (fst (f cp (path_key r))), back (snd (f cp (path_key r)))) /\
          (forall cp', cgood4 cp' ->
             cval4 (back cp') = rebuild (d4 g) (map decode_token (path_parts r)) (cval4 c) (cval4 cp') /\ cgood4 (back cp'))
      else exists c', find4 g c (x2f :: r) f = (None, c') /\ cval4 c' = cval4 c /\ cgood4 c'
  | None => exists c', find4 g c (x2f :: r) f = (None, c') /\ cval4 c' = cval4 c /\ cgood4 c'
  end.
Proof.
  intros G D. apply dom_split4 in D as [D1 D2].
  pose proof (walk4_spec g (path_parts r) c G D1) as W.
  unfold find4. rewrite split_path_slash.
  destruct (descend (d4 g) (map decode_token (path_parts r)) (cval4 c)) as [p|].
  - destruct (is_container p).
    + destruct W as [cp [back [E1 [E2 [E3 E4]]]]]. exists cp, back. split; [exact E1|]. split; [exact E2|]. split; [|exact E4].
      rewrite (E3 A (fun c' => f c' (path_key r))). reflexivity.
    + destruct W as [c' [W1 W2]]. exists c'. split; [|exact W2]. rewrite (W1 A (fun c' => f c' (path_key r))). reflexivity.
  - destruct W as [c' [W1 W2]]. exists c'. split; [|exact W2]. rewrite (W1 A (fun c' => f c' (path_key r))). reflexivity.
Qed.

Lemma find4_root {A} g c (f : con4 -> bytes -> A * con4) : find4 g c [] f = (None, c).
Proof. reflexivity. Qed.

(* how the legacy package follows a result of the reference: a leaf action at the parent, a find
   (no parent is reported as ErrMissing), an operation on the state *)
Definition leaf_sim4 {A} (j : Rfc6902.res ojson) (x : res A * con4) : Prop :=
  match j with
  | ROk j' => exists a cp', x = (Ok a, cp') /\ cval4 cp' = j' /\ cgood4 cp'
  | RFail cz => exists e cp', x = (Err e, cp') /\ cause_rel cz e
  end.

Definition find_sim4 {A} (j : Rfc6902.res ojson) (x : option (res A) * con4) : Prop :=
  match j with
  | ROk j' => exists a c2, x = (Some (Ok a), c2) /\ cval4 c2 = j' /\ cgood4 c2
  | RFail cz => exists e c2, (x = (Some (Err e), c2) \/ (x = (None, c2) /\ e = EMissing)) /\ cause_rel cz e
  end.

Lemma cause_rel_index e : e = EInvalidIndex \/ e = EAtoi -> cause_rel FIndex e.
Proof. cbn. tauto. Qed.

(* find + leaf action against at_parent + leaf function; what the action returns has any property Q it has at the leaf *)
Lemma find4_at_parent {A} g c r (f : con4 -> bytes -> res A * con4) (lf : ojson -> bytes -> Rfc6902.res ojson) (Q : A -> Prop) :
  cgood4 c -> Forall tok_dom4 (map decode_token (split_slash r)) ->
  (forall p t, is_container p = false -> lf p t = RFail FUnreachable) ->
  (forall cp, cgood4 cp -> descend (d4 g) (map decode_token (path_parts r)) (cval4 c) = Some (cval4 cp) ->
     match lf (cval4 cp) (path_key r) with
     | ROk j' => exists a cp', f cp (path_key r) = (Ok a, cp') /\ cval4 cp' = j' /\ cgood4 cp' /\ Q a
     | RFail cz => exists e cp', f cp (path_key r) = (Err e, cp') /\ cause_rel cz e
     end) ->
  match at_parent (d4 g) (ptoks r) (cval4 c) lf with
  | ROk j' => exists a c2, find4 g c (x2f :: r) f = (Some (Ok a), c2) /\ cval4 c2 = j' /\ cgood4 c2 /\ Q a
  | RFail cz => exists e c2, (find4 g c (x2f :: r) f = (Some (Err e), c2) \/
                              (find4 g c (x2f :: r) f = (None, c2) /\ e = EMissing)) /\ cause_rel cz e
  end.
Proof.
  intros G D NC L. unfold ptoks. rewrite at_parent_snoc. pose proof (find4_spec g c r f G D) as FS.
  destruct (descend (d4 g) (map decode_token (path_parts r)) (cval4 c)) as [p|].
  - destruct (is_container p) eqn:Cp.
    + destruct FS as [cp [back [E1 [E2 [E3 E4]]]]]. specialize (L cp E2). rewrite E1 in L. specialize (L eq_refl).
      destruct (lf p (path_key r)) as [j'|cz]; simpl.
      * destruct L as [a [cp' [L1 [L2 [L3 L4]]]]]. rewrite L1 in E3. simpl in E3.
        destruct (E4 cp' L3) as [F1 F2]. exists a, (back cp'). split; [exact E3|]. split; [now rewrite F1, L2|]. split; [exact F2 | exact L4].
      * destruct L as [e [cp' [L1 L2]]]. rewrite L1 in E3. simpl in E3. exists e, (back cp'). split; auto.
    + destruct FS as [c' [F1 [F2 F3]]]. rewrite (NC p (path_key r) Cp). simpl. exists EMissing, c'. split; [right; auto | reflexivity].
  - destruct FS as [c' [F1 [F2 F3]]]. exists EMissing, c'. split; [right; auto | reflexivity].
Qed.

Lemma find4_leaf_sim {A} g c r (f : con4 -> bytes -> res A * con4) (lf : ojson -> bytes -> Rfc6902.res ojson) :
  cgood4 c -> Forall tok_dom4 (map decode_token (split_slash r)) ->
  (forall p t, is_container p = false -> lf p t = RFail FUnreachable) ->
  (forall cp, cgood4 cp -> descend (d4 g) (map decode_token (path_parts r)) (cval4 c) = Some (cval4 cp) ->
     leaf_sim4 (lf (cval4 cp) (path_key r)) (f cp (path_key r))) ->
  find_sim4 (at_parent (d4 g) (ptoks r) (cval4 c) lf) (find4 g c (x2f :: r) f).
Proof.
  intros G D NC L. pose proof (find4_at_parent g c r f lf (fun _ => True) G D NC) as F. lapply F; clear F.
  - intro F. unfold find_sim4. destruct (at_parent _ _ _ lf) as [j'|cz]; [|exact F].
    destruct F as [a [c2 [F1 [F2 [F3 _]]]]]. eauto.
  - intros cp Gcp Ed. specialize (L cp Gcp Ed). unfold leaf_sim4 in L.
    destruct (lf (cval4 cp) (path_key r)) as [j|cz]; [|exact L]. destruct L as [a [cp' [L1 [L2 L3]]]]. eauto 6.
Qed.

Definition sgood4 (st : state4) : Prop := cgood4 (r4 st).
Definition sval4 (st : state4) : ojson := cval4 (r4 st).
Definition opv4 (op : operation) : node := match op_value4 op with Some v => v | None => NNil end.

Lemma sval4_mk c a : sval4 (mkState4 c a) = cval4 c.
Proof. reflexivity. Qed.

Definition val_good4 (op : operation) : Prop :=
  match aget (B "value") op with Some (Some t) => raw4 t | _ => True end.

Lemma opv4_aval op : aval4 (opv4 op) = ref_value op.
Proof. unfold opv4, op_value4, ref_value. destruct (aget (B "value") op) as [[t|]|]; reflexivity. Qed.

Lemma opv4_good op : val_good4 op -> ngood4 (opv4 op).
Proof.
  unfold val_good4, opv4, op_value4. destruct (aget (B "value") op) as [[t|]|]; intro H; [exact (proj2 H) | exact ngood4_raw_nil | exact I].
Qed.

(* one unfolding of step4 per operation kind *)
Definition add_fn4 (g : opts4) (v : node) (c' : con4) (key : bytes) : res unit * con4 := upd (con4_add g c' key v) c' tt.
Definition remove_fn4 (g : opts4) (c' : con4) (key : bytes) : res unit * con4 := upd (con4_remove g c' key) c' tt.
Definition replace_fn4 (g : opts4) (v : node) (c' : con4) (key : bytes) : res unit * con4 :=
  match con4_get g c' key with
  | Ok _ => upd (con4_set g c' key v) c' tt
  | Err _ => (Err EMissing, c')
  | Panic => (Panic, c')
  end.
Definition move_src_fn4 (g : opts4) (c' : con4) (key : bytes) : res node * con4 :=
  match con4_get g c' key with
  | Ok v => upd (con4_remove g c' key) c' v
  | Err e => (Err e, c')
  | Panic => (Panic, c')
  end.
Definition get_fn4 (g : opts4) (c' : con4) (key : bytes) : res node * con4 := (con4_get g c' key, c').
Definition unit_fn4 (c' : con4) (_ : bytes) : unit * con4 := (tt, c').
Definition test_fn4 (g : opts4) (op : operation) (c' : con4) (key : bytes) : res unit * con4 :=
  match con4_get g c' key with
  | Ok v =>
      if is_null4 v then ((if null4 (opv4 op) then Ok tt else Err ETestFailed), c')
      else match op_value4 op with
           | None => (Err ETestFailed, c')
           | Some ov => ((if node_equal4 v ov then Ok tt else Err ETestFailed), c')
           end
  | Err e => (Err e, c')
  | Panic => (Panic, c')
  end.

Definition keep_acc (st : state4) : unit -> con4 -> res state4 := fun _ c2 => Ok (mkState4 c2 (acc4 st)).

Lemma step4_add g st op : op_kind op = KAdd ->
  step4 g st op = match op_str op (B "path") with
                  | Ok path => lift4 (find4 g (r4 st) path (add_fn4 g (opv4 op))) st (keep_acc st)
                  | _ => Err EMissing
                  end.
Proof. intro K. unfold step4. rewrite K. reflexivity. Qed.

Lemma step4_remove g st op : op_kind op = KRemove ->
  step4 g st op = match op_str op (B "path") with
                  | Ok path => lift4 (find4 g (r4 st) path (remove_fn4 g)) st (keep_acc st)
                  | _ => Err EMissing
                  end.
Proof. intro K. unfold step4. rewrite K. reflexivity. Qed.

Lemma step4_replace g st op : op_kind op = KReplace ->
  step4 g st op = match op_str op (B "path") with
                  | Ok [] =>
                      match op_value4 op with
                      | Some (NRaw (TObj ms)) => Ok (mkState4 (DDoc (obj_of ms)) (acc4 st))
                      | Some (NRaw (TArr l)) => Ok (mkState4 (DAry (map child l)) (acc4 st))
                      | Some _ => Err EOther
                      | None => Err EMissing
                      end
                  | Ok path => lift4 (find4 g (r4 st) path (replace_fn4 g (opv4 op))) st (keep_acc st)
                  | Err e => Err e
                  | Panic => Panic
                  end.
Proof. intro K. unfold step4. rewrite K. reflexivity. Qed.

Lemma step4_move g st op : op_kind op = KMove ->
  step4 g st op = match op_str op (B "from") with
                  | Ok from =>
                      lift4 (find4 g (r4 st) from (move_src_fn4 g)) st
                        (fun v c1 =>
                           match op_str op (B "path") with
                           | Ok path => lift4 (find4 g c1 path (add_fn4 g v)) st (keep_acc st)
                           | Err e => Err e
                           | Panic => Panic
                           end)
                  | Err e => Err e
                  | Panic => Panic
                  end.
Proof. intro K. unfold step4. rewrite K. reflexivity. Qed.

Lemma step4_test g st op : op_kind op = KTest ->
  step4 g st op = match op_str op (B "path") with
                  | Ok [] => if node_equal4 (node_of_con4 (r4 st)) (opv4 op) && negb (is_null4 (opv4 op)) then Ok st else Err ETestFailed
                  | Ok path => lift4 (find4 g (r4 st) path (test_fn4 g op)) st (keep_acc st)
                  | Err e => Err e
                  | Panic => Panic
                  end.
Proof. intro K. unfold step4. rewrite K. reflexivity. Qed.

Lemma step4_copy g st op : op_kind op = KCopy ->
  step4 g st op = match op_str op (B "from") with
                  | Ok from =>
                      lift4 (find4 g (r4 st) from (get_fn4 g)) st
                        (fun _ c1 =>
                           match op_str op (B "path") with
                           | Ok path =>
                               match find4 g c1 path unit_fn4 with
                               | (Some _, c2) =>
                                   lift4 (find4 g c2 from (get_fn4 g)) st
                                     (fun v _ =>
                                        let (cp, sz) := deep_copy4 g v in
                                        let acc := (acc4 st + sz)%Z in
                                        if (0 <? g_limit g)%Z && (g_limit g <? acc)%Z then Err (ECopyLimit (g_limit g) acc)
                                        else lift4 (find4 g c2 path (add_fn4 g cp)) st (fun _ c3 => Ok (mkState4 c3 acc)))
                               | (None, _) => Err EMissing
                               end
                           | _ => Err EMissing
                           end)
                  | Err e => Err e
                  | Panic => Panic
                  end.
Proof. intro K. unfold step4. rewrite K. reflexivity. Qed.

Lemma step4_unknown g st op : op_kind op = KUnknown -> step4 g st op = Err EOther.
Proof. intro K. unfold step4. rewrite K. reflexivity. Qed.

Definition step_sim4 (st : state4) (j : Rfc6902.res ojson) (x : res state4) : Prop :=
  match j with
  | ROk j' => exists st', x = Ok st' /\ sval4 st' = j' /\ sgood4 st' /\ acc4 st' = acc4 st
  | RFail cz => exists e, x = Err e /\ cause_rel cz e
  end.

(* what lift4 + keep_acc make of the result of a find *)
Lemma lift4_keep (st : state4) (x : option (res unit) * con4) j : find_sim4 j x -> step_sim4 st j (lift4 x st (keep_acc st)).
Proof.
  destruct j as [j'|cz]; cbn [find_sim4 step_sim4].
  - intros [a [c2 [-> [F2 F3]]]]. exists (mkState4 c2 (acc4 st)). split; [reflexivity|].
    split; [exact F2|]. split; [exact F3 | reflexivity].
  - intros [e [c2 [[->|[-> ->]] F2]]]; exists e + exists EMissing; (split; [reflexivity | exact F2]).
Qed.

Lemma add_find4_sim g c r v :
  cgood4 c -> Forall tok_dom4 (map decode_token (split_slash r)) -> ngood4 v ->
  find_sim4 (at_parent (d4 g) (ptoks r) (cval4 c) (add_leaf (d4 g) (aval4 v))) (find4 g c (x2f :: r) (add_fn4 g v)).
Proof.
  intros G D Gv.
  apply (find4_leaf_sim g c r (add_fn4 g v) (add_leaf (d4 g) (aval4 v)) G D).
  - intros p t Cp. apply (proj1 (leaf_noncontainer (d4 g) p t Cp)).
  - intros cp Gcp _. pose proof (con4_add_sim g cp (path_key r) v Gcp (proj2 (dom_split4 r D)) Gv) as CA.
    unfold add_fn4, leaf_sim4. destruct (add_leaf (d4 g) (aval4 v) (cval4 cp) (path_key r)) as [j'|cz].
    + destruct CA as [cp' [C1 [C2 C3]]]. exists tt, cp'. rewrite C1. auto.
    + destruct CA as [-> [e [C1 C2]]]. exists e, cp. rewrite C1. split; [reflexivity | apply cause_rel_index, C2].
Qed.

Lemma step4_add_sim g st op r :
  sgood4 st -> op_kind op = KAdd ->
  op_str op (B "path") = Ok (x2f :: r) -> Forall tok_dom4 (map decode_token (split_slash r)) -> val_good4 op ->
  step_sim4 st (at_parent (d4 g) (ptoks r) (sval4 st) (add_leaf (d4 g) (ref_value op))) (step4 g st op).
Proof.
  intros G K Hp D Vg. rewrite (step4_add g st op K), Hp.
  apply lift4_keep. rewrite <- opv4_aval. apply add_find4_sim; auto. apply opv4_good; auto.
Qed.

(* the legacy package does not offer add on the whole document *)
Lemma step4_add_root g st op : op_kind op = KAdd -> op_str op (B "path") = Ok [] -> step4 g st op = Err EMissing.
Proof. intros K Hp. rewrite (step4_add g st op K), Hp. reflexivity. Qed.

Lemma step4_remove_sim g st op r :
  sgood4 st -> op_kind op = KRemove ->
  op_str op (B "path") = Ok (x2f :: r) -> Forall tok_dom4 (map decode_token (split_slash r)) ->
  step_sim4 st (at_parent (d4 g) (ptoks r) (sval4 st) (remove_leaf (d4 g))) (step4 g st op).
Proof.
  intros G K Hp D. rewrite (step4_remove g st op K), Hp. apply lift4_keep.
  apply (find4_leaf_sim g (r4 st) r (remove_fn4 g) (remove_leaf (d4 g)) G D).
  - intros p t Cp. apply (proj1 (proj2 (leaf_noncontainer (d4 g) p t Cp))).
  - intros cp Gcp _. pose proof (con4_remove_sim g cp (path_key r) Gcp (proj2 (dom_split4 r D))) as CA.
    unfold remove_fn4, leaf_sim4. destruct (remove_leaf (d4 g) (cval4 cp) (path_key r)) as [j'|cz].
    + destruct CA as [cp' [C1 [C2 C3]]]. exists tt, cp'. rewrite C1. auto.
    + destruct CA as [e [C1 C2]]. exists e, cp. rewrite C1. split; auto.
      destruct C2 as [[-> ->]|[-> C2]]; [reflexivity | apply cause_rel_index, C2].
Qed.

(* what the legacy replace does at the parent: on an object it is the map assignment, whether or
   not the member exists (the documented deviation); on an array it is the reference's replace *)
Definition replace_leaf4 (d : dialect) (v : ojson) (parent : ojson) (t : bytes) : Rfc6902.res ojson :=
  match parent with
  | OObj ms => ROk (OObj (aset t v ms))
  | _ => replace_leaf d v parent t
  end.

Lemma replace_leaf4_agree d v p t :
  replace_leaf d v p t <> RFail FMissingMember -> replace_leaf4 d v p t = replace_leaf d v p t.
Proof. destruct p; try reflexivity. cbn [replace_leaf replace_leaf4]. destruct (amem t ms); [reflexivity | congruence]. Qed.

Lemma replace_leaf4_absent d v p t :
  replace_leaf d v p t = RFail FMissingMember -> replace_leaf4 d v p t = add_leaf d v p t.
Proof.
  destruct p; try discriminate.
  - cbn [replace_leaf]. destruct (idx_existing d (Rfc6902.zlen l) t); discriminate.
  - reflexivity.
Qed.

Lemma replace_leaf4_no_index d v l t :
  child_at d (OArr l) t = None -> replace_leaf4 d v (OArr l) t = RFail FIndex.
Proof. cbn [child_at replace_leaf4 replace_leaf]. destruct (idx_existing d (Rfc6902.zlen l) t); [discriminate | reflexivity]. Qed.

(* set after a successful get (Patch.replace calls get first).  On an object the legacy set is the
   map assignment: the reference's ADD (which is its replace when the member exists) *)
Lemma con4_set_sim g cp key v old :
  cgood4 cp -> tok_dom4 key -> ngood4 v -> con4_get g cp key = Ok old ->
  exists cp', con4_set g cp key v = Ok cp' /\ cgood4 cp' /\
    replace_leaf4 (d4 g) (aval4 v) (cval4 cp) key = ROk (cval4 cp').
Proof.
  intros [(obj & -> & G) | (ns & -> & G)]%cgood4_cases [D Uk] Gv Hg.
  - cbn [con4_set]. eexists. split; [reflexivity|]. split.
    + apply cgood4_doc. apply ogood4_aset; auto.
    + rewrite !cval4_doc. cbn [replace_leaf4]. now rewrite aset_msnd.
  - cbn [con4_get] in Hg.
    destruct (resolve_idx_get (o5 g) (ImplV5.zlen ns) key) as [i| |] eqn:R; try discriminate.
    cbn [con4_set]. rewrite (ary_set_after_get (o5 g) ns key v i R).
    eexists. split; [reflexivity|]. split.
    + apply cgood4_ary. apply Forall_set_at; auto.
    + rewrite !cval4_ary. cbn [replace_leaf4 replace_leaf].
      rewrite (resolve_idx_agrees4 g ns key i D R). now rewrite map_set_at.
Qed.

Lemma step4_replace_sim g st op r :
  sgood4 st -> op_kind op = KReplace ->
  op_str op (B "path") = Ok (x2f :: r) -> Forall tok_dom4 (map decode_token (split_slash r)) -> val_good4 op ->
  step_sim4 st (at_parent (d4 g) (ptoks r) (sval4 st) (replace_leaf4 (d4 g) (ref_value op))) (step4 g st op).
Proof.
  intros G K Hp D Vg. pose proof (opv4_good op Vg) as Gv. pose proof (proj2 (dom_split4 r D)) as Dk.
  rewrite (step4_replace g st op K), Hp. apply lift4_keep.
  apply (find4_leaf_sim g (r4 st) r (replace_fn4 g (opv4 op)) (replace_leaf4 (d4 g) (ref_value op)) G D).
  - intros p t Cp. destruct p; try discriminate; reflexivity.
  - intros cp Gcp _. pose proof (con4_get_sim g cp (path_key r) Gcp Dk) as CG. unfold replace_fn4.
    assert (SetOk : forall old, con4_get g cp (path_key r) = Ok old ->
              leaf_sim4 (replace_leaf4 (d4 g) (ref_value op) (cval4 cp) (path_key r))
                        (upd (con4_set g cp (path_key r) (opv4 op)) cp tt)).
    { intros old H1. unfold leaf_sim4. destruct (con4_set_sim g cp (path_key r) (opv4 op) old Gcp Dk Gv H1) as [cp' [S1 [S2 S3]]].
      rewrite opv4_aval in S3. rewrite S1, S3. exists tt, cp'. auto. }
    destruct (child_at (d4 g) (cval4 cp) (path_key r)) as [j|] eqn:Ech.
    + destruct CG as [old [H1 _]]. rewrite H1. exact (SetOk old H1).
    + destruct (cgood4_cases cp Gcp) as [(obj & -> & _) | (ns & -> & _)].
      * rewrite CG. exact (SetOk NNil CG).
      * destruct CG as [e [H1 H2]]. rewrite H1. unfold leaf_sim4.
        rewrite cval4_ary in Ech |- *. rewrite (replace_leaf4_no_index _ _ _ _ Ech).
        exists EMissing, (DAry ns). split; auto. simpl. auto.
Qed.

(* replace on the whole document: an object or an array takes the place of the document *)
Lemma step4_replace_root_sim g st op t :
  op_kind op = KReplace -> op_str op (B "path") = Ok [] -> aget (B "value") op = Some (Some t) -> raw4 t ->
  if is_container (den t)
  then exists st', step4 g st op = Ok st' /\ sval4 st' = den t /\ sgood4 st' /\ acc4 st' = acc4 st
  else exists e, step4 g st op = Err e /\ plain_err e = true.
Proof.
  intros K Hp Hv R. rewrite (step4_replace g st op K), Hp. unfold op_value4. rewrite Hv.
  destruct t; try (simpl; eexists; split; reflexivity).
  - destruct (parsed4_arr l R) as [P1 P2]. simpl is_container. eexists. split; [reflexivity|]. auto.
  - destruct (parsed4_obj ms R) as [P1 P2]. rewrite <- P1. simpl is_container. eexists. split; [reflexivity|]. auto.
Qed.

Lemma get_leaf_missing_remove d p t :
  get_leaf d p t = RFail FMissingMember -> remove_leaf d p t = RFail FMissingMember.
Proof.
  destruct p; try discriminate; cbn [get_leaf remove_leaf].
  - destruct (idx_existing d (Rfc6902.zlen l) t); discriminate.
  - unfold amem. destruct (aget t ms); [discriminate | reflexivity].
Qed.

Lemma step4_move_sim g st op rf r :
  sgood4 st -> op_kind op = KMove ->
  op_str op (B "from") = Ok (x2f :: rf) -> Forall tok_dom4 (map decode_token (split_slash rf)) ->
  op_str op (B "path") = Ok (x2f :: r) -> Forall tok_dom4 (map decode_token (split_slash r)) ->
  step_sim4 st (v <- get_at (d4 g) (ptoks rf) (sval4 st) ;;
                doc1 <- at_parent (d4 g) (ptoks rf) (sval4 st) (remove_leaf (d4 g)) ;;
                at_parent (d4 g) (ptoks r) doc1 (add_leaf (d4 g) v)) (step4 g st op).
Proof.
  intros G K Hf Df Hp Dp. pose proof (proj2 (dom_split4 rf Df)) as Dk.
  set (c := r4 st) in *. unfold step_sim4, sval4 at 1 2. fold c.
  pose proof (find4_spec g c rf (move_src_fn4 g) G Df) as FS.
  unfold ptoks at 1 2. rewrite move_ref.
  rewrite (step4_move g st op K), Hf. fold c.
  destruct (descend (d4 g) (map decode_token (path_parts rf)) (cval4 c)) as [p|] eqn:Ed.
  2: { destruct FS as [c' [F1 _]]. rewrite F1. exists EMissing. split; reflexivity. }
  destruct (is_container p) eqn:Cp.
  2: { destruct FS as [c' [F1 _]]. rewrite F1.
       rewrite (proj2 (proj2 (proj2 (proj2 (leaf_noncontainer (d4 g) p (path_key rf) Cp))))).
       exists EMissing. split; reflexivity. }
  destruct FS as [cp [back [E1 [E2 [E3 E4]]]]]. rewrite E3. clear E3.
  pose proof (get_leaf4_sim g cp (path_key rf) E2 Dk) as CG. rewrite E1 in CG.
  pose proof (con4_remove_sim g cp (path_key rf) E2 Dk) as CR. rewrite E1 in CR.
  unfold move_src_fn4.
  destruct (get_leaf (d4 g) p (path_key rf)) as [j|cz] eqn:GL.
  - destruct CG as [v [H1 [H2 H3]]]. rewrite H1.
    destruct (get_leaf_remove _ _ _ _ GL) as [p' RL]. rewrite RL in *. destruct CR as [cp' [R1 [R2 R3]]]. rewrite R1. cbn [upd fst snd lift4].
    destruct (E4 cp' R3) as [F1 F2]. rewrite R2 in F1. rewrite Hp.
    pose proof (add_find4_sim g (back cp') r v F2 Dp H3) as AF. rewrite F1, H2 in AF. exact (lift4_keep st _ _ AF).
  - destruct CG as [[-> H1] | [-> [e [H1 H2]]]]; rewrite H1.
    + rewrite (get_leaf_missing_remove _ _ _ GL) in CR. destruct CR as [e [R1 R2]]. rewrite R1. cbn [upd fst snd lift4]. exists e. split; [reflexivity|].
      destruct R2 as [[_ ->]|[R2 _]]; [reflexivity | discriminate].
    + exists e. split; [reflexivity | apply cause_rel_index, H2].
Qed.

(* ---- the legacy Equal (strings by spelling) decides structural equality on plain spellings ---- *)
(* V4EqualFacts.v proves it for nodes with distinct member names, well-formed number literals and
   strings spelled as they decode: the invariant has all three *)
Lemma tplain_spelled t : tplain t -> V4EqualFacts.tplain t = true.
Proof.
  induction t using tjson_rect'; intro P; try reflexivity.
  - destruct P as [P _]. cbn [V4EqualFacts.tplain]. rewrite P. apply bseq_refl.
  - apply tplain_arr in P. cbn [V4EqualFacts.tplain]. apply forallb_forall. rewrite Forall_forall in *. intros x Hx. apply (H x Hx), (P x Hx).
  - apply tplain_obj in P. cbn [V4EqualFacts.tplain]. apply forallb_forall. rewrite Forall_forall in *. intros kv Hk. apply (H kv Hk), (P kv Hk).
Qed.

Lemma ngood4_cmp_ok n : ngood4 n -> V4EqualFacts.cmp_ok true n.
Proof.
  induction n using node_rect'; intro G.
  - repeat split.
  - destruct G as [T [L [P _]]]. split; [exact T|]. split; [exact L|]. intros _. exact (tplain_spelled t P).
  - apply ngood4_doc in G as [-> [N [_ Gs]]]. rewrite Forall_forall in H, Gs.
    split; [apply V4MergeFacts.nwf4_doc; split; [reflexivity|]; split; [exact N|] | split; [apply EqualFacts.nlit_doc | intros _; apply V4EqualFacts.nplain_doc]];
      apply Forall_forall; intros kv Hk; apply (H kv Hk (Gs kv Hk)); reflexivity.
  - apply ngood4_ary in G. rewrite Forall_forall in H, G.
    split; [apply V4MergeFacts.nwf4_ary | split; [apply EqualFacts.nlit_ary | intros _; apply V4EqualFacts.nplain_ary]];
      apply Forall_forall; intros x Hx; apply (H x Hx (G x Hx)); reflexivity.
Qed.

(* isNull (nil node, nil raw message; the raw text null is not in the invariant) is: the value is null *)
Lemma null4_onull n : ngood4 n -> null4 n = onull (aval4 n).
Proof. intro G. exact (V4EqualFacts.null4_onull n (proj1 (ngood4_cmp_ok n G))). Qed.

(* n == nil implies that; the converse fails exactly for the operation value null (raw_nil4) *)
Lemma is_null4_null4 n : is_null4 n = true -> n = NNil.
Proof. destruct n; try discriminate. reflexivity. Qed.

Theorem equal4_spec : forall fuel n o,
  (nsize n + nsize o <= fuel)%nat -> ngood4 n -> ngood4 o -> equal4 fuel n o = jeq (aval4 n) (aval4 o).
Proof. intros fuel n o Hf Gn Go. exact (V4EqualFacts.equal4_spec fuel n o Hf (ngood4_cmp_ok n Gn) (ngood4_cmp_ok o Go)). Qed.

Theorem node_equal4_spec n o : ngood4 n -> ngood4 o -> node_equal4 n o = jeq (aval4 n) (aval4 o).
Proof. intros. unfold node_equal4. apply equal4_spec; auto. Qed.

Lemma test_value_rel4 v ov : ngood4 v -> ngood4 ov ->
  jeq (aval4 v) (aval4 ov) =
  if null4 v then null4 ov else if null4 ov then false else node_equal4 v ov.
Proof.
  intros Gv Go. rewrite (null4_onull v Gv), (null4_onull ov Go).
  destruct (onull (aval4 v)) eqn:N1.
  - destruct (aval4 v); try discriminate. apply jeq_null_l.
  - destruct (onull (aval4 ov)) eqn:N2.
    + destruct (aval4 ov); try discriminate. rewrite jeq_null_r. exact N1.
    + symmetry. apply node_equal4_spec; auto.
Qed.

(* a test WITHOUT value member against a member that is there: the package compares the nil
   pointer, and fails on the operation value null (a non-nil node), where the reference compares
   null = null.  The leaf lemma therefore asks for a value member unless the member is absent. *)
Definition has_value4 (op : operation) : Prop := aget (B "value") op <> None.

Lemma test_leaf4_sim g op cp key :
  cgood4 cp -> tok_dom4 key -> val_good4 op ->
  (has_value4 op \/ child_at (d4 g) (cval4 cp) key = None) ->
  leaf_sim4 (test_leaf (d4 g) (ref_value op) (cval4 cp) key) (test_fn4 g op cp key).
Proof.
  intros G D Vg HV. pose proof (opv4_good op Vg) as Go. pose proof (con4_get_sim g cp key G D) as CG.
  unfold test_fn4. rewrite <- opv4_aval.
  (* the comparison the legacy code makes on the node it read *)
  assert (CmpNil :
            (if is_null4 NNil then ((if null4 (opv4 op) then Ok tt else Err ETestFailed), cp)
             else match op_value4 op with
                  | None => (Err ETestFailed, cp)
                  | Some ov => ((if node_equal4 NNil ov then Ok tt else Err ETestFailed), cp)
                  end) = ((if jeq (aval4 NNil) (aval4 (opv4 op)) then Ok tt else Err ETestFailed), cp)).
  { cbn [is_null4 aval4]. rewrite jeq_null_l, (null4_onull _ Go). reflexivity. }
  assert (Cmp : has_value4 op -> forall v, ngood4 v ->
            (if is_null4 v then ((if null4 (opv4 op) then Ok tt else Err ETestFailed), cp)
             else match op_value4 op with
                  | None => (Err ETestFailed, cp)
                  | Some ov => ((if node_equal4 v ov then Ok tt else Err ETestFailed), cp)
                  end) = ((if jeq (aval4 v) (aval4 (opv4 op)) then Ok tt else Err ETestFailed), cp)).
  { intros Hv v Gv. destruct (is_null4 v) eqn:Nv.
    - apply is_null4_null4 in Nv. subst v. exact CmpNil.
    - unfold opv4 in *. destruct (op_value4 op) as [ov|] eqn:Eo.
      + rewrite (node_equal4_spec v ov Gv Go). reflexivity.
      + exfalso. apply Hv. unfold op_value4 in Eo. destruct (aget (B "value") op) as [[t|]|]; [discriminate | discriminate | reflexivity]. }
  assert (Fin : forall x, (if jeq x (aval4 (opv4 op)) then ROk (cval4 cp) else RFail FTest) =
                          test_leaf (d4 g) (aval4 (opv4 op)) (cval4 cp) key ->
                forall v, aval4 v = x ->
                leaf_sim4 (test_leaf (d4 g) (aval4 (opv4 op)) (cval4 cp) key)
                          ((if jeq (aval4 v) (aval4 (opv4 op)) then Ok tt else Err ETestFailed), cp)).
  { intros x TL v Ev. rewrite <- TL, Ev. destruct (jeq x (aval4 (opv4 op))).
    - exists tt, cp. auto.
    - exists ETestFailed, cp. split; reflexivity. }
  destruct (child_at (d4 g) (cval4 cp) key) as [j|] eqn:Ech.
  - assert (Hv : has_value4 op) by (destruct HV as [Hv|Hv]; [exact Hv | discriminate]).
    destruct CG as [v [H1 [H2 H3]]]. rewrite H1, (Cmp Hv v H3). apply (Fin j); [|exact H2].
    symmetry. apply (leaf_child _ _ _ _ Ech).
  - destruct (cgood4_cases cp G) as [(obj & -> & _) | (ns & -> & _)].
    + rewrite CG, CmpNil. apply (Fin ONull); [|reflexivity].
      rewrite cval4_doc in Ech |- *. cbn [child_at test_leaf] in Ech |- *. rewrite Ech. reflexivity.
    + destruct CG as [e [H1 H2]]. rewrite H1. unfold leaf_sim4.
      rewrite cval4_ary in Ech |- *. cbn [child_at test_leaf] in Ech |- *.
      destruct (idx_existing (d4 g) (Rfc6902.zlen (map aval4 ns)) key); try discriminate.
      exists e, (DAry ns). split; [reflexivity | apply cause_rel_index, H2].
Qed.

Lemma step4_test_sim g st op r :
  sgood4 st -> op_kind op = KTest ->
  op_str op (B "path") = Ok (x2f :: r) -> Forall tok_dom4 (map decode_token (split_slash r)) -> val_good4 op ->
  (has_value4 op \/
   forall p, descend (d4 g) (map decode_token (path_parts r)) (sval4 st) = Some p -> child_at (d4 g) p (path_key r) = None) ->
  step_sim4 st (at_parent (d4 g) (ptoks r) (sval4 st) (test_leaf (d4 g) (ref_value op))) (step4 g st op).
Proof.
  intros G K Hp D Vg HV. rewrite (step4_test g st op K), Hp. apply lift4_keep.
  apply (find4_leaf_sim g (r4 st) r (test_fn4 g op) (test_leaf (d4 g) (ref_value op)) G D).
  - intros p t Cp. apply (proj1 (proj2 (proj2 (proj2 (leaf_noncontainer (d4 g) p t Cp))))).
  - intros cp Gcp Ed. apply test_leaf4_sim; auto; [apply (proj2 (dom_split4 r D))|].
    destruct HV as [Hv|Ha]; [left; exact Hv | right; apply Ha; exact Ed].
Qed.

Lemma step4_test_root_sim g st op :
  sgood4 st -> op_kind op = KTest -> op_str op (B "path") = Ok [] -> val_good4 op ->
  step4 g st op = if jeq (sval4 st) (ref_value op) then Ok st else Err ETestFailed.
Proof.
  intros G K Hp Vg. pose proof (opv4_good op Vg) as Go. rewrite (step4_test g st op K), Hp.
  rewrite (node_equal4_spec _ _ (proj1 G) Go).
  fold (cval4 (r4 st)). fold (sval4 st).
  pose proof (cgood4_container (r4 st) G) as Cc. fold (sval4 st) in Cc.
  pose proof (opv4_aval op) as Ev. rewrite <- Ev.
  destruct (opv4 op) as [|t|ks obj|ns]; cbn [is_null4 negb]; rewrite ?andb_true_r; try reflexivity.
  cbn [aval4]. rewrite andb_false_r, jeq_null_r. destruct (sval4 st); try discriminate; reflexivity.
Qed.

(* ---- the reference with the documented legacy deviations ---- *)
(* The legacy package differs from RFC 6902 where the reference reports an absent object
   member (FMissingMember) for a replace or a copy: a replace of an absent member adds it; a copy
   whose source member is absent copies null (get reads an absent member as nil).  These two are
   built into rfc4_step.  A THIRD deviation is excluded by hypothesis instead (copy_clean4 /
   no_null_copy4 below): a copy of a null that the patch itself wrote is stored as the raw text null,
   and a later path through it is walked like an empty object (ImplV4.raw_null4, V4NullWalk.v). *)
Definition as_add (o : rop) (v : option ojson) : rop := mkRop OpAdd (rpath o) (rfrom o) v.

Definition rfc4_step (d : dialect) (doc : ojson) (o : rop) : Rfc6902.res ojson :=
  match rfc_step d doc o with
  | RFail FMissingMember =>
      match rkind o with
      | OpReplace => rfc_step d doc (as_add o (rvalue o))
      | OpCopy => rfc_step d doc (as_add o (Some ONull))
      | _ => RFail FMissingMember
      end
  | r => r
  end.

Lemma rfc4_step_agree d doc o :
  (rfc_step d doc o = RFail FMissingMember -> rkind o <> OpReplace /\ rkind o <> OpCopy) ->
  rfc4_step d doc o = rfc_step d doc o.
Proof.
  intro H. unfold rfc4_step. destruct (rfc_step d doc o) as [j|cz] eqn:E; auto.
  destruct cz; auto. destruct (H eq_refl) as [H1 H2]. destruct (rkind o); congruence.
Qed.

Lemma rfc4_step_ok d doc o j : rfc_step d doc o = ROk j -> rfc4_step d doc o = ROk j.
Proof. intro H. unfold rfc4_step. rewrite H. reflexivity. Qed.

Lemma at_parent_replace4 d ps t doc v :
  at_parent d (ps ++ [t]) doc (replace_leaf4 d v) =
  match at_parent d (ps ++ [t]) doc (replace_leaf d v) with
  | RFail FMissingMember => at_parent d (ps ++ [t]) doc (add_leaf d v)
  | r => r
  end.
Proof.
  rewrite !at_parent_snoc. destruct (descend d ps doc) as [p|]; [|reflexivity].
  destruct p; try reflexivity.
  - cbn [replace_leaf4 replace_leaf]. destruct (idx_existing d (Rfc6902.zlen l) t); reflexivity.
  - cbn [replace_leaf4 replace_leaf add_leaf]. destruct (amem t ms); reflexivity.
Qed.

(* the deviating reference differs for replace and copy only *)
Definition deviates (k : opkind) : bool := match k with OpReplace | OpCopy => true | _ => false end.

Lemma rfc4_step_other d doc o : deviates (rkind o) = false -> rfc4_step d doc o = rfc_step d doc o.
Proof. intro H. unfold rfc4_step. destruct (rfc_step d doc o) as [j|[]]; try reflexivity. destruct (rkind o); try reflexivity; discriminate. Qed.

Lemma rfc_step_as_add d doc op r v :
  op_str op (B "path") = Ok (x2f :: r) ->
  rfc_step d doc (as_add (den_op op) v) = at_parent d (ptoks r) doc (add_leaf d (value_or_null v)).
Proof.
  intro Hp. unfold rfc_step, as_add, den_op, rfc_add. cbn [rkind rpath rvalue]. rewrite Hp. cbn [str_or_empty].
  rewrite ptr_tokens_slash. fold (ptoks r). apply match_ptoks.
Qed.

Lemma rfc4_replace_slash d doc op r :
  op_kind op = KReplace -> op_str op (B "path") = Ok (x2f :: r) ->
  rfc4_step d doc (den_op op) = at_parent d (ptoks r) doc (replace_leaf4 d (ref_value op)).
Proof.
  intros K Hp. unfold ptoks at 1. rewrite at_parent_replace4. fold (ptoks r). unfold rfc4_step.
  rewrite (rfc_step_slash d doc op r Hp), K.
  destruct (at_parent d (ptoks r) doc (replace_leaf d (ref_value op))) as [j|[]]; try reflexivity.
  unfold den_op at 1. cbn [rkind]. rewrite K. cbn [ref_kind]. rewrite (rfc_step_as_add d doc op r _ Hp), ref_value_den_op. reflexivity.
Qed.

(* ---- the domain of the legacy theorems, on a decoded operation ---- *)
Definition ptr_ok4 (p : bytes) : Prop := exists r, p = x2f :: r /\ Forall tok_dom4 (map decode_token (split_slash r)).

Lemma ptr_ok4_iff p : ptr_ok4 p <-> ptr_ok p.
Proof.
  split; intros (r & -> & F); exists r; (split; [reflexivity|]); revert F; apply Forall_impl; intro t; apply tok_dom4_iff.
Qed.

Definition op_dom4 (op : operation) : Prop :=
  val_good4 op /\
  exists path, op_str op (B "path") = Ok path /\
    match op_kind op with
    | KAdd | KRemove => ptr_ok4 path
    | KReplace => ptr_ok4 path \/ (path = [] /\ exists t, aget (B "value") op = Some (Some t))
    | KTest => (ptr_ok4 path /\ has_value4 op) \/ path = []   (* RFC 6902: test MUST carry a value; without one the
                                                                 package fails on a member holding the operation value null *)
    | KMove | KCopy => ptr_ok4 path /\ exists from, op_str op (B "from") = Ok from /\ ptr_ok4 from
    | KUnknown => False
    end.

Lemma bind_nonempty {B} (l : list bytes) (a b : B) : l <> [] -> match l with [] => a | _ :: _ => b end = b.
Proof. exact (match_nonempty l a b). Qed.

(* every operation but copy: the legacy step computes exactly the deviating reference *)
Theorem step4_sim_nocopy g st op :
  sgood4 st -> op_dom4 op -> op_kind op <> KCopy ->
  step_sim4 st (rfc4_step (d4 g) (sval4 st) (den_op op)) (step4 g st op).
Proof.
  intros G [Vg [path [Hp K]]] NC.
  assert (RK : rkind (den_op op) = ref_kind (op_kind op)) by reflexivity.
  destruct (op_kind op) eqn:Ek; try contradiction; try congruence.
  - destruct K as [r [-> D]]. rewrite rfc4_step_other, (rfc_step_slash _ _ _ _ Hp), Ek by (rewrite RK; reflexivity).
    exact (step4_add_sim g st op r G Ek Hp D Vg).
  - destruct K as [r [-> D]]. rewrite rfc4_step_other, (rfc_step_slash _ _ _ _ Hp), Ek by (rewrite RK; reflexivity).
    exact (step4_remove_sim g st op r G Ek Hp D).
  - destruct K as [[r [-> D]]|[-> [t Hv]]].
    + rewrite (rfc4_replace_slash _ _ _ _ Ek Hp). exact (step4_replace_sim g st op r G Ek Hp D Vg).
    + unfold rfc4_step, rfc_step, den_op. cbn [rpath rkind rvalue]. rewrite Hp, Ek, Hv. cbn [str_or_empty ptr_tokens ref_kind value_or_null].
      unfold val_good4 in Vg. rewrite Hv in Vg.
      pose proof (step4_replace_root_sim g st op t Ek Hp Hv Vg) as S.
      destruct (is_container (den t)); exact S.
  - destruct K as [[r [-> D]] [from [Hf [rf [-> Df]]]]].
    rewrite rfc4_step_other, (rfc_step_slash _ _ _ _ Hp), Ek, (from_toks_slash _ _ Hf) by (rewrite RK; reflexivity).
    pose proof (ptoks_nonempty rf) as NE. destruct (ptoks rf) eqn:E; [congruence|]. rewrite <- E.
    exact (step4_move_sim g st op rf r G Ek Hf Df Hp D).
  - destruct K as [[[r [-> D]] Hv]| ->].
    + rewrite rfc4_step_other, (rfc_step_slash _ _ _ _ Hp), Ek by (rewrite RK; reflexivity).
      exact (step4_test_sim g st op r G Ek Hp D Vg (or_introl Hv)).
    + rewrite rfc4_step_other by (rewrite RK; reflexivity).
      unfold rfc_step, den_op. cbn [rpath rkind rvalue]. rewrite Hp, Ek. cbn [str_or_empty ptr_tokens ref_kind].
      fold (ref_value op). change (value_or_null _) with (value_or_null (rvalue (den_op op))). rewrite ref_value_den_op.
      rewrite (step4_test_root_sim g st op G Ek Hp Vg).
      destruct (jeq (sval4 st) (ref_value op)); [exists st; auto | exists ETestFailed; split; reflexivity].
Qed.

Fixpoint rfc4_apply_from (d : dialect) (i : nat) (doc : ojson) (p : list rop) : outcome :=
  match p with
  | [] => Done doc
  | o :: rest =>
      match rfc4_step d doc o with
      | ROk doc' => rfc4_apply_from d (S i) doc' rest
      | RFail c => Failed i c
      end
  end.

(* the patch avoids the deviations: the reference run never reports an absent member for a replace
   or a copy (in particular: every patch the reference evaluates successfully) *)
Fixpoint no_deviation (d : dialect) (doc : ojson) (p : list rop) : bool :=
  match p with
  | [] => true
  | o :: rest =>
      match rfc_step d doc o with
      | ROk doc' => no_deviation d doc' rest
      | RFail FMissingMember => negb (deviates (rkind o))
      | RFail _ => true
      end
  end.

Lemma rfc4_apply_agree d p : forall i doc,
  no_deviation d doc p = true -> rfc4_apply_from d i doc p = rfc_apply_from d i doc p.
Proof.
  induction p as [|o p IH]; intros i doc H; [reflexivity|]. cbn [rfc4_apply_from rfc_apply_from no_deviation] in *.
  rewrite rfc4_step_agree.
  - destruct (rfc_step d doc o) as [doc'|cz]; [apply IH; exact H | reflexivity].
  - intro E. rewrite E in H. destruct (rkind o); try discriminate; split; discriminate.
Qed.

Lemma done_no_deviation d p : forall i doc j, rfc_apply_from d i doc p = Done j -> no_deviation d doc p = true.
Proof.
  induction p as [|o p IH]; intros i doc j H; [reflexivity|]. cbn [rfc_apply_from no_deviation] in *.
  destruct (rfc_step d doc o) as [doc'|cz]; [eapply IH; eauto | discriminate].
Qed.

(* a failure that is not the absent member of a replace/copy is no deviation either *)
Lemma failed_no_deviation d p : forall i doc j cz,
  rfc_apply_from d i doc p = Failed j cz -> cz <> FMissingMember -> no_deviation d doc p = true.
Proof.
  induction p as [|o p IH]; intros i doc j cz H NM; [reflexivity|]. cbn [rfc_apply_from no_deviation] in *.
  destruct (rfc_step d doc o) as [doc'|cz']; [eapply IH; eauto|]. inversion H; subst. destruct cz; congruence.
Qed.

Definition no_copy (p : list operation) : Prop := Forall (fun op => op_kind op <> KCopy) p.

Theorem apply4_sim_nocopy g : forall p i st,
  sgood4 st -> Forall op_dom4 p -> no_copy p ->
  match rfc4_apply_from (d4 g) i (sval4 st) (map den_op p) with
  | Done doc => exists st', apply4_from g i st p = (Ok st', (i + length p)%nat) /\ sval4 st' = doc /\ sgood4 st' /\ acc4 st' = acc4 st
  | Failed j cz => exists e, apply4_from g i st p = (Err e, j) /\ cause_rel cz e
  end.
Proof.
  induction p as [|op p IH]; intros i st G D NC; cbn [map rfc4_apply_from apply4_from length].
  - exists st. rewrite Nat.add_0_r. auto.
  - inversion D as [|? ? Dop Dp]; subst. inversion NC as [|? ? Cop Cp]; subst.
    pose proof (step4_sim_nocopy g st op G Dop Cop) as S.
    destruct (rfc4_step (d4 g) (sval4 st) (den_op op)) as [j'|cz].
    + destruct S as [st' [S1 [S2 [S3 S4]]]]. rewrite S1. specialize (IH (S i) st' S3 Dp Cp). rewrite S2 in IH.
      destruct (rfc4_apply_from (d4 g) (S i) j' (map den_op p)) as [doc|j cz].
      * destruct IH as [st2 [I1 [I2 [I3 I4]]]]. exists st2. rewrite I1. replace (S i + length p)%nat with (i + S (length p))%nat by lia.
        split; [reflexivity|]. split; [exact I2|]. split; [exact I3 | congruence].
      * exact IH.
    + destruct S as [e [S1 S2]]. rewrite S1. eauto.
Qed.

(* against RFC 6902 itself, for patches that avoid the deviations *)
Theorem apply4_rfc_nocopy g p i st :
  sgood4 st -> Forall op_dom4 p -> no_copy p -> no_deviation (d4 g) (sval4 st) (map den_op p) = true ->
  match rfc_apply_from (d4 g) i (sval4 st) (map den_op p) with
  | Done doc => exists st', apply4_from g i st p = (Ok st', (i + length p)%nat) /\ sval4 st' = doc /\ sgood4 st' /\ acc4 st' = acc4 st
  | Failed j cz => exists e, apply4_from g i st p = (Err e, j) /\ cause_rel cz e
  end.
Proof.
  intros G D NC ND. rewrite <- (rfc4_apply_agree (d4 g) (map den_op p) i (sval4 st) ND).
  apply apply4_sim_nocopy; auto.
Qed.

From JP Require Import ParseFacts.

Definition output4 (indent : bytes) (t : tjson) : bytes :=
  match indent with [] => print true t | _ => pp true indent 0 t end.

(* the container Apply decodes the document into *)
Definition api_start4 (t : tjson) : option con4 :=
  match t with
  | TObj ms => Some (DDoc (obj_of ms))
  | TArr l => Some (DAry (map child l))
  | TNull => Some DDocNil
  | _ => None
  end.

Lemma start4_good t :
  root_container t = true -> raw4 t ->
  exists c, match t with
            | TObj ms => Some (DDoc (obj_of ms))
            | TArr l => Some (DAry (map child l))
            | TNull => Some DDocNil
            | _ => None
            end = Some c /\ cgood4 c /\ cval4 c = den t.
Proof.
  intros RC R. destruct t; try discriminate.
  - destruct (parsed4_arr l R) as [P1 P2]. eauto.
  - destruct (parsed4_obj ms R) as [P1 P2]. eauto.
Qed.

(* Apply: the document is decoded into a container, the operations run from it, the container left is encoded *)
Lemma api_apply4_eq g indent p b doc t : parse (b :: doc) = Some t ->
  api_apply4 g indent p (b :: doc) =
  match api_start4 t with
  | None => Err4 None EDecode
  | Some c =>
      match apply4_from g 0 (mkState4 c 0) p with
      | (Ok st, _) => Out4 (output4 indent (match r4 st with DDocNil => TNull | c' => render4 (node_of_con4 c') end))
      | (Err e, i) => Err4 (Some i) e
      | (Panic, _) => Panic4
      end
  end.
Proof.
  intro Pd. unfold api_apply4. rewrite Pd. cbv zeta.
  destruct t; try reflexivity;
    match goal with |- match ?a with _ => _ end = _ => destruct a as [[st|e|] i]; try reflexivity end;
    cbn [r4]; destruct (r4 st); reflexivity.
Qed.

(* ... in the domain of the simulation: the container Apply starts from, what it returns for a run that ends in a
   good state, and for a run that fails *)
Lemma api_apply4_loop g indent p doc t :
  parse doc = Some t -> root_container t = true -> tnodup t = true -> tplain t -> tkeys t ->
  exists c, api_start4 t = Some c /\ cgood4 c /\ cval4 c = den t /\
    (forall st' k, apply4_from g 0 (mkState4 c 0) p = (Ok st', k) -> sgood4 st' ->
       api_apply4 g indent p doc = Out4 (output4 indent (render4 (node_of_con4 (r4 st')))) /\
       aval4 (node_of_con4 (r4 st')) = sval4 st' /\ ngood4 (node_of_con4 (r4 st'))) /\
    (forall e k, apply4_from g 0 (mkState4 c 0) p = (Err e, k) -> api_apply4 g indent p doc = Err4 (Some k) e).
Proof.
  intros P RC T Pl Ks. destruct doc as [|b doc]; [rewrite parse_nil in P; discriminate|].
  assert (R : raw4 t) by (split; [destruct t; discriminate | repeat split; auto; exact (parse_tlit _ _ P)]).
  destruct (start4_good t RC R) as [c [S1 [S2 S3]]]. exists c. split; [exact S1|]. split; [exact S2|]. split; [exact S3|].
  rewrite (api_apply4_eq g indent p b doc t P). fold (api_start4 t) in S1. rewrite S1. split.
  - intros st' k A [G NN]. rewrite A. split; [|split; [reflexivity | exact G]].
    destruct (r4 st'); [reflexivity | congruence | reflexivity].
  - intros e k A. rewrite A. reflexivity.
Qed.

Theorem api_apply4_sim_nocopy g indent p doc t :
  parse doc = Some t -> root_container t = true -> tnodup t = true -> tplain t -> tkeys t ->
  Forall op_dom4 p -> no_copy p -> no_deviation (d4 g) (den t) (map den_op p) = true ->
  match rfc_apply (d4 g) (den t) (map den_op p) with
  | Done j => exists n, api_apply4 g indent p doc = Out4 (output4 indent (render4 n)) /\ aval4 n = j /\ ngood4 n
  | Failed i cz => exists e, api_apply4 g indent p doc = Err4 (Some i) e /\ cause_rel cz e
  end.
Proof.
  intros P RC T Pl Ks D NC ND. destruct (api_apply4_loop g indent p doc t P RC T Pl Ks) as [c [_ [S2 [S3 [BO BE]]]]].
  pose proof (apply4_rfc_nocopy g p 0%nat (mkState4 c 0) S2 D NC) as AS.
  rewrite sval4_mk, S3 in AS. specialize (AS ND). unfold rfc_apply.
  destruct (rfc_apply_from (d4 g) 0 (den t) (map den_op p)) as [j|i cz].
  - destruct AS as [st' [A1 [A2 [A3 _]]]]. destruct (BO st' _ A1 A3) as [E [V N]]. exists (node_of_con4 (r4 st')). split; [exact E|]. split; [congruence | exact N].
  - destruct AS as [e [A1 A2]]. exists e. split; [exact (BE e i A1) | exact A2].
Qed.

(* values up to member order: structural equality of values without duplicate names *)
Definition veq (a b : ojson) : Prop := jeq a b = true /\ onodup a = true /\ onodup b = true.

Lemma veq_refl a : onodup a = true -> veq a a.
Proof. intro N. split; [apply jeq_refl; exact N | auto]. Qed.

Lemma veq_sym a b : veq a b -> veq b a.
Proof. intros [J [Na Nb]]. split; [apply jeq_sym; auto | auto]. Qed.

Lemma veq_trans a b c : veq a b -> veq b c -> veq a c.
Proof. intros [J1 [Na Nb]] [J2 [_ Nc]]. split; [exact (jeq_trans a b c Na Nb Nc J1 J2) | auto]. Qed.

Lemma veq_eq a b : a = b -> onodup a = true -> veq a b.
Proof. intros <- N. apply veq_refl. exact N. Qed.

(* ================= copy ================= *)
(* deepCopy marshals the node (members of a parsed object sorted by name, names and strings
   HTML-escaped) and stores the bytes as a fresh raw message.  The value is the same up to member
   order (jeq), and the new raw message satisfies the invariant. *)

Definition sort4 {A} (l : list (bytes * A)) : list (bytes * A) :=
  fold_left (fun acc kv => insert_sorted kv acc) l [].

Lemma insert_sorted_msnd {A B} (f : A -> B) kv l :
  msnd f (insert_sorted kv l) = insert_sorted (fst kv, f (snd kv)) (msnd f l).
Proof.
  induction l as [|kv' r IH]; cbn [insert_sorted msnd map fst snd]; [reflexivity|].
  destruct (bytes_ltb (fst kv) (fst kv')); [reflexivity|].
  destruct (bseq (fst kv) (fst kv')); [reflexivity|]. cbn [map]. f_equal. exact IH.
Qed.

Lemma fold_insert_msnd {A B} (f : A -> B) l : forall acc,
  msnd f (fold_left (fun acc kv => insert_sorted kv acc) l acc) =
  fold_left (fun acc kv => insert_sorted kv acc) (msnd f l) (msnd f acc).
Proof.
  induction l as [|kv l IH]; intro acc; [reflexivity|].
  change (msnd f (kv :: l)) with ((fst kv, f (snd kv)) :: msnd f l). cbn [fold_left].
  rewrite IH, insert_sorted_msnd. reflexivity.
Qed.

Lemma sort4_msnd {A B} (f : A -> B) l : msnd f (sort4 l) = sort4 (msnd f l).
Proof. unfold sort4. exact (fold_insert_msnd f l []). Qed.

(* ---- HTML escaping of a good raw message ---- *)
Lemma escape_plain t : tplain t -> tkeys t ->
  den (escape_tree true t) = den t /\ tplain (escape_tree true t) /\ tkeys (escape_tree true t).
Proof.
  induction t using tjson_rect'; intros P K; try (split; [reflexivity | split; assumption]).
  - rewrite escape_tree_true. destruct P as [P1 P2]. rewrite P2. repeat split; assumption.
  - rewrite escape_tree_true. apply tplain_arr in P. apply tkeys_arr in K. rewrite Forall_forall in H, P, K.
    split; [cbn [den]; f_equal; rewrite map_map; apply map_ext_in; intros x Hx; apply (H x Hx); auto|].
    split; [apply tplain_arr | apply tkeys_arr]; rewrite Forall_map; apply Forall_forall; intros x Hx; apply (H x Hx); auto.
  - rewrite escape_tree_true. apply tplain_obj in P. apply tkeys_obj in K. rewrite Forall_forall in H, P, K.
    assert (IH : forall kv, In kv ms -> den (escape_tree true (snd kv)) = den (snd kv) /\
                                          tplain (escape_tree true (snd kv)) /\ tkeys (escape_tree true (snd kv)))
      by (intros kv Hk; apply (H kv Hk); [apply (P kv Hk) | apply (K kv Hk)]).
    split; [cbn [den]; f_equal; f_equal; rewrite map_map; apply map_ext_in; intros kv Hk; cbn [fst snd];
            f_equal; [exact (proj1 (proj1 (K kv Hk))) | apply (IH kv Hk)]|].
    split; [apply tplain_obj | apply tkeys_obj]; rewrite Forall_map; apply Forall_forall; intros kv Hk; cbn [fst snd];
      [apply (IH kv Hk) | split; [|apply (IH kv Hk)]].
    destruct (K kv Hk) as [[K1 K2] _]. split; [rewrite he_idem; reflexivity | rewrite K1; exact K2].
Qed.

Lemma forallb_map_in {A B} (f : B -> bool) (h : A -> B) (f' : A -> bool) l :
  (forall x, In x l -> f (h x) = f' x) -> forallb f (map h l) = forallb f' l.
Proof.
  induction l as [|x l IH]; intro H; [reflexivity|]. cbn [map forallb].
  rewrite (H x (or_introl eq_refl)), IH; [reflexivity|]. intros y Hy. apply H. now right.
Qed.

Lemma escape_tplain t : tplain t -> tplain (escape_tree true t).
Proof.
  induction t using tjson_rect'; intro P; try exact P.
  - rewrite escape_tree_true. pose proof P as [_ P2]. unfold tplain, splain in *. rewrite P2. exact P.
  - rewrite escape_tree_true. apply tplain_arr. apply tplain_arr in P. rewrite Forall_map.
    rewrite Forall_forall in *. intros x Hx. apply (H x Hx). apply (P x Hx).
  - rewrite escape_tree_true. apply tplain_obj. apply tplain_obj in P. rewrite Forall_map.
    rewrite Forall_forall in *. intros kv Hk. cbn [snd]. apply (H kv Hk). apply (P kv Hk).
Qed.

Lemma escape_tkeys t : tkeys t -> tkeys (escape_tree true t).
Proof.
  induction t using tjson_rect'; intro K; try exact K.
  - rewrite escape_tree_true. apply tkeys_arr. apply tkeys_arr in K. rewrite Forall_map.
    rewrite Forall_forall in *. intros x Hx. apply (H x Hx). apply (K x Hx).
  - rewrite escape_tree_true. apply tkeys_obj. apply tkeys_obj in K. rewrite Forall_map.
    rewrite Forall_forall in *. intros kv Hk. cbn [fst snd]. destruct (K kv Hk) as [[K1 K2] K3]. split.
    + split; [rewrite he_idem; reflexivity | rewrite K1; exact K2].
    + apply (H kv Hk). exact K3.
Qed.

Lemma escape_rawok t : rawok t -> rawok (escape_tree true t) /\ den (escape_tree true t) = den t.
Proof.
  intros [T [L [P K]]]. destruct (escape_plain t P K) as [D [P' K']]. split; [|exact D].
  split; [unfold tnodup in *; rewrite D; exact T|]. split; [rewrite StrInv.escape_tree_tlit; exact L|]. split; assumption.
Qed.

Lemma escape_nonnull t : t <> TNull -> escape_tree true t <> TNull.
Proof. intro N. rewrite escape_tree_true. destruct t; congruence. Qed.

Lemma ngood4_onodup n : ngood4 n -> onodup (aval4 n) = true.
Proof. intro G. exact (V4MergeFacts.nwf4_onodup n (proj1 (ngood4_cmp_ok n G))). Qed.

Definition enc4 (v : node) : tjson := escape_tree true (render4 v).

Lemma render4_doc obj :
  render4 (NDoc [] obj) =
  TObj (map (fun kv => (quote true (fst kv), snd kv)) (sort4 (msnd render4 obj))).
Proof. exact (V4MergeFacts.render4_doc obj). Qed.

Lemma enc4_doc obj :
  Forall utf8 (map fst obj) -> NoDup (map fst obj) ->
  enc4 (NDoc [] obj) = TObj (map (fun kv => (quote true (fst kv), snd kv)) (sort4 (msnd enc4 obj))).
Proof.
  intros _ _. unfold enc4 at 1. rewrite render4_doc, escape_tree_true, map_map. cbn [fst snd].
  assert (E : msnd enc4 obj = msnd (escape_tree true) (msnd render4 obj)) by (unfold msnd; rewrite map_map; reflexivity).
  rewrite E, <- (sort4_msnd (escape_tree true) (msnd render4 obj)).
  unfold msnd at 2. rewrite map_map. cbn [fst snd].
  apply f_equal, map_ext. intro kv. f_equal. apply Codec.he_quote.
Qed.

(* what the encoder writes for a node of the invariant is a raw message of the invariant with the
   node's value, members reordered (sorted by name); the names it writes are scanner-accepted bodies *)
Lemma render4_rawok v : ngood4 v -> rawok (render4 v) /\ jeq (den (render4 v)) (aval4 v) = true.
Proof.
  intro G.
  (* the value and the absence of duplicate names: the marshalling theorem, with ngood4 as the invariant *)
  assert (D : forall ks obj, ngood4 (NDoc ks obj) ->
                ks = [] /\ NoDup (map fst obj) /\ Forall (fun kv => utf8 (fst kv) /\ ngood4 (snd kv)) obj).
  { intros ks obj Gd. apply ngood4_doc in Gd as [E [N [U Gs]]]. split; [exact E | split; [exact N|]].
    rewrite Forall_map in U. rewrite Forall_forall in *. intros kv Hk. split; auto. }
  destruct (V4MergeFacts.render4_den_inv ngood4 (fun t R => proj1 R) D (fun ns => proj1 (ngood4_ary ns)) v G) as [T J].
  split; [split; [exact T|] | exact J]. clear T J.
  induction v using node_rect'.
  - repeat split.
  - exact (proj2 G).
  - apply ngood4_doc in G as [-> [N [U Gs]]]. rewrite Forall_forall in H, Gs. rewrite V4MergeFacts.render4_doc.
    assert (In4 : forall kv, In kv (V4MergeFacts.sort4 (msnd render4 obj)) -> exists v, In (fst kv, v) obj /\ snd kv = render4 v).
    { intros kv Hk. apply (Permutation_in _ (V4MergeFacts.sort4_perm _ (eq_ind_r (@NoDup _) N (msnd_keys render4 obj)))) in Hk.
      apply in_map_iff in Hk as [[k0 v0] [<- Hk]]. exists v0. split; [exact Hk | reflexivity]. }
    split; [|split].
    + cbn [tlit]. apply forallb_forall. intros kv Hk. apply in_map_iff in Hk as [kv0 [<- Hk]]. cbn [snd].
      destruct (In4 kv0 Hk) as [v [Hin ->]]. exact (proj1 (H _ Hin (Gs _ Hin))).
    + apply tplain_obj. rewrite Forall_map. apply Forall_forall. intros kv Hk. cbn [snd].
      destruct (In4 kv Hk) as [v [Hin ->]]. exact (proj1 (proj2 (H _ Hin (Gs _ Hin)))).
    + apply tkeys_obj. rewrite Forall_map. apply Forall_forall. intros kv Hk. cbn [fst snd].
      destruct (In4 kv Hk) as [v [Hin ->]].
      split; [apply sbody_kok, (StrInv.quote_sbody true _) | exact (proj2 (proj2 (H _ Hin (Gs _ Hin))))].
  - apply ngood4_ary in G. rewrite Forall_forall in H, G. cbn [render4].
    split; [|split].
    + cbn [tlit]. apply forallb_forall. intros t Ht. apply in_map_iff in Ht as [x [<- Hx]]. exact (proj1 (H x Hx (G x Hx))).
    + apply tplain_arr. rewrite Forall_map. apply Forall_forall. intros x Hx. exact (proj1 (proj2 (H x Hx (G x Hx)))).
    + apply tkeys_arr. rewrite Forall_map. apply Forall_forall. intros x Hx. exact (proj2 (proj2 (H x Hx (G x Hx)))).
Qed.

Theorem enc4_codec v : ngood4 v ->
  rawok (enc4 v) /\ jeq (den (enc4 v)) (aval4 v) = true /\ (null4 v = false -> enc4 v <> TNull).
Proof.
  intro G. destruct (render4_rawok v G) as [R J]. destruct (escape_rawok _ R) as [R' D]. unfold enc4.
  split; [exact R'|]. split; [rewrite D; exact J|]. intro NN. apply escape_nonnull.
  destruct v as [|t|ks obj|ns]; try discriminate.
  - cbn [render4]. intros ->. discriminate NN.
  - apply ngood4_doc in G as [-> _]. discriminate.
Qed.

(* deepCopy keeps the invariant and the value -- unless it is handed the operation value null
   (raw_nil4 = NRaw TNull): that node is copied as the raw TEXT null (raw_null4), which findObject
   enters like an empty object where the reference sees null; it is outside the invariant *)
Lemma deep_copy4_raw_nil g : fst (deep_copy4 g raw_nil4) = raw_null4 /\ ~ ngood4 raw_null4.
Proof. split; [reflexivity|]. intro G. apply ngood4_doc in G as [E _]. discriminate. Qed.

Lemma deep_copy4_sim g v : ngood4 v -> v <> raw_nil4 ->
  ngood4 (fst (deep_copy4 g v)) /\ jeq (aval4 (fst (deep_copy4 g v))) (aval4 v) = true.
Proof.
  intros G NR. destruct (enc4_codec v G) as [R [J NN]].
  destruct v as [|t|ks obj|ns]; [split; [exact I | reflexivity]| | |].
  - assert (Nt : t <> TNull) by (intro E; subst t; apply NR; reflexivity).
    assert (E : fst (deep_copy4 g (NRaw t)) = NRaw (enc4 (NRaw t))) by (destruct t; try reflexivity; congruence).
    rewrite E. split; [apply ngood4_raw; exact R | exact J].
  - pose proof (proj1 (proj1 (ngood4_doc ks obj) G)) as Ek. subst ks.
    split; [apply ngood4_raw; exact R | exact J].
  - split; [apply ngood4_raw; exact R | exact J].
Qed.

(* what deepCopy returns, for every node *)
Lemma deep_copy4_cases g v :
  fst (deep_copy4 g v) = NNil \/ fst (deep_copy4 g v) = raw_null4 \/
  fst (deep_copy4 g v) = NRaw (escape_tree true (render4 v)).
Proof.
  destruct v as [|t|ks obj|ns]; [left; reflexivity| | |]; unfold deep_copy4; cbn [fst];
    destruct (render4 _); auto.
Qed.

(* the value the legacy copy reads at from: an absent member reads as null *)
Definition src4 (r : Rfc6902.res ojson) : Rfc6902.res ojson :=
  match r with RFail FMissingMember => ROk ONull | x => x end.

(* the read leaves the document as it is; an absent member is read as the nil node *)
Lemma find4_get_sim g c r :
  cgood4 c -> Forall tok_dom4 (map decode_token (split_slash r)) ->
  match src4 (get_at (d4 g) (ptoks r) (cval4 c)) with
  | ROk j => exists v c2, find4 g c (x2f :: r) (get_fn4 g) = (Some (Ok v), c2) /\
                          aval4 v = j /\ ngood4 v /\ cval4 c2 = cval4 c /\ cgood4 c2 /\
                          (get_at (d4 g) (ptoks r) (cval4 c) = RFail FMissingMember -> v = NNil)
  | RFail cz => find_sim4 (RFail cz) (find4 g c (x2f :: r) (get_fn4 g))
  end.
Proof.
  intros G D. unfold ptoks, find_sim4. rewrite get_at_snoc.
  pose proof (find4_spec g c r (get_fn4 g) G D) as FS. pose proof (proj2 (dom_split4 r D)) as Dk.
  destruct (descend (d4 g) (map decode_token (path_parts r)) (cval4 c)) as [p|] eqn:Ed.
  2: { destruct FS as [c' [F1 _]]. exists EMissing, c'. split; [right; auto | reflexivity]. }
  destruct (is_container p) eqn:Cp.
  2: { destruct FS as [c' [F1 _]]. rewrite (proj2 (proj2 (proj2 (proj2 (leaf_noncontainer (d4 g) p (path_key r) Cp))))).
       exists EMissing, c'. split; [right; auto | reflexivity]. }
  destruct FS as [cp [back [E1 [E2 [E3 E4]]]]]. unfold get_fn4 in E3 at 2 3. cbn [fst snd] in E3.
  destruct (E4 cp E2) as [F1 F2]. rewrite E1, (rebuild_same _ _ _ _ Ed) in F1.
  pose proof (get_leaf4_sim g cp (path_key r) E2 Dk) as CG. rewrite E1 in CG.
  destruct (get_leaf (d4 g) p (path_key r)) as [j|cz].
  - destruct CG as [v [H1 [H2 H3]]]. rewrite H1 in E3. exists v, (back cp). repeat (split; [assumption|]). discriminate.
  - destruct CG as [[-> H1] | [-> [e [H1 H2]]]]; rewrite H1 in E3; cbn [src4].
    + exists NNil, (back cp). repeat (split; [assumption || reflexivity|]). reflexivity.
    + exists e, (back cp). split; [left; exact E3 | apply cause_rel_index, H2].
Qed.

Lemma find4_unit_sim g c r :
  cgood4 c -> Forall tok_dom4 (map decode_token (split_slash r)) ->
  match descend (d4 g) (map decode_token (path_parts r)) (cval4 c) with
  | Some p => if is_container p
              then exists c2, find4 g c (x2f :: r) unit_fn4 = (Some tt, c2) /\ cval4 c2 = cval4 c /\ cgood4 c2
              else exists c2, find4 g c (x2f :: r) unit_fn4 = (None, c2)
  | None => exists c2, find4 g c (x2f :: r) unit_fn4 = (None, c2)
  end.
Proof.
  intros G D. pose proof (find4_spec g c r unit_fn4 G D) as FS.
  destruct (descend (d4 g) (map decode_token (path_parts r)) (cval4 c)) as [p|] eqn:Ed.
  - destruct (is_container p).
    + destruct FS as [cp [back [E1 [E2 [E3 E4]]]]]. cbn [unit_fn4 fst snd] in E3.
      destruct (E4 cp E2) as [F1 F2]. exists (back cp). split; auto. split; auto.
      rewrite F1, E1. apply rebuild_same. exact Ed.
    + destruct FS as [c' [F1 _]]. eauto.
  - destruct FS as [c' [F1 _]]. eauto.
Qed.

(* the node a copy hands to deepCopy (the source, read again after the walk to the destination) is
   ImplV4.copy_arg4, here with the named leaf functions *)
Lemma copy_arg4_unfold g st op :
  copy_arg4 g st op =
  match op_str op (B "from"), op_str op (B "path") with
  | Ok from, Ok path =>
      match find4 g (r4 st) from (get_fn4 g) with
      | (Some (Ok _), c1) =>
          match find4 g c1 path unit_fn4 with
          | (Some _, c2) =>
              match find4 g c2 from (get_fn4 g) with
              | (Some (Ok v), _) => Some v
              | _ => None
              end
          | (None, _) => None
          end
      | _ => None
      end
  | _, _ => None
  end.
Proof. reflexivity. Qed.

(* THE THIRD DEVIATION, excluded by hypothesis: a copy whose source is a null that an earlier add /
   replace of this patch wrote (the operation value null, raw_nil4).  deepCopy stores the raw text
   null; a later path through that member is walked like an empty object (V4NullWalk.v) where RFC
   6902 says the path does not exist.  A null of the document, a null inside a composite value and
   an absent member are nil nodes: copying them is covered. *)
Definition copy_clean4 (g : opts4) (st : state4) (op : operation) : Prop :=
  copy_arg4 g st op <> Some raw_nil4.

(* a copy whose source member is absent reads the nil node (twice): it is clean *)
Lemma copy_clean4_absent g st op rf r :
  sgood4 st ->
  op_str op (B "from") = Ok (x2f :: rf) -> Forall tok_dom4 (map decode_token (split_slash rf)) ->
  op_str op (B "path") = Ok (x2f :: r) -> Forall tok_dom4 (map decode_token (split_slash r)) ->
  get_at (d4 g) (ptoks rf) (sval4 st) = RFail FMissingMember -> copy_clean4 g st op.
Proof.
  intros G Hf Df Hp Dp GA. unfold copy_clean4. rewrite copy_arg4_unfold, Hf, Hp.
  pose proof (find4_get_sim g (r4 st) rf G Df) as F. unfold sval4 in GA. rewrite GA in F.
  destruct F as [v [c1 [F1 [_ [_ [F2 [F3 Fn]]]]]]]. rewrite F1.
  pose proof (find4_unit_sim g c1 r F3 Dp) as FU.
  destruct (descend (d4 g) (map decode_token (path_parts r)) (cval4 c1)) as [p|].
  - destruct (is_container p).
    + destruct FU as [c2 [U1 [U2 U3]]]. rewrite U1.
      pose proof (find4_get_sim g c2 rf U3 Df) as F'. rewrite U2, F2, GA in F'.
      destruct F' as [v' [c3 [F1' [_ [_ [_ [_ Fn']]]]]]]. rewrite F1', (Fn' eq_refl). discriminate.
    + destruct FU as [c2 U1]. rewrite U1. discriminate.
  - destruct FU as [c2 U1]. rewrite U1. discriminate.
Qed.

Lemma step4_copy_sim g st op rf r :
  sgood4 st -> op_kind op = KCopy -> g_limit g = 0%Z ->
  op_str op (B "from") = Ok (x2f :: rf) -> Forall tok_dom4 (map decode_token (split_slash rf)) ->
  op_str op (B "path") = Ok (x2f :: r) -> Forall tok_dom4 (map decode_token (split_slash r)) ->
  copy_clean4 g st op ->
  match src4 (get_at (d4 g) (ptoks rf) (sval4 st)) with
  | ROk j =>
      exists jc, veq jc j /\
        match at_parent (d4 g) (ptoks r) (sval4 st) (add_leaf (d4 g) jc) with
        | ROk j' => exists st', step4 g st op = Ok st' /\ sval4 st' = j' /\ sgood4 st'
        | RFail cz => exists e, step4 g st op = Err e /\ cause_rel cz e
        end
  | RFail cz => exists e, step4 g st op = Err e /\ cause_rel cz e
  end.
Proof.
  intros G K Lim Hf Df Hp Dp NRN. set (c := r4 st) in *. unfold sval4. fold c.
  rewrite (step4_copy g st op K), Hf. fold c.
  (* the source, read twice with the same result *)
  pose proof (find4_get_sim g c rf G Df) as S1.
  destruct (src4 (get_at (d4 g) (ptoks rf) (cval4 c))) as [j|cz] eqn:Es.
  2: { destruct S1 as [e [c2 [[F1|[F1 ->]] F2]]]; rewrite F1; exists e + exists EMissing; (split; [reflexivity | exact F2]). }
  destruct S1 as [v0 [c1 [F1 [F2 [F3 [F4 [F5 _]]]]]]]. rewrite F1. cbn [lift4]. rewrite Hp.
  assert (Oj : onodup j = true) by (rewrite <- F2; apply ngood4_onodup; exact F3).
  pose proof (find4_unit_sim g c1 r F5 Dp) as FU. rewrite F4 in FU.
  (* the destination parent must be reachable; the reference's add fails the same way *)
  assert (Unreach : forall jc, match descend (d4 g) (map decode_token (path_parts r)) (cval4 c) with
                               | Some p => is_container p = false | None => True end ->
            at_parent (d4 g) (ptoks r) (cval4 c) (add_leaf (d4 g) jc) = RFail FUnreachable).
  { intros jc Hd. unfold ptoks. apply at_parent_unreachable; auto.
    intros p t Cp. apply (proj1 (leaf_noncontainer (d4 g) p t Cp)). }
  destruct (descend (d4 g) (map decode_token (path_parts r)) (cval4 c)) as [p|] eqn:Ed.
  2: { destruct FU as [c2 U1]. rewrite U1. exists j. split; [apply veq_refl; exact Oj|].
       rewrite (Unreach j I). exists EMissing. split; reflexivity. }
  destruct (is_container p) eqn:Cp.
  2: { destruct FU as [c2 U1]. rewrite U1. exists j. split; [apply veq_refl; exact Oj|].
       rewrite (Unreach j eq_refl). exists EMissing. split; reflexivity. }
  destruct FU as [c2 [U1 [U2 U3]]]. rewrite U1.
  pose proof (find4_get_sim g c2 rf U3 Df) as S2. rewrite U2, Es in S2.
  destruct S2 as [v [c3 [G1 [G2 [G3 _]]]]]. rewrite G1. cbn [lift4].
  assert (Nv : v <> raw_nil4).
  { intro E. apply NRN. rewrite copy_arg4_unfold. fold c. rewrite Hf, Hp, F1, U1, G1, E. reflexivity. }
  destruct (deep_copy4_sim g v G3 Nv) as [DC1 DC2]. destruct (deep_copy4 g v) as [cp sz]. cbn [fst] in *.
  rewrite Lim. change ((0 <? 0)%Z) with false. cbn [andb].
  exists (aval4 cp). split; [split; [rewrite <- G2; exact DC2 | split; [apply ngood4_onodup; exact DC1 | exact Oj]]|].
  pose proof (add_find4_sim g c2 r cp U3 Dp DC1) as AF. rewrite U2 in AF.
  destruct (at_parent (d4 g) (ptoks r) (cval4 c) (add_leaf (d4 g) (aval4 cp))) as [j'|cz].
  - destruct AF as [a [c4 [A1 [A2 A3]]]]. rewrite A1. eexists. split; [reflexivity|]. auto.
  - destruct AF as [e [c4 [[A1|[A1 ->]] A2]]]; rewrite A1; exists e + exists EMissing; (split; [reflexivity | exact A2]).
Qed.

(* ================= the reference respects member order ================= *)
(* Values are compared up to member order: structural equality (jeq) of values without duplicate
   names.  The reference operations respect it, so a legacy run whose values drift from the ordered
   reference by the order of copied members (deepCopy sorts them) still follows the reference. *)
Definition req (x y : Rfc6902.res ojson) : Prop :=
  match x, y with
  | ROk a, ROk b => veq a b
  | RFail c, RFail c' => c = c'
  | _, _ => False
  end.

Lemma req_trans x y z : req x y -> req y z -> req x z.
Proof.
  destruct x, y, z; simpl; try tauto; try congruence. apply veq_trans.
Qed.

Lemma req_bind x y (k k' : ojson -> Rfc6902.res ojson) :
  req x y -> (forall u u', veq u u' -> req (k u) (k' u')) -> req (bind x k) (bind y k').
Proof. destruct x, y; simpl; try tauto. intros V H. apply H. exact V. Qed.

(* veq is MergeOrder.OJ: two objects are related exactly when they hold related values under the same names *)
Lemma veq_OJ a b : veq a b <-> MergeOrder.OJ a b.
Proof. unfold veq, MergeOrder.OJ. tauto. Qed.

Lemma veq_obj l m :
  veq (OObj l) (OObj m) <-> NoDup (map fst l) /\ NoDup (map fst m) /\ forall k, lookup_rel veq (aget k l) (aget k m).
Proof.
  rewrite veq_OJ, MergeOrder.OJ_obj.
  split; intros [N [N' H]]; (split; [exact N|]; split; [exact N'|]); intro k; specialize (H k);
    destruct (aget k l), (aget k m); try exact H; apply veq_OJ, H.
Qed.

Lemma veq_obj_aget l m k :
  veq (OObj l) (OObj m) ->
  match aget k l, aget k m with
  | Some x, Some y => veq x y
  | None, None => True
  | _, _ => False
  end.
Proof. intro V. apply veq_obj in V as [_ [_ H]]. exact (H k). Qed.

Lemma veq_aset l m k x y : veq (OObj l) (OObj m) -> veq x y -> veq (OObj (aset k x l)) (OObj (aset k y m)).
Proof. rewrite !veq_OJ. intros V Vx. exact (MergeOrder.OJ_kset l m k (Some x) (Some y) V Vx). Qed.

Lemma veq_adel l m k : veq (OObj l) (OObj m) -> veq (OObj (adel k l)) (OObj (adel k m)).
Proof. rewrite !veq_OJ. intro V. exact (MergeOrder.OJ_kset l m k None None V I). Qed.

Lemma veq_amem l m k : veq (OObj l) (OObj m) -> amem k l = amem k m.
Proof. rewrite veq_OJ. apply MergeOrder.OJ_amem. Qed.

Lemma veq_arr l m : veq (OArr l) (OArr m) <-> Forall2 veq l m.
Proof.
  unfold veq. rewrite jeq_arr, jeq_list_spec, !onodup_arr. split.
  - intros [J [N1 N2]]. induction J as [|x y l m Jx J IH]; constructor.
    + inversion N1; inversion N2; subst. auto.
    + inversion N1; inversion N2; subst. apply IH; auto.
  - intro F. induction F as [|x y l m [Jx [Nx Ny]] F [IH1 [IH2 IH3]]]; [repeat split; constructor|].
    split; [constructor; auto|]. split; constructor; auto.
Qed.

Lemma Forall2_firstn {A B} (R : A -> B -> Prop) n : forall l m, Forall2 R l m -> Forall2 R (firstn n l) (firstn n m).
Proof. induction n as [|n IH]; intros l m F; [constructor|]. destruct F; [constructor|]. cbn [firstn]. constructor; auto. Qed.

Lemma Forall2_skipn {A B} (R : A -> B -> Prop) n : forall l m, Forall2 R l m -> Forall2 R (skipn n l) (skipn n m).
Proof. induction n as [|n IH]; intros l m F; [exact F|]. destruct F; [constructor|]. cbn [skipn]. auto. Qed.

Lemma Forall2_nth {A B} (R : A -> B -> Prop) da db : R da db ->
  forall l m i, Forall2 R l m -> R (nth i l da) (nth i m db).
Proof.
  intros Rd l m i F. revert i. induction F as [|x y l m Rx F IH]; intro i; destruct i; simpl; auto.
Qed.

Lemma veq_zlen l m : Forall2 veq l m -> Rfc6902.zlen l = Rfc6902.zlen m.
Proof. intro F. unfold Rfc6902.zlen. f_equal. induction F; simpl; auto. Qed.

Lemma veq_set_at i x y l m : Forall2 veq l m -> veq x y -> Forall2 veq (set_at i x l) (set_at i y m).
Proof.
  intros F V. unfold set_at. apply Forall2_app; [apply Forall2_firstn; exact F|].
  constructor; [exact V | apply Forall2_skipn; exact F].
Qed.

Lemma veq_insert_at i x y l m : Forall2 veq l m -> veq x y -> Forall2 veq (insert_at i x l) (insert_at i y m).
Proof.
  intros F V. unfold insert_at. apply Forall2_app; [apply Forall2_firstn; exact F|].
  constructor; [exact V | apply Forall2_skipn; exact F].
Qed.

Lemma veq_remove_at i l m : Forall2 veq l m -> Forall2 veq (remove_at i l) (remove_at i m).
Proof.
  intro F. unfold remove_at. apply Forall2_app; [apply Forall2_firstn; exact F | apply Forall2_skipn; exact F].
Qed.

Lemma veq_null : veq ONull ONull.
Proof. repeat split. Qed.

Lemma veq_shape a b : veq a b ->
  match a, b with
  | OObj _, OObj _ | OArr _, OArr _ => True
  | OObj _, _ | OArr _, _ | _, OObj _ | _, OArr _ => False
  | _, _ => a = b
  end.
Proof.
  intros [J _]. destruct a, b; cbv beta iota delta [jeq] in J; try discriminate; auto.
  - destruct b, b0; simpl in J; congruence.
  - apply bseq_eq in J. congruence.
  - apply bseq_eq in J. congruence.
Qed.

Ltac veq_shapes V :=
  let S := fresh "S" in pose proof (veq_shape _ _ V) as S; simpl in S; try contradiction.

Lemma add_leaf_veq d v v' p p' t : veq v v' -> veq p p' -> req (add_leaf d v p t) (add_leaf d v' p' t).
Proof.
  intros Vv Vp. destruct p, p'; veq_shapes Vp; try (simpl; reflexivity).
  - apply veq_arr in Vp. cbn [add_leaf]. rewrite (veq_zlen _ _ Vp).
    destruct (idx_insert d (Rfc6902.zlen l0) t); [|reflexivity]. apply veq_arr. apply veq_insert_at; auto.
  - cbn [add_leaf req]. apply veq_aset; auto.
Qed.

Lemma remove_leaf_veq d p p' t : veq p p' -> req (remove_leaf d p t) (remove_leaf d p' t).
Proof.
  intros Vp. destruct p, p'; veq_shapes Vp; try (simpl; reflexivity).
  - apply veq_arr in Vp. cbn [remove_leaf]. rewrite (veq_zlen _ _ Vp).
    destruct (idx_existing d (Rfc6902.zlen l0) t); [|reflexivity]. apply veq_arr. apply veq_remove_at; auto.
  - cbn [remove_leaf]. rewrite (veq_amem _ _ t Vp). destruct (amem t ms0); [|reflexivity]. apply veq_adel; auto.
Qed.

Lemma replace_leaf_veq d v v' p p' t : veq v v' -> veq p p' -> req (replace_leaf d v p t) (replace_leaf d v' p' t).
Proof.
  intros Vv Vp. destruct p, p'; veq_shapes Vp; try (simpl; reflexivity).
  - apply veq_arr in Vp. cbn [replace_leaf]. rewrite (veq_zlen _ _ Vp).
    destruct (idx_existing d (Rfc6902.zlen l0) t); [|reflexivity]. apply veq_arr. apply veq_set_at; auto.
  - cbn [replace_leaf]. rewrite (veq_amem _ _ t Vp). destruct (amem t ms0); [|reflexivity]. apply veq_aset; auto.
Qed.

Lemma jeq_veq_l x y v : veq x y -> onodup v = true -> jeq x v = jeq y v.
Proof. intros V Nv. exact (MergeOrder.OJ_jeq_transfer x y v v (proj1 (veq_OJ x y) V) (MergeOrder.OJ_refl v Nv)). Qed.

Lemma test_leaf_veq d v p p' t : onodup v = true -> veq p p' -> req (test_leaf d v p t) (test_leaf d v p' t).
Proof.
  intros Nv Vp. destruct p, p'; veq_shapes Vp; try (simpl; reflexivity).
  - pose proof Vp as Vl. apply veq_arr in Vl. cbn [test_leaf]. rewrite (veq_zlen _ _ Vl).
    destruct (idx_existing d (Rfc6902.zlen l0) t) as [i|]; [|reflexivity].
    rewrite (jeq_veq_l (nth i l ONull) (nth i l0 ONull) v); [|apply Forall2_nth; [exact veq_null | exact Vl] | exact Nv].
    destruct (jeq (nth i l0 ONull) v); [exact Vp | reflexivity].
  - cbn [test_leaf]. pose proof (veq_obj_aget ms ms0 t Vp) as H.
    assert (E : jeq (match aget t ms with Some c => c | None => ONull end) v =
                jeq (match aget t ms0 with Some c => c | None => ONull end) v).
    { destruct (aget t ms), (aget t ms0); try contradiction; [apply jeq_veq_l; auto | reflexivity]. }
    rewrite E. clear E. destruct (jeq (match aget t ms0 with Some c => c | None => ONull end) v); [exact Vp | reflexivity].
Qed.

Lemma at_parent_veq d (lf lf' : ojson -> bytes -> Rfc6902.res ojson) :
  (forall p p' t, veq p p' -> req (lf p t) (lf' p' t)) ->
  forall toks a b, veq a b -> req (at_parent d toks a lf) (at_parent d toks b lf').
Proof.
  intro L. induction toks as [|t rest IH]; intros a b V; [reflexivity|].
  destruct rest as [|t2 rest]; [apply L; exact V|].
  assert (U : forall j (h : ojson -> bytes -> Rfc6902.res ojson), at_parent d (t :: t2 :: rest) j h =
            match j with
            | OObj ms => match aget t ms with
                         | Some c => bind (at_parent d (t2 :: rest) c h) (fun c' => ROk (OObj (aset t c' ms)))
                         | None => RFail FUnreachable end
            | OArr l => match idx_existing d (Rfc6902.zlen l) t with
                        | Some i => bind (at_parent d (t2 :: rest) (nth i l ONull) h) (fun c' => ROk (OArr (set_at i c' l)))
                        | None => RFail FUnreachable end
            | _ => RFail FUnreachable
            end) by reflexivity.
  rewrite !U. clear U. destruct a, b; veq_shapes V; try reflexivity.
  - pose proof V as Vl. apply veq_arr in Vl. rewrite (veq_zlen _ _ Vl).
    destruct (idx_existing d (Rfc6902.zlen l0) t) as [i|]; [|reflexivity].
    apply req_bind; [apply IH; apply Forall2_nth; [exact veq_null | exact Vl]|].
    intros u u' Vu. apply veq_arr. apply veq_set_at; auto.
  - pose proof (veq_obj_aget ms ms0 t V) as H.
    destruct (aget t ms) as [c|], (aget t ms0) as [c'|]; try contradiction; [|reflexivity].
    apply req_bind; [apply IH; exact H|]. intros u u' Vu. apply veq_aset; auto.
Qed.

Lemma get_at_veq d : forall toks a b, veq a b -> req (get_at d toks a) (get_at d toks b).
Proof.
  induction toks as [|t rest IH]; intros a b V; [exact V|].
  cbn [get_at]. destruct a, b; veq_shapes V; try reflexivity.
  - pose proof V as Vl. apply veq_arr in Vl. rewrite (veq_zlen _ _ Vl).
    destruct (idx_existing d (Rfc6902.zlen l0) t) as [i|]; [|destruct rest; reflexivity].
    apply IH. apply Forall2_nth; [exact veq_null | exact Vl].
  - pose proof (veq_obj_aget ms ms0 t V) as H.
    destruct (aget t ms) as [c|], (aget t ms0) as [c'|]; try contradiction; [|destruct rest; reflexivity].
    apply IH. exact H.
Qed.

Definition rop_ok (o : rop) : Prop := match rvalue o with Some v => onodup v = true | None => True end.

Lemma value_or_null_ok o : rop_ok o -> onodup (value_or_null (rvalue o)) = true.
Proof. unfold rop_ok. destruct (rvalue o); auto. Qed.

Lemma rfc_step_veq d a b o : rop_ok o -> veq a b -> req (rfc_step d a o) (rfc_step d b o).
Proof.
  intros Ro V. pose proof (value_or_null_ok o Ro) as Nv. unfold rfc_step.
  destruct (ptr_tokens (rpath o)) as [toks|]; [|reflexivity].
  destruct (rkind o).
  - (* add *) unfold rfc_add. destruct toks as [|t ts].
    + destruct (is_container _); [apply veq_refl; exact Nv | reflexivity].
    + apply at_parent_veq; auto. intros p p' t0 Vp. apply add_leaf_veq; auto. apply veq_refl; exact Nv.
  - (* remove *) destruct toks as [|t ts]; [reflexivity|]. apply at_parent_veq; auto. intros p p' t0 Vp. apply remove_leaf_veq; auto.
  - (* replace *) destruct toks as [|t ts].
    + destruct (is_container _); [apply veq_refl; exact Nv | reflexivity].
    + apply at_parent_veq; auto. intros p p' t0 Vp. apply replace_leaf_veq; auto. apply veq_refl; exact Nv.
  - (* move *) destruct (ptr_tokens (rfrom o)) as [[|f fs]|]; try reflexivity.
    apply req_bind; [apply get_at_veq; exact V|]. intros v v' Vv.
    apply req_bind; [apply at_parent_veq; auto; intros p p' t0 Vp; apply remove_leaf_veq; auto|]. intros u u' Vu.
    destruct toks as [|t ts]; [reflexivity|]. apply at_parent_veq; auto. intros p p' t0 Vp. apply add_leaf_veq; auto.
  - (* copy *) destruct (ptr_tokens (rfrom o)) as [ftoks|]; try reflexivity.
    apply req_bind; [apply get_at_veq; exact V|]. intros v v' Vv.
    destruct toks as [|t ts]; [reflexivity|]. apply at_parent_veq; auto. intros p p' t0 Vp. apply add_leaf_veq; auto.
  - (* test *) destruct toks as [|t ts].
    + rewrite (jeq_veq_l a b _ V Nv). destruct (jeq b _); [exact V | reflexivity].
    + apply at_parent_veq; auto. intros p p' t0 Vp. apply test_leaf_veq; auto.
Qed.

Lemma rfc4_step_veq d a b o : rop_ok o -> veq a b -> req (rfc4_step d a o) (rfc4_step d b o).
Proof.
  intros Ro V. pose proof (rfc_step_veq d a b o Ro V) as R. unfold rfc4_step.
  destruct (rfc_step d a o) as [x|cz], (rfc_step d b o) as [y|cz']; simpl in R; try contradiction; [exact R|].
  subst cz'. destruct cz; try reflexivity.
  destruct (rkind o); try reflexivity; apply rfc_step_veq; auto; try exact Ro; reflexivity.
Qed.

(* ================= every operation, whole patches ================= *)
Lemma add_not_missing d toks doc v : at_parent d toks doc (add_leaf d v) <> RFail FMissingMember.
Proof.
  destruct toks as [|t0 ts]; [discriminate|].
  assert (NE : t0 :: ts <> []) by discriminate.
  rewrite (app_removelast_last [] NE), at_parent_snoc. intro H.
  match type of H with context [descend ?a ?b ?c] => destruct (descend a b c) as [p|] end; [|discriminate H].
  destruct p; cbn [add_leaf bind] in H; try discriminate H.
  match type of H with context [idx_insert ?a ?b ?c] => destruct (idx_insert a b c) end; discriminate H.
Qed.

Lemma den_op_ok op : val_good4 op -> rop_ok (den_op op).
Proof.
  unfold val_good4, rop_ok, den_op. cbn [rvalue]. destruct (aget (B "value") op) as [[t|]|]; auto.
  intros [_ [T _]]. exact T.
Qed.

(* the deviating reference on a copy: the source read with an absent member as null, then add *)
Lemma rfc4_copy_char d doc op rf r :
  op_kind op = KCopy -> op_str op (B "from") = Ok (x2f :: rf) -> op_str op (B "path") = Ok (x2f :: r) ->
  rfc4_step d doc (den_op op) =
  match src4 (get_at d (ptoks rf) doc) with
  | ROk j => at_parent d (ptoks r) doc (add_leaf d j)
  | RFail cz => RFail cz
  end.
Proof.
  intros K Hf Hp. unfold rfc4_step. rewrite (rfc_step_slash d doc op r Hp), K, (from_toks_slash op rf Hf).
  destruct (get_at d (ptoks rf) doc) as [j|cz]; cbn [bind src4].
  - pose proof (add_not_missing d (ptoks r) doc j) as NM.
    destruct (at_parent d (ptoks r) doc (add_leaf d j)) as [x|[]]; try reflexivity. congruence.
  - destruct cz; try reflexivity.
    unfold den_op at 1. cbn [rkind]. rewrite K. cbn [ref_kind]. exact (rfc_step_as_add d doc op r (Some ONull) Hp).
Qed.

Lemma step4_copy_veq g st op :
  sgood4 st -> g_limit g = 0%Z -> op_dom4 op -> op_kind op = KCopy -> copy_clean4 g st op ->
  match rfc4_step (d4 g) (sval4 st) (den_op op) with
  | ROk x => exists st', step4 g st op = Ok st' /\ veq (sval4 st') x /\ sgood4 st'
  | RFail cz => exists e, step4 g st op = Err e /\ cause_rel cz e
  end.
Proof.
  intros G Lim [Vg [path [Hp K]]] Ek CC. rewrite Ek in K. destruct K as [[r [-> D]] [from [Hf [rf [-> Df]]]]].
  rewrite (rfc4_copy_char (d4 g) (sval4 st) op rf r Ek Hf Hp).
  pose proof (step4_copy_sim g st op rf r G Ek Lim Hf Df Hp D CC) as S.
  destruct (src4 (get_at (d4 g) (ptoks rf) (sval4 st))) as [j|cz]; [|exact S].
  destruct S as [jc [J S]].
  assert (Na : onodup (sval4 st) = true) by (apply ngood4_onodup; exact (proj1 G)).
  assert (R : req (at_parent (d4 g) (ptoks r) (sval4 st) (add_leaf (d4 g) jc))
                  (at_parent (d4 g) (ptoks r) (sval4 st) (add_leaf (d4 g) j))).
  { apply at_parent_veq; [|apply veq_refl; exact Na]. intros p p' t Vp. apply add_leaf_veq; auto. }
  destruct (at_parent (d4 g) (ptoks r) (sval4 st) (add_leaf (d4 g) jc)) as [x|cz],
           (at_parent (d4 g) (ptoks r) (sval4 st) (add_leaf (d4 g) j)) as [y|cz']; simpl in R; try contradiction.
  - destruct S as [st' [S1 [S2 S3]]]. exists st'. split; [exact S1|]. split; [rewrite S2; exact R | exact S3].
  - subst cz'. exact S.
Qed.

Lemma opk_eq_copy (k : opk) : k = KCopy \/ k <> KCopy.
Proof. destruct k; auto; right; discriminate. Qed.

(* the whole run: no copy is handed the operation value null: ImplV4.no_null_copy4 (a boolean that
   evaluates the model) *)
Lemma is_raw_nil4_clean g st op : is_raw_nil4 (copy_arg4 g st op) = false -> copy_clean4 g st op.
Proof. intros H E. rewrite E in H. discriminate. Qed.

Lemma no_null_copy4_head g st op rest :
  no_null_copy4 g st (op :: rest) = true ->
  (op_kind op = KCopy -> copy_clean4 g st op) /\
  (forall st', step4 g st op = Ok st' -> no_null_copy4 g st' rest = true).
Proof.
  cbn [no_null_copy4]. intro H. apply andb_prop in H as [H1 H2]. split.
  - intro K. rewrite K in H1. apply is_raw_nil4_clean. destruct (is_raw_nil4 _); [discriminate | reflexivity].
  - intros st' E. rewrite E in H2. exact H2.
Qed.

Lemma no_copy_no_null_copy4 g p : Forall (fun op => op_kind op <> KCopy) p -> forall st, no_null_copy4 g st p = true.
Proof.
  induction 1 as [|op p Hop Hp IH]; intro st; [reflexivity|]. cbn [no_null_copy4].
  destruct (op_kind op); try congruence; cbn [negb andb]; destruct (step4 g st op); auto.
Qed.

(* one operation of any kind, from a state whose value is the reference document up to member order *)
Theorem step4_sim g st op doc :
  g_limit g = 0%Z -> sgood4 st -> veq (sval4 st) doc -> op_dom4 op ->
  (op_kind op = KCopy -> copy_clean4 g st op) ->
  match rfc4_step (d4 g) doc (den_op op) with
  | ROk j' => exists st', step4 g st op = Ok st' /\ veq (sval4 st') j' /\ sgood4 st'
  | RFail cz => exists e, step4 g st op = Err e /\ cause_rel cz e
  end.
Proof.
  intros Lim G V D CC.
  pose proof (rfc4_step_veq (d4 g) (sval4 st) doc (den_op op) (den_op_ok op (proj1 D)) V) as C.
  assert (S : match rfc4_step (d4 g) (sval4 st) (den_op op) with
              | ROk x => exists st', step4 g st op = Ok st' /\ veq (sval4 st') x /\ sgood4 st'
              | RFail cz => exists e, step4 g st op = Err e /\ cause_rel cz e
              end).
  { destruct (opk_eq_copy (op_kind op)) as [Ek|Ek].
    - apply step4_copy_veq; auto.
    - pose proof (step4_sim_nocopy g st op G D Ek) as S.
      destruct (rfc4_step (d4 g) (sval4 st) (den_op op)) as [x|cz]; [|exact S].
      destruct S as [st' [S1 [S2 [S3 _]]]]. exists st'. split; [exact S1|]. split; [|exact S3].
      apply veq_eq; [exact S2|]. apply ngood4_onodup. exact (proj1 S3). }
  destruct (rfc4_step (d4 g) (sval4 st) (den_op op)) as [x|cz], (rfc4_step (d4 g) doc (den_op op)) as [y|cz'];
    simpl in C; try contradiction.
  - destruct S as [st' [S1 [S2 S3]]]. exists st'. split; [exact S1|]. split; [eapply veq_trans; eauto | exact S3].
  - subst cz'. exact S.
Qed.

Theorem apply4_sim g : g_limit g = 0%Z -> forall p i st doc,
  sgood4 st -> veq (sval4 st) doc -> Forall op_dom4 p -> no_null_copy4 g st p = true ->
  match rfc4_apply_from (d4 g) i doc (map den_op p) with
  | Done doc' => exists st', apply4_from g i st p = (Ok st', (i + length p)%nat) /\ veq (sval4 st') doc' /\ sgood4 st'
  | Failed j cz => exists e, apply4_from g i st p = (Err e, j) /\ cause_rel cz e
  end.
Proof.
  intro Lim. induction p as [|op p IH]; intros i st doc G V D NC; cbn [map rfc4_apply_from apply4_from length].
  - exists st. rewrite Nat.add_0_r. auto.
  - inversion D as [|? ? Dop Dp]; subst. apply no_null_copy4_head in NC as [NC1 NC2].
    pose proof (step4_sim g st op doc Lim G V Dop NC1) as S.
    destruct (rfc4_step (d4 g) doc (den_op op)) as [j'|cz].
    + destruct S as [st' [S1 [S2 S3]]]. rewrite S1. specialize (IH (S i) st' j' S3 S2 Dp (NC2 st' S1)).
      destruct (rfc4_apply_from (d4 g) (S i) j' (map den_op p)) as [doc'|j cz].
      * destruct IH as [st2 [I1 [I2 I3]]]. exists st2. rewrite I1. replace (S i + length p)%nat with (i + S (length p))%nat by lia. auto.
      * exact IH.
    + destruct S as [e [S1 S2]]. rewrite S1. eauto.
Qed.

(* against RFC 6902 itself, for patches that avoid the two deviations *)
Theorem apply4_rfc g p i st doc :
  g_limit g = 0%Z -> sgood4 st -> veq (sval4 st) doc -> Forall op_dom4 p ->
  no_deviation (d4 g) doc (map den_op p) = true -> no_null_copy4 g st p = true ->
  match rfc_apply_from (d4 g) i doc (map den_op p) with
  | Done doc' => exists st', apply4_from g i st p = (Ok st', (i + length p)%nat) /\ veq (sval4 st') doc' /\ sgood4 st'
  | Failed j cz => exists e, apply4_from g i st p = (Err e, j) /\ cause_rel cz e
  end.
Proof.
  intros Lim G V D ND NC. rewrite <- (rfc4_apply_agree (d4 g) (map den_op p) i doc ND). apply apply4_sim; auto.
Qed.

(* Apply on bytes, all six operations: the result is the RFC result up to member order *)
Theorem api_apply4_sim g indent p doc t :
  g_limit g = 0%Z ->
  parse doc = Some t -> root_container t = true -> tnodup t = true -> tplain t -> tkeys t ->
  Forall op_dom4 p -> no_deviation (d4 g) (den t) (map den_op p) = true ->
  (forall c, api_start4 t = Some c -> no_null_copy4 g (mkState4 c 0) p = true) ->
  match rfc_apply (d4 g) (den t) (map den_op p) with
  | Done j => exists n, api_apply4 g indent p doc = Out4 (output4 indent (render4 n)) /\ veq (aval4 n) j /\ ngood4 n
  | Failed i cz => exists e, api_apply4 g indent p doc = Err4 (Some i) e /\ cause_rel cz e
  end.
Proof.
  intros Lim P RC T Pl Ks D ND NC. destruct (api_apply4_loop g indent p doc t P RC T Pl Ks) as [c [S1 [S2 [S3 [BO BE]]]]].
  assert (V : veq (sval4 (mkState4 c 0)) (den t)) by (rewrite sval4_mk, S3; apply veq_refl; exact T).
  pose proof (apply4_rfc g p 0%nat (mkState4 c 0) (den t) Lim S2 V D ND (NC c S1)) as AS. unfold rfc_apply.
  destruct (rfc_apply_from (d4 g) 0 (den t) (map den_op p)) as [j|i cz].
  - destruct AS as [st' [A1 [A2 A3]]]. destruct (BO st' _ A1 A3) as [E [Ev N]]. exists (node_of_con4 (r4 st')). split; [exact E|]. split; [rewrite Ev; exact A2 | exact N].
  - destruct AS as [e [A1 A2]]. exists e. split; [exact (BE e i A1) | exact A2].
Qed.

(* the hypothesis of api_apply4_sim on the run, from the boolean on the bytes (ImplV4.api_no_null_copy4:
   what the correspondence oracle can evaluate) *)
Lemma api_no_null_copy4_start g p doc t :
  parse doc = Some t -> root_container t = true -> api_no_null_copy4 g p doc = true ->
  forall c, api_start4 t = Some c -> no_null_copy4 g (mkState4 c 0) p = true.
Proof.
  intros P RC H c Hc. unfold api_no_null_copy4 in H. rewrite P in H.
  destruct t; try discriminate; inversion Hc; subst; exact H.
Qed.

(* ================= the documented deviations, stated on their own ================= *)
(* replace of an absent member of an existing object: RFC 6902 reports the absent member, the
   legacy package adds the member (at the end of the object) *)
Theorem step4_replace_absent_adds g st op r ms :
  sgood4 st -> op_kind op = KReplace ->
  op_str op (B "path") = Ok (x2f :: r) -> Forall tok_dom4 (map decode_token (split_slash r)) -> val_good4 op ->
  descend (d4 g) (map decode_token (path_parts r)) (sval4 st) = Some (OObj ms) -> aget (path_key r) ms = None ->
  rfc_step (d4 g) (sval4 st) (den_op op) = RFail FMissingMember /\
  exists st', step4 g st op = Ok st' /\ sgood4 st' /\
    sval4 st' = rebuild (d4 g) (map decode_token (path_parts r)) (sval4 st) (OObj (ms ++ [(path_key r, ref_value op)])).
Proof.
  intros G K Hp D Vg Ed Ea. split.
  - rewrite (rfc_step_slash _ _ _ _ Hp), K. unfold ptoks. rewrite at_parent_snoc, Ed.
    cbn [replace_leaf]. unfold amem. rewrite Ea. reflexivity.
  - pose proof (step4_replace_sim g st op r G K Hp D Vg) as S. unfold ptoks in S. rewrite at_parent_snoc, Ed in S.
    cbn [replace_leaf4 bind] in S. destruct S as [st' [S1 [S2 [S3 _]]]]. exists st'. split; [exact S1|]. split; [exact S3|].
    rewrite S2. f_equal. f_equal. apply aset_notin. apply aget_None_notin. exact Ea.
Qed.

(* copy whose source is an absent member of an existing object: RFC 6902 reports the absent member,
   the legacy package copies null *)
Theorem step4_copy_absent_copies_null g st op rf r ms :
  sgood4 st -> op_kind op = KCopy -> g_limit g = 0%Z ->
  op_str op (B "from") = Ok (x2f :: rf) -> Forall tok_dom4 (map decode_token (split_slash rf)) ->
  op_str op (B "path") = Ok (x2f :: r) -> Forall tok_dom4 (map decode_token (split_slash r)) ->
  descend (d4 g) (map decode_token (path_parts rf)) (sval4 st) = Some (OObj ms) -> aget (path_key rf) ms = None ->
  get_at (d4 g) (ptoks rf) (sval4 st) = RFail FMissingMember /\
  match at_parent (d4 g) (ptoks r) (sval4 st) (add_leaf (d4 g) ONull) with
  | ROk j' => exists st', step4 g st op = Ok st' /\ sval4 st' = j' /\ sgood4 st'
  | RFail cz => exists e, step4 g st op = Err e /\ cause_rel cz e
  end.
Proof.
  intros G K Lim Hf Df Hp Dp Ed Ea.
  assert (GA : get_at (d4 g) (ptoks rf) (sval4 st) = RFail FMissingMember).
  { unfold ptoks. rewrite get_at_snoc, Ed. cbn [get_leaf]. rewrite Ea. reflexivity. }
  split; [exact GA|].
  pose proof (step4_copy_sim g st op rf r G K Lim Hf Df Hp Dp (copy_clean4_absent g st op rf r G Hf Df Hp Dp GA)) as S.
  rewrite GA in S. cbn [src4] in S.
  destruct S as [jc [V S]]. pose proof (veq_shape _ _ V) as Sh. destruct jc; simpl in Sh; try contradiction; try discriminate. exact S.
Qed.

(* test of an absent member of an existing object: it compares as null (here the legacy package
   and the dialect of the reference agree) *)
Theorem step4_test_absent g st op r ms :
  sgood4 st -> op_kind op = KTest ->
  op_str op (B "path") = Ok (x2f :: r) -> Forall tok_dom4 (map decode_token (split_slash r)) -> val_good4 op ->
  descend (d4 g) (map decode_token (path_parts r)) (sval4 st) = Some (OObj ms) -> aget (path_key r) ms = None ->
  if onull (ref_value op)
  then exists st', step4 g st op = Ok st' /\ sval4 st' = sval4 st /\ sgood4 st'
  else step4 g st op = Err ETestFailed.
Proof.
  intros G K Hp D Vg Ed Ea.
  assert (HV : has_value4 op \/
               forall p, descend (d4 g) (map decode_token (path_parts r)) (sval4 st) = Some p -> child_at (d4 g) p (path_key r) = None).
  { right. intros p Hd. rewrite Ed in Hd. inversion Hd; subst p. cbn [child_at]. exact Ea. }
  pose proof (step4_test_sim g st op r G K Hp D Vg HV) as S.
  unfold ptoks in S. rewrite at_parent_snoc, Ed in S. cbn [test_leaf] in S. rewrite Ea, jeq_null_l in S.
  destruct (onull (ref_value op)); cbn [bind] in S.
  - destruct S as [st' [S1 [S2 [S3 _]]]]. exists st'. split; [exact S1|]. split; [|exact S3].
    rewrite S2. apply rebuild_same. exact Ed.
  - destruct S as [e [S1 S2]]. simpl in S2. subst e. exact S1.
Qed.

(* why the invariant carries UTF-8 validity of member names (ogood4, tkeys; StrInv.nstr in ApplySim.v): the
   encoder writes a name that is not valid UTF-8 as U+FFFD, so re-encoding such an object does not
   give the value back *)
Example bad_name_not_roundtrip :
  den (escape_tree true (render true (NDoc [[xff]] [([xff], NNil)]))) <> aval (NDoc [[xff]] [([xff], NNil)]).
Proof. vm_compute. discriminate. Qed.
