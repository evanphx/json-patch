(* V4Inv.v — what holds of EVERY legacy operation (ImplV4.step4), whatever its members, paths and the package
   variables, by one walk over the six operations (step4_post): a predicate on nodes closed under what the
   engine does to a node (Records closedc4, closed4; the legacy counterpart of ApplyFacts' Section Invariant) is kept, the
   result is never a panic, and outside copy it is not the limit error and the counter stays as it is.
   Instances: every node (any_closed4: TotalityV4, V4LimitFacts), OutputFacts.nall P (V4OutputFacts, Utf8Out),
   V4LimitFacts.nnd. *)
From Coq Require Import Lia.
From JP Require Import Bytes Json Text Strings Den Pointer ImplV5 ImplMerge ImplV4 JsonFacts ListFacts ImplFacts ApplyFacts Totality V4ApplySim.

(* what the container methods do to a node *)
Record closedc4 (Inv : node -> Prop) : Prop := {
  inv4_nil : Inv NNil;
  inv4_ary : forall ns, Inv (NAry ns) <-> Forall Inv ns;
  inv4_get : forall obj k v, Inv (NDoc [] obj) -> aget k obj = Some v -> Inv v;
  inv4_set : forall obj k v, Inv (NDoc [] obj) -> Inv v -> Inv (NDoc [] (aset k v obj));
  inv4_del : forall obj k, Inv (NDoc [] obj) -> Inv (NDoc [] (adel k obj))
}.

(* and findObject, which parses a node one level *)
Record closed4 (Inv : node -> Prop) : Prop := {
  inv4_con :> closedc4 Inv;
  inv4_into : forall n ch, Inv n -> into_con4 n = Some ch -> Inv (node_of_con4 ch)
}.

(* the errors of the legacy engine: never the limit error, except (lim) in a copy *)
Definition nolimit (lim : bool) (e : errclass) : Prop := lim = false -> is_copy_limit e = false.

Lemma post_intro {A} lim (R : A -> Prop) r :
  r <> Panic -> (forall e, r = Err e -> plain_err e = true) -> (forall a, r = Ok a -> R a) -> post R (nolimit lim) False r.
Proof. destruct r; cbn [post]; intros NP HE HO; [apply HO; reflexivity | intros _; apply plain_nocl, HE; reflexivity | congruence]. Qed.

Lemma post_map {A B} lim (R : A -> Prop) (S : B -> Prop) (f : A -> B) r :
  post R (nolimit lim) False r -> (forall a, R a -> S (f a)) ->
  post S (nolimit lim) False (rmap f r).
Proof. destruct r; cbn [post rmap]; auto. Qed.

Lemma post_lim {A} lim (R : A -> Prop) r : post R (nolimit false) False r -> post R (nolimit lim) False r.
Proof. destruct r; cbn [post]; unfold nolimit; auto. Qed.

Lemma op_str_post op name : post (fun _ => True) (nolimit false) False (op_str op name).
Proof. apply post_intro; [apply op_str_nopanic | apply op_str_err | auto]. Qed.

Definition is_copy (k : opk) : bool := match k with KCopy => true | _ => false end.

Section Container4.
  Context {Inv : node -> Prop}.
  Hypothesis HI : closedc4 Inv.
  Local Notation cI := (fun c => Inv (node_of_con4 c)).

  Lemma ary_post (r : res (list node)) :
    r <> Panic -> (forall e, r = Err e -> plain_err e = true) -> (forall ns', r = Ok ns' -> Forall Inv ns') ->
    post cI (nolimit false) False (match r with Ok ns' => Ok (DAry ns') | Err e => Err e | Panic => Panic end).
  Proof.
    intros NP HE HO. apply (post_map false (Forall Inv) cI DAry); [now apply post_intro|].
    intros ns' F. apply (inv4_ary Inv HI). exact F.
  Qed.

  Lemma con4_get_post g c key : cI c -> post Inv (nolimit false) False (con4_get g c key).
  Proof.
    intros C. destruct c as [obj| |ns]; cbn [con4_get node_of_con4 post] in *.
    - destruct (aget key obj) as [v|] eqn:E; [exact (inv4_get Inv HI _ _ _ C E) | exact (inv4_nil Inv HI)].
    - exact (inv4_nil Inv HI).
    - apply (post_map false (fun _ => True) Inv (fun i => nth i ns NNil)).
      + apply post_intro; [apply resolve_idx_get_nopanic | apply resolve_idx_get_err | auto].
      + intros i _. apply Forall_nth_default; [exact (inv4_nil Inv HI) | apply (inv4_ary Inv HI); exact C].
  Qed.

  Lemma con4_put_inv g c key ch : cI c -> Inv ch -> cI (con4_put g c key ch).
  Proof.
    intros C Hch. destruct c as [obj| |ns]; cbn [con4_put node_of_con4] in *.
    - exact (inv4_set Inv HI _ _ _ C Hch).
    - exact C.
    - destruct (resolve_idx_get (o5 g) (zlen ns) key) as [i| |]; try exact C.
      apply (inv4_ary Inv HI). apply (inv4_ary Inv HI) in C. now apply Forall_set_at.
  Qed.

  Lemma con4_add_post g c key v : cI c -> Inv v -> post cI (nolimit false) False (con4_add g c key v).
  Proof.
    intros C Hv. destruct c as [obj| |ns]; cbn [con4_add node_of_con4] in *.
    - exact (inv4_set Inv HI _ _ _ C Hv).
    - intros _. reflexivity.
    - apply (inv4_ary Inv HI) in C.
      apply ary_post; [apply ary_add_never_panics | apply ary_add_err | intros ns'; now apply ary_add_Forall].
  Qed.

  Lemma con4_remove_post g c key : cI c -> post cI (nolimit false) False (con4_remove g c key).
  Proof.
    intros C. destruct c as [obj| |ns]; cbn [con4_remove node_of_con4] in *.
    - destruct (amem key obj); [exact (inv4_del Inv HI _ _ C) | intros _; reflexivity].
    - intros _. reflexivity.
    - apply (inv4_ary Inv HI) in C.
      apply ary_post; [apply ary_remove_nopanic | apply ary_remove_err | intros ns'; now apply ary_remove_Forall].
  Qed.

  (* partialArray.set indexes (d)[idx] without a bound check: safe only after the get that replace performs first *)
  Lemma con4_set_post g c key v x :
    cI c -> Inv v -> con4_get g c key = Ok x -> post cI (nolimit false) False (con4_set g c key v).
  Proof.
    intros C Hv G. destruct c as [obj| |ns]; cbn [con4_get con4_set node_of_con4] in *.
    - exact (inv4_set Inv HI _ _ _ C Hv).
    - intros _. reflexivity.
    - destruct (resolve_idx_get (o5 g) (zlen ns) key) as [i| |] eqn:R; try discriminate.
      rewrite (ary_set_after_get (o5 g) ns key v i R). cbn [post].
      apply (inv4_ary Inv HI). apply (inv4_ary Inv HI) in C. now apply Forall_set_at.
  Qed.

  (* without the get: whenever set succeeds (the form Utf8Out.con4_set_allg instantiates) *)
  Lemma con4_set_inv g c key v c' : cI c -> Inv v -> con4_set g c key v = Ok c' -> cI c'.
  Proof.
    intros C Hv H. destruct c as [obj| |ns]; cbn [con4_set node_of_con4] in *; try discriminate.
    - inversion H; subst. exact (inv4_set Inv HI _ _ _ C Hv).
    - destruct (ary_set (o5 g) ns key v) as [ns'| |] eqn:E; inversion H; subst.
      apply (inv4_ary Inv HI). apply (inv4_ary Inv HI) in C. eapply ary_set_Forall; eauto.
  Qed.

  (* the value of an operation: the raw message of its member, the raw message null for an explicit null, nil without one *)
  Lemma opv4_inv op : Inv (NRaw TNull) -> op_inv Inv op -> Inv (opv4 op).
  Proof.
    intros N A. unfold opv4, op_value4.
    destruct (aget (B "value") op) as [[t|]|] eqn:E; [exact (A t E) | exact N | exact (inv4_nil Inv HI)].
  Qed.

  Lemma upd_post {A} (Q : A -> Prop) (r : res con4) c (a : A) : cI c -> Q a -> post cI (nolimit false) False r ->
    post Q (nolimit false) False (fst (upd r c a)) /\ cI (snd (upd r c a)).
  Proof. intros C Ha P. destruct r as [c'| |]; cbn [upd fst snd post] in *; auto. Qed.

  Lemma add_fn4_post g v c0 key : Inv v -> cI c0 ->
    post (fun _ => True) (nolimit false) False (fst (add_fn4 g v c0 key)) /\ cI (snd (add_fn4 g v c0 key)).
  Proof. intros Hv C. apply upd_post; [exact C | exact I | now apply con4_add_post]. Qed.

  Lemma get_fn4_post g c0 key : cI c0 ->
    post Inv (nolimit false) False (fst (get_fn4 g c0 key)) /\ cI (snd (get_fn4 g c0 key)).
  Proof. intros C. split; [now apply con4_get_post | exact C]. Qed.

  Lemma remove_fn4_post g c0 key : cI c0 ->
    post (fun _ => True) (nolimit false) False (fst (remove_fn4 g c0 key)) /\ cI (snd (remove_fn4 g c0 key)).
  Proof. intros C. apply upd_post; [exact C | exact I | now apply con4_remove_post]. Qed.

  Lemma replace_fn4_post g v c0 key : Inv v -> cI c0 ->
    post (fun _ => True) (nolimit false) False (fst (replace_fn4 g v c0 key)) /\ cI (snd (replace_fn4 g v c0 key)).
  Proof.
    intros Hv C. unfold replace_fn4. pose proof (con4_get_post g c0 key C) as G.
    destruct (con4_get g c0 key) as [x|e|] eqn:E; [|split; [intros _; reflexivity | exact C] | destruct G].
    apply upd_post; [exact C | exact I | exact (con4_set_post g c0 key v x C Hv E)].
  Qed.

  Lemma move_src_fn4_post g c0 key : cI c0 ->
    post Inv (nolimit false) False (fst (move_src_fn4 g c0 key)) /\ cI (snd (move_src_fn4 g c0 key)).
  Proof.
    intros C. unfold move_src_fn4. pose proof (con4_get_post g c0 key C) as G.
    destruct (con4_get g c0 key) as [x|e|]; [|split; [exact G | exact C] | destruct G].
    apply upd_post; [exact C | exact G | now apply con4_remove_post].
  Qed.

  Lemma test_fn4_post g op c0 key : cI c0 ->
    post (fun _ => True) (nolimit false) False (fst (test_fn4 g op c0 key)) /\ cI (snd (test_fn4 g op c0 key)).
  Proof.
    intros C. unfold test_fn4. pose proof (con4_get_post g c0 key C) as G.
    destruct (con4_get g c0 key) as [x|e|]; [|split; [exact G | exact C] | destruct G].
    destruct (is_null4 x); [destruct (null4 _)|destruct (op_value4 op) as [ov|]; [destruct (node_equal4 x ov)|]];
      (split; [cbn [fst post]; unfold nolimit; auto | exact C]).
  Qed.

End Container4.

Section Post4.
  Context {Inv : node -> Prop}.
  Hypothesis HI : closed4 Inv.
  Local Notation cI := (fun c => Inv (node_of_con4 c)).

  (* ---- walk4 / find4: a leaf action that keeps the invariant on the container and returns something with Q ---- *)
  Lemma walk4_inv {A} (Q : A -> Prop) g parts : forall c (f : con4 -> A * con4),
    (forall c0, cI c0 -> Q (fst (f c0)) /\ cI (snd (f c0))) -> cI c ->
    cI (snd (walk4 g parts c f)) /\ (forall a, fst (walk4 g parts c f) = Some a -> Q a).
  Proof.
    induction parts as [|p rest IH]; intros c f Hf C; cbn [walk4].
    - destruct (Hf c C) as [H1 H2]. destruct (f c) as [a c']. cbn [fst snd] in *. split; auto.
      intros a0 E. inversion E; subst; auto.
    - pose proof (con4_get_post HI g c (decode_token p) C) as G.
      destruct (con4_get g c (decode_token p)) as [next| |]; try (cbn [fst snd]; split; [exact C | discriminate]).
      destruct (into_con4 next) as [ch|] eqn:IC; [|cbn [fst snd]; split; [exact C | discriminate]].
      destruct (IH ch f Hf (inv4_into Inv HI next ch G IC)) as [H1 H2].
      destruct (walk4 g rest ch f) as [r ch']. cbn [fst snd] in *. split; auto.
      apply (con4_put_inv HI); auto.
  Qed.

  Lemma find4_inv {A} (Q : A -> Prop) g c path (f : con4 -> bytes -> A * con4) :
    (forall c0 key, cI c0 -> Q (fst (f c0 key)) /\ cI (snd (f c0 key))) -> cI c ->
    cI (snd (find4 g c path f)) /\ (forall a, fst (find4 g c path f) = Some a -> Q a).
  Proof.
    intros Hf C. unfold find4. destruct (split_path path) as [[parts key]|].
    - apply (walk4_inv Q g parts c (fun c' => f c' key) (fun c0 => Hf c0 key) C).
    - cbn [fst snd]. split; [exact C | discriminate].
  Qed.

  (* a leaf that only reads *)
  Lemma find4_read_inv {A} g c path (f : con4 -> bytes -> A * con4) :
    (forall c0 key, snd (f c0 key) = c0) -> cI c -> cI (snd (find4 g c path f)).
  Proof. intros Hf C. apply (find4_inv (fun _ => True)); [|exact C]. intros c0 key C0. rewrite Hf. auto. Qed.

  (* a phase of an operation: find4 with a leaf action, then the rest of the operation on what it returned *)
  Lemma find4_lift_post {A} lim (Q : A -> Prop) (R : state4 -> Prop) g c path (f : con4 -> bytes -> res A * con4) st k :
    cI c ->
    (forall c0 key, cI c0 -> post Q (nolimit false) False (fst (f c0 key)) /\ cI (snd (f c0 key))) ->
    (forall a c1, Q a -> cI c1 -> post R (nolimit lim) False (k a c1)) ->
    post R (nolimit lim) False (lift4 (find4 g c path f) st k).
  Proof.
    intros C Hf Hk. destruct (find4_inv (post Q (nolimit false) False) g c path f Hf C) as [C1 Q1].
    destruct (find4 g c path f) as [[[a|e|]|] c1]; cbn [lift4 fst snd] in *; try (intros _; reflexivity);
      [apply Hk; [exact (Q1 _ eq_refl) | exact C1] | exact (post_lim lim R (Err e) (Q1 _ eq_refl)) | exact (Q1 _ eq_refl)].
  Qed.

  Hypothesis Inv_null : Inv (NRaw TNull).
  Hypothesis Inv_copy : forall g v, Inv v -> Inv (fst (deep_copy4 g v)).

  (* the state an operation leaves behind: the invariant; the counter as it was, unless the operation is a copy *)
  Definition after (st : state4) (op : operation) (st' : state4) : Prop :=
    cI (r4 st') /\ (is_copy (op_kind op) = false -> acc4 st' = acc4 st).

  Lemma keep_acc_post lim st op (u : unit) c1 : cI c1 -> post (after st op) (nolimit lim) False (keep_acc st u c1).
  Proof. intro C. split; [exact C | reflexivity]. Qed.

  Theorem step4_post g st op : cI (r4 st) -> op_inv Inv op ->
    post (after st op) (nolimit (is_copy (op_kind op))) False (step4 g st op).
  Proof.
    intros S A.
    pose proof (opv4_inv HI op Inv_null A) as Hv.
    pose proof (op_str_post op (B "path")) as Pp. pose proof (op_str_post op (B "from")) as Pf.
    assert (Add : forall lim c path v, cI c -> Inv v ->
              post (after st op) (nolimit lim) False (lift4 (find4 g c path (add_fn4 g v)) st (keep_acc st))).
    { intros lim c path v C V. apply (find4_lift_post lim (fun _ => True)); [exact C | intros; now apply (add_fn4_post HI) | intros; now apply keep_acc_post]. }
    destruct (op_kind op) eqn:K.
    - (* add *) rewrite (step4_add g st op K). destruct (op_str op (B "path")) as [path| |]; try (intros _; reflexivity).
      rewrite <- K. apply Add; [exact S | exact Hv].
    - (* remove *) rewrite (step4_remove g st op K). destruct (op_str op (B "path")) as [path| |]; try (intros _; reflexivity).
      rewrite <- K. apply (find4_lift_post _ (fun _ => True)); [exact S | intros; now apply (remove_fn4_post HI) | intros; now apply keep_acc_post].
    - (* replace *) rewrite (step4_replace g st op K). destruct (op_str op (B "path")) as [[|b path]|e|]; [| |intros _; exact (Pp eq_refl)|destruct Pp].
      + unfold op_value4. destruct (aget (B "value") op) as [[t|]|] eqn:E; try (intros _; reflexivity).
        pose proof (fun ch => inv4_into Inv HI _ ch (A t E)) as D.
        destruct t; try (intros _; reflexivity); (split; [exact (D _ eq_refl) | reflexivity]).
      + rewrite <- K. apply (find4_lift_post _ (fun _ => True)); [exact S | intros; now apply (replace_fn4_post HI) | intros; now apply keep_acc_post].
    - (* move *) rewrite (step4_move g st op K). destruct (op_str op (B "from")) as [from|e|]; [|intros _; exact (Pf eq_refl)|destruct Pf].
      rewrite <- K. apply (find4_lift_post _ Inv); [exact S | intros; now apply (move_src_fn4_post HI)|].
      intros v c1 V C1. destruct (op_str op (B "path")) as [path|e|]; [|intros _; exact (Pp eq_refl)|destruct Pp]. now apply Add.
    - (* copy *) rewrite (step4_copy g st op K). destruct (op_str op (B "from")) as [from|e|]; [|discriminate|destruct Pf].
      apply (find4_lift_post true Inv); [exact S | intros; now apply (get_fn4_post HI)|].
      intros _ c1 _ C1. destruct (op_str op (B "path")) as [path| |]; try discriminate.
      pose proof (find4_read_inv g c1 path unit_fn4 (fun _ _ => eq_refl) C1) as C2.
      destruct (find4 g c1 path unit_fn4) as [[u|] c2]; cbn [fst snd] in *; try discriminate.
      apply (find4_lift_post true Inv); [exact C2 | intros; now apply (get_fn4_post HI)|].
      intros v _ V _. pose proof (Inv_copy g v V) as Hcp. destruct (deep_copy4 g v) as [cp sz]. cbn [fst] in Hcp.
      destruct ((0 <? g_limit g)%Z && (g_limit g <? acc4 st + sz)%Z)%bool; [discriminate|].
      apply (find4_lift_post true (fun _ => True)); [exact C2 | intros; now apply (add_fn4_post HI)|].
      intros _ c3 _ C3. split; [exact C3 | rewrite K; discriminate].
    - (* test *) rewrite (step4_test g st op K). destruct (op_str op (B "path")) as [[|b path]|e|]; [| |intros _; exact (Pp eq_refl)|destruct Pp].
      + destruct (node_equal4 _ _ && _)%bool; [split; [exact S | reflexivity] | intros _; reflexivity].
      + rewrite <- K. apply (find4_lift_post _ (fun _ => True)); [exact S | intros; now apply (test_fn4_post HI) | intros; now apply keep_acc_post].
    - rewrite (step4_unknown g st op K). intros _. reflexivity.
  Qed.

  Theorem step4_inv g st op st' : cI (r4 st) -> op_inv Inv op -> step4 g st op = Ok st' -> cI (r4 st').
  Proof. intros S A E. exact (proj1 (post_ok _ _ _ _ st' (step4_post g st op S A) E)). Qed.

  Theorem apply4_from_inv g : forall p i st st' j,
    cI (r4 st) -> Forall (op_inv Inv) p -> apply4_from g i st p = (Ok st', j) -> cI (r4 st').
  Proof.
    induction p as [|op p IH]; intros i st st' j Hs A; cbn [apply4_from].
    - intro H; inversion H; subst; exact Hs.
    - inversion A as [|? ? A1 A2]; subst.
      destruct (step4 g st op) as [st1|e|] eqn:E; try discriminate.
      apply (IH (S i) st1 st' j (step4_inv g st op st1 Hs A1 E) A2).
  Qed.
End Post4.

(* ---- every node whatsoever: the legacy engine needs no invariant not to panic ---- *)
Lemma any_closed4 : closed4 (fun _ => True).
Proof. split; [split|]; auto. intro ns. split; [intros _; apply Forall_forall; auto | auto]. Qed.

Lemma step4_post_any g st op :
  post (fun st' => is_copy (op_kind op) = false -> acc4 st' = acc4 st) (nolimit (is_copy (op_kind op))) False (step4 g st op).
Proof.
  pose proof (step4_post any_closed4 I (fun _ _ _ => I) g st op I (fun _ _ => I)) as P.
  destruct (step4 g st op); cbn [post] in *; [exact (proj2 P) | exact P | exact P].
Qed.
