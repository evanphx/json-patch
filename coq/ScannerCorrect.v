(* ScannerCorrect.v — the reference automaton (ScannerRef.v, proved equal to the scanner translated
   from scanner.go in ScannerTie.v) as a function arun on (state, stack) alone: a scanner record
   without error is determined by the two (swf_canon), and one step keeps it so or sets the error
   (ScannerParse.ref_step_canon).  That every loop over the scanner is a run of the automaton is
   ScannerParse.gfin_grun; that it accepts exactly the texts Text.parse reads, valid_gen_iff_parse. *)
From JP Require Import Bytes ScannerRef.
From JP.gen Require Import ScannerGen.

(* ---- the automaton on (state, stack) ---- *)
Definition is_endtop (x : st) : bool := match x with St_stateEndTop => true | _ => false end.
Definition canon (x : st) (stk : list ps) : scanner := mkScanner x (is_endtop x) stk false.

Definition astep (x : st) (stk : list ps) (c : byte) : option (st * list ps) :=
  let s' := fst (ref_step (canon x stk) c) in
  if err s' then None else Some (step s', parseState s').

Fixpoint arun (x : st) (stk : list ps) (bs : bytes) : option (st * list ps) :=
  match bs with
  | [] => Some (x, stk)
  | c :: r => match astep x stk c with Some (x', stk') => arun x' stk' r | None => None end
  end.

Definition aaccept (x : st) (stk : list ps) : bool :=
  is_endtop x || match astep x stk x20 with Some (x', _) => is_endtop x' | None => false end.

Definition avalid (bs : bytes) : bool :=
  match arun St_stateBeginValue [] bs with Some (x, stk) => aaccept x stk | None => false end.

(* well-formed scanner records: no error, and endTop exactly in state EndTop *)
Definition swf (s : scanner) : Prop := err s = false /\ endTop s = is_endtop (step s).

Lemma swf_canon s : swf s -> s = canon (step s) (parseState s).
Proof. destruct s as [x et stk er]. unfold swf, canon. simpl. intros [-> ->]. reflexivity. Qed.
