(* ParseFacts.v — facts about the independent RFC 8259 reader (Text.parse). *)
From Coq Require Import Lia.
From JP Require Import Bytes Json Text DecodeFacts JsonFacts EqualFacts ReadInv.

Lemma scan_int_first s i rest : scan_int s = Some (i, rest) -> exists c r, i = c :: r /\ is_digit c = true.
Proof.
  unfold scan_int. destruct s as [|c r]; try discriminate.
  destruct (Byte.eqb c x30) eqn:E0.
  - intro H; inversion H; subst. exists c, []. split; auto. apply Byte.byte_dec_bl in E0. subst. reflexivity.
  - destruct (is_digit19 c) eqn:E1; try discriminate. destruct (take_digits r) as [d rest'].
    intro H; inversion H; subst. exists c, d. split; auto.
    unfold is_digit19, is_digit in *. apply andb_prop in E1 as [A B]. apply andb_true_intro. split; auto.
    apply N.leb_le in A. apply N.leb_le. lia.
Qed.

Lemma scan_number_lit s lit rest : scan_number s = Some (lit, rest) -> lit_ok lit = true.
Proof.
  destruct s as [|c r]; [discriminate|]. rewrite scan_number_cons.
  destruct (scan_int _) as [[i s2]|] eqn:Ei; [|discriminate].
  destruct (scan_frac s2) as [[f s3]|]; [|discriminate]. destruct (scan_exp s3) as [[e s4]|]; [|discriminate].
  intro H; inversion H; subst. apply scan_int_first in Ei as (c' & r' & -> & Dc).
  destruct (Byte.eqb c x2d); cbn; [reflexivity|]. rewrite Dc. apply orb_true_r.
Qed.

Lemma parse_value_tlit :
  (forall d s t rest, reads_value d s t rest -> tlit t = true) /\
  (forall d s l rest, reads_elems d s l rest -> forallb tlit l = true) /\
  (forall d s ms rest, reads_members d s ms rest -> forallb (fun kv => tlit (snd kv)) ms = true).
Proof. apply reads_ind; cbn [tlit forallb snd]; eauto using scan_number_lit, andb_true_intro. Qed.

Theorem parse_tlit bs t : parse bs = Some t -> tlit t = true.
Proof. intro H. apply parse_reads in H as (rest & R & _). exact (proj1 parse_value_tlit _ _ _ _ R). Qed.
