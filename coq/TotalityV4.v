(* TotalityV4.v — C04 for the LEGACY root package (ImplV4: patch.go at the repository root, v4 API).

   The legacy Apply never panics: for EVERY setting of the package variables SupportNegativeIndices /
   AccumulatedCopySizeLimit, EVERY indent, EVERY document byte string and EVERY operation list
   (arbitrary op names, path / from bytes, missing or null members, hand-assembled or decoded: the
   legacy DecodePatch validates nothing, so no hypothesis on the patch may be assumed), the outcome
   of api_apply4 is an output or an error (api_apply4_never_panics); likewise one operation in any
   state (step4_never_panics) and the operation loop (apply4_from_never_panics).
   No state invariant is needed: a legacy partialDoc is a bare map (no key list to get out of step
   with), so every panic producer of the container methods is excluded by arithmetic alone.
   It is V4Inv.step4_post for the predicate that holds of every node; that every operation but copy
   returns an outcome or an error that is not the copy-limit error is read off the same theorem in
   V4LimitFacts.v.

   The one panic of the legacy Apply: before fix 1a7093a the patch  [{"op":"replace","path":""}]
   (replace of the whole document, no value member), which the legacy DecodePatch accepts, panicked
   on every document that loads (Patch.replace dereferenced the nil *lazyNode returned by
   op.value()); since that fix it returns ErrMissing.  ImplV4.step4 models the code after the fix,
   and formerly_panicking_inputs below records the inputs. *)
From Coq Require Import Lia.
From JP Require Import Bytes Json Text Strings Den Pointer ImplV5 ImplMerge ImplV4 ImplFacts ApplyFacts Totality V4ApplySim V4Inv.

(* partialArray.set indexes (d)[idx] without a bound check: without the get that replace performs first
   (V4Inv.con4_set_post is stated after it) it does panic *)
Example con4_set_alone_can_panic :
  con4_set (mkOpts4 false 0%Z None) (DAry []) (B "0") NNil = Panic.
Proof. vm_compute. reflexivity. Qed.

Lemma upd_nopanic {A} (r : res con4) c (a : A) : r <> Panic -> fst (upd r c a) <> Panic.
Proof. destruct r; cbn [upd fst]; congruence. Qed.

(* ---- findObject: what a walk returns was computed by the leaf action, whatever the tokens ---- *)
Lemma walk4_result {A} g parts c (f : con4 -> A * con4) a c' :
  walk4 g parts c f = (Some a, c') -> exists c0, fst (f c0) = a.
Proof.
  intro H. apply (proj2 (walk4_inv any_closed4 (fun a => exists c0, fst (f c0) = a) g parts c f (fun c0 _ => conj (ex_intro _ c0 eq_refl) I) I)).
  rewrite H. reflexivity.
Qed.

Lemma find4_result {A} g c path (f : con4 -> bytes -> A * con4) a c' :
  find4 g c path f = (Some a, c') -> exists c0 key, fst (f c0 key) = a.
Proof.
  unfold find4. destruct (split_path path) as [[parts key]|]; [|discriminate].
  intro H. apply walk4_result in H as [c0 H]. eauto.
Qed.

Lemma lift4_nopanic {A} (r : option (res A) * con4) st (k : A -> con4 -> res state4) :
  fst r <> Some Panic -> (forall a c, k a c <> Panic) -> lift4 r st k <> Panic.
Proof. destruct r as [[[a|e|]|] c]; cbn [lift4 fst]; intros H Hk; [apply Hk | discriminate | congruence | discriminate]. Qed.

Lemma ok_state_nopanic (f : con4 -> state4) : forall (u : unit) (c : con4), Ok (f c) <> (Panic : res state4).
Proof. intros u c. discriminate. Qed.

Theorem step4_never_panics g st op : step4 g st op <> Panic.
Proof. intro E. pose proof (step4_post_any g st op) as P. rewrite E in P. exact P. Qed.

Lemma step4_copy_safe g st op : op_kind op = KCopy -> step4 g st op <> Panic.
Proof. intros _. apply step4_never_panics. Qed.

Theorem apply4_from_never_panics g : forall p i st, fst (apply4_from g i st p) <> Panic.
Proof.
  induction p as [|op p IH]; intros i st; cbn [apply4_from]; [cbn [fst]; discriminate|].
  pose proof (step4_never_panics g st op) as NP.
  destruct (step4 g st op) as [st'|e|]; [|cbn [fst]; discriminate|congruence].
  apply IH.
Qed.

Lemma apply4_from_ok_index g : forall p i st st' j, apply4_from g i st p = (Ok st', j) -> j = (i + length p)%nat.
Proof.
  induction p as [|op p IH]; intros i st st' j; cbn [apply4_from length].
  - intro H; inversion H; lia.
  - destruct (step4 g st op) as [st1|e|]; try discriminate. intro H. apply IH in H. lia.
Qed.

Lemma apply4_from_app g p1 : forall p2 i st,
  apply4_from g i st (p1 ++ p2) =
  match apply4_from g i st p1 with
  | (Ok st1, j) => apply4_from g j st1 p2
  | r => r
  end.
Proof.
  induction p1 as [|op p1 IH]; intros p2 i st; cbn [apply4_from app]; [reflexivity|].
  destruct (step4 g st op) as [st1|e|]; try reflexivity. apply IH.
Qed.

(* the main theorem, unconditional: every setting of SupportNegativeIndices /
   AccumulatedCopySizeLimit, every indent, every document byte string, every operation list *)
Theorem api_apply4_never_panics g indent p doc : api_apply4 g indent p doc <> Panic4.
Proof.
  destruct doc as [|b doc]; [discriminate|].
  destruct (parse (b :: doc)) as [t|] eqn:Pd; [|unfold api_apply4; rewrite Pd; discriminate].
  rewrite (api_apply4_eq g indent p b doc t Pd). destruct (api_start4 t) as [c|]; [|discriminate].
  pose proof (apply4_from_never_panics g p 0%nat (mkState4 c 0)) as AP.
  destruct (apply4_from g 0 (mkState4 c 0) p) as [[st|e|] i]; [discriminate | discriminate | destruct (AP eq_refl)].
Qed.

Corollary api_apply4_total g indent p doc :
  (exists out, api_apply4 g indent p doc = Out4 out) \/ (exists i e, api_apply4 g indent p doc = Err4 i e).
Proof.
  pose proof (api_apply4_never_panics g indent p doc) as NP.
  destruct (api_apply4 g indent p doc) as [out|i e|]; [left; eauto | right; eauto | congruence].
Qed.

(* DecodePatch then Apply / ApplyIndent: all byte strings on both sides *)
Corollary decode4_apply4_never_panics g indent patch doc p :
  api_decode4 patch = Some p -> api_apply4 g indent p doc <> Panic4.
Proof. intros _. apply api_apply4_never_panics. Qed.

(* ---- the inputs that panicked before fix 1a7093a ---- *)
(* patch text   [{"op":"replace","path":""}]     (accepted by the legacy DecodePatch, rejected by v5's)
   documents    {}    []    null    {"a":[1,2]}
   since the fix the replace is reported as a missing value at operation 0 *)
Definition bad_patch4 : bytes := B "[{""op"":""replace"",""path"":""""}]".

Example replace_without_value_decodes :
  api_decode4 bad_patch4 = Some [[(B "op", Some (TStr (B "replace"))); (B "path", Some (TStr []))]].
Proof. vm_compute. reflexivity. Qed.

Example formerly_panicking_inputs :
  match api_decode4 bad_patch4 with
  | Some p =>
      api_apply4 (mkOpts4 true 0%Z None) [] p (B "{}") = Err4 (Some 0%nat) EMissing /\
      api_apply4 (mkOpts4 true 0%Z None) [] p (B "[]") = Err4 (Some 0%nat) EMissing /\
      api_apply4 (mkOpts4 true 0%Z None) [] p (B "null") = Err4 (Some 0%nat) EMissing /\
      api_apply4 (mkOpts4 false 7%Z None) (B "  ") p (B "{""a"":[1,2]}") = Err4 (Some 0%nat) EMissing
  | None => False
  end.
Proof. vm_compute. repeat split; reflexivity. Qed.

(* the same in every state and setting: a replace of the whole document without value is ErrMissing *)
Theorem replace_root_without_value g st op :
  op_kind op = KReplace -> op_str op (B "path") = Ok [] -> aget (B "value") op = None ->
  step4 g st op = Err EMissing.
Proof. intros K P V. unfold step4. rewrite K, P. unfold op_value4. rewrite V. reflexivity. Qed.

(* the v5 DecodePatch rejects the same text *)
Example v5_rejects_bad_patch4 : api_decode bad_patch4 = None.
Proof. vm_compute. reflexivity. Qed.

(* other unvalidated shapes that the legacy DecodePatch accepts: error or output *)
Definition run4 (g : opts4) (patch doc : String.string) : option result4 :=
  match api_decode4 (B patch) with Some p => Some (api_apply4 g [] p (B doc)) | None => None end.
Arguments run4 g (patch doc)%string_scope.

Definition g4d : opts4 := mkOpts4 true 0%Z None.   (* the default package variables *)

Example legacy_unvalidated_operations :
  run4 g4d "[{""op"":""add"",""path"":""""}]" "{}" = Some (Err4 (Some 0%nat) EMissing) /\
  run4 g4d "[{""op"":""replace"",""path"":"""",""value"":null}]" "{}" = Some (Err4 (Some 0%nat) EOther) /\
  run4 g4d "[{""op"":""test"",""path"":""""}]" "null" = Some (Err4 (Some 0%nat) ETestFailed) /\
  run4 g4d "[{""op"":""replace"",""path"":""/a""}]" "{""a"":1}" = Some (Out4 (B "{""a"":null}")) /\
  run4 g4d "[{""op"":""copy"",""path"":""/a""}]" "{""a"":1}" = Some (Err4 (Some 0%nat) EMissing) /\
  run4 g4d "[{""op"":""move"",""path"":""/a""}]" "{""a"":1}" = Some (Err4 (Some 0%nat) EMissing) /\
  run4 g4d "[{""op"":""add"",""path"":""/a"",""value"":1}]" "null" = Some (Err4 (Some 0%nat) EInvalid) /\
  run4 g4d "[{""op"":""replace"",""path"":""/-1"",""value"":1}]" "[]" = Some (Err4 (Some 0%nat) EMissing) /\
  run4 g4d "[{""op"":""add"",""path"":""/-2"",""value"":1}]" "[]" = Some (Err4 (Some 0%nat) EInvalidIndex) /\
  run4 g4d "[null,{}]" "{}" = Some (Err4 (Some 0%nat) EOther).
Proof. vm_compute. repeat split; reflexivity. Qed.

Print Assumptions step4_never_panics.
Print Assumptions apply4_from_never_panics.
Print Assumptions api_apply4_never_panics.
Print Assumptions api_apply4_total.
Print Assumptions decode4_apply4_never_panics.
