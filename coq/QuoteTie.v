(* QuoteTie.v -- the translated string encoder (gen/QuoteGen.v, written by tools/goquote2v from
   encodeState.string of v5/internal/json/encode.go) computes the hand-written model Strings.quote.

     quote_run_is_quote      : quote_run esc s out0 = QOk (out0 ++ [x22] ++ quote esc s ++ [x22])
                               for EVERY byte string s (ill-formed UTF-8 included) and every content out0
                               of the buffer: the translated function never runs out of fuel, no index or
                               slice expression is out of range, and what it appends is the model between
                               two quotes
     quote_full_gen_is_quote : quote_full_gen esc s = [x22] ++ quote esc s ++ [x22]
     quote_gen_is_quote      : quote_gen esc s = quote esc s        (quote_gen: between the two quotes)

   What is modelled and not translated: utf8.DecodeRuneInString (Utf8Rune.decode_rune); see the header
   of gen/QuoteGen.v and of tools/goquote2v/main.go for the reading of the buffer writes.

   The proof is written against the MEANING of one loop step (four step lemmas that say which state
   follows; the one for an ASCII byte matches the tests of the generated term with those of Codec.qchar,
   the others evaluate it), not against its text: harmless rewrites of the Go source go through,
   behavioural ones fail in the step lemma of the branch they touch.

   Loop invariant (fixed esc, s, and the text T the function has to produce in the end):
     0 <= start <= i <= len s   and   out ++ s[start:i] ++ quote esc s[i:] = T
   The part of s before i has been consumed: its encoding is in out except for the pending run
   s[start:i] of bytes that stand for themselves; quote of the rest is still to come. *)
From Coq Require Import Lia.
From JP Require Import Bytes Strings Utf8Rune Utf16Rune Codec TieFacts.
From JP.gen Require Import TablesGen QuoteGen.
Local Open Scope Z_scope.

Lemma len_nonneg s : 0 <= len s.
Proof. unfold len. lia. Qed.

Lemma slice_empty s a : slice s a a = [].
Proof. unfold slice. now rewrite Z.sub_diag. Qed.

Lemma slice_to_end s a : 0 <= a -> slice s a (len s) = skipn (Z.to_nat a) s.
Proof.
  intro H. unfold slice, len. apply firstn_all2. rewrite skipn_length. lia.
Qed.

Lemma at_skipn s i c r : 0 <= i -> skipn (Z.to_nat i) s = c :: r -> at_ s i = c.
Proof.
  intros _ E. unfold at_. rewrite <- (Nat.add_0_r (Z.to_nat i)), nth_skipn, E. reflexivity.
Qed.

(* moving the loop variable forward over k bytes of the rest *)
Lemma advance s i k t :
  0 <= i -> i <= len s -> skipn (Z.to_nat i) s = t -> (k <= length t)%nat ->
  i + Z.of_nat k <= len s /\
  skipn (Z.to_nat (i + Z.of_nat k)) s = skipn k t /\
  forall start, 0 <= start <= i -> slice s start (i + Z.of_nat k) = slice s start i ++ firstn k t.
Proof.
  intros H0 H1 E K.
  assert (Lt : length t = (length s - Z.to_nat i)%nat) by (rewrite <- E; apply skipn_length).
  unfold len in *. split; [lia|]. split.
  - rewrite <- E, skipn_skipn. f_equal. lia.
  - intros start Hs. unfold slice.
    replace (Z.to_nat (i + Z.of_nat k - start)) with (Z.to_nat (i - start) + k)%nat by lia.
    rewrite firstn_add.
    f_equal. f_equal. rewrite skipn_skipn, <- E. f_equal. lia.
Qed.

(* what the generated code can see of decode_rune at a byte >= 0x80 *)
Lemma decode_rune_multi c r : (bn c <? 128)%N = false ->
  match utf8_len (c :: r) with
  | O => decode_rune (c :: r) = (65533, 1)
  | S n =>
      exists rv, decode_rune (c :: r) = (rv, Z.of_nat (S n)) /\ (2 <= S n)%nat /\
        match is_ls (c :: r) with
        | Some (d, _) => S n = 3%nat /\ ((rv = 8232 /\ d = x38) \/ (rv = 8233 /\ d = x39))
        | None => rv <> 8232 /\ rv <> 8233
        end
  end.
Proof.
  intro H. pose proof (decode_rune_encode c r H) as D. destruct (utf8_len (c :: r)) as [|n] eqn:E; [exact D|].
  destruct D as (rv & D & K & En). exists rv. split; [exact D|]. split; [exact K|].
  destruct (is_ls (c :: r)) as [[d r']|] eqn:L.
  - split; [rewrite <- E; exact (is_ls_valid c r _ L)|].
    apply is_ls_inv in L as [[L ->]|[L ->]]; rewrite L in D; injection D as <- _; [left | right]; split; reflexivity.
  - (* U+2028 / U+2029 are re-encoded as e2 80 a8 / a9 *)
    split; intros ->; [change (encode_rune_z 8232) with [xe2; x80; xa8] in En | change (encode_rune_z 8233) with [xe2; x80; xa9] in En];
      destruct n as [|[|[|n]]]; try discriminate En; destruct r as [|a [|b r']]; try discriminate En;
      injection En as <- <- <-; discriminate L.
Qed.

Lemma quote_nil esc : quote esc [] = [].
Proof. reflexivity. Qed.

Lemma tab_tbl t c : tab t (bz c) = tbl t c.
Proof. unfold tab, tbl, bz. now rewrite <- Z_N_nat, N2Z.id. Qed.

Lemma in_table c : (bn c <? 128)%N = true ->
  in_idx (bz c) (tlen htmlSafeSet) = true /\ in_idx (bz c) (tlen safeSet) = true.
Proof.
  intro H. apply N.ltb_lt in H. change (tlen htmlSafeSet) with 128. change (tlen safeSet) with 128.
  unfold in_idx, bz. rewrite andb_true_iff, Z.leb_le, Z.ltb_lt. lia.
Qed.

(* the two digits of the escape of a control character, as the Go code computes them *)
Lemma hex_digits c :
  at_ go_hex (Z.shiftr (bz c) 4) = hexdigit (bn c / 16) /\ at_ go_hex (Z.land (bz c) 15) = hexdigit (bn c mod 16) /\
  in_idx (Z.shiftr (bz c) 4) (len go_hex) = true /\ in_idx (Z.land (bz c) 15) (len go_hex) = true.
Proof. exact (go_hex_digits c). Qed.

Section Step.
  Variables (esc : bool) (s : bytes) (i start : Z) (out : bytes) (c : byte) (r : bytes).
  Hypothesis Hstart : 0 <= start <= i.
  Hypothesis Hi : i <= len s.
  Hypothesis Hrest : skipn (Z.to_nat i) s = c :: r.

  Let F1 : in_idx i (len s) = true.
  Proof.
    assert (L : (length (c :: r) = length s - Z.to_nat i)%nat) by (rewrite <- Hrest; apply skipn_length).
    apply idx_in_range. unfold len in *. simpl in L. lia.
  Qed.
  Let F2 : at_ s i = c.
  Proof. apply (at_skipn s i c r); [lia | exact Hrest]. Qed.
  Let F3 : in_slice start i (len s) = true.
  Proof. apply slice_in_range; lia. Qed.
  Let F4 : in_slice i (len s) (len s) = true.
  Proof. apply slice_in_range; lia. Qed.
  Let F5 : slice s i (len s) = c :: r.
  Proof. rewrite slice_to_end by lia. exact Hrest. Qed.
  Let F6 : (start <? i) = false -> slice s start i = [].
  Proof. intro H. apply Z.ltb_ge in H. replace start with i by lia. apply slice_empty. Qed.

  Ltac eval_step :=
    lazy -[app Z.add]; rewrite <- ?app_assoc; cbn [app]; reflexivity.

  Ltac open_step :=
    unfold quote_step; cbv zeta; rewrite ?F1, ?F2, ?F3, ?F4, ?F5; cbv zeta.

  (* a byte below 0x80: it stays pending, or the pending run and its escape are written *)
  Lemma step_ascii : (bn c <? 128)%N = true ->
    quote_step esc s i start out =
    if tbl htmlSafeSet c || (negb esc && tbl safeSet c) then SNext (i + 1) start out
    else SNext (i + 1) (i + 1) (out ++ slice s start i ++ qchar esc c).
  Proof.
    intro Hc. open_step. destruct (hex_digits c) as (X1 & X2 & X3 & X4). destruct (in_table c Hc) as [T1 T2].
    rewrite bz_lt128, Hc, T1, T2, !tab_tbl, X1, X2, X3, X4. cbn [negb andb]. rewrite qchar_if.
    destruct (tbl htmlSafeSet c || _); [reflexivity|].
    change 92 with (bz x5c). change 34 with (bz x22). change 10 with (bz x0a). change 13 with (bz x0d).
    change 9 with (bz x09). rewrite !bz_eqb.
    destruct (start <? i); [|rewrite (F6 eq_refl)]; cbn [negb app];
      (destruct (Byte.eqb c x5c || Byte.eqb c x22); [| destruct (Byte.eqb c x0a); [| destruct (Byte.eqb c x0d);
        [| destruct (Byte.eqb c x09)]]]); rewrite <- ?app_assoc; reflexivity.
  Qed.

  (* a byte from 0x80 on that does not start a well-formed sequence *)
  Lemma step_invalid : (bn c <? 128)%N = false -> utf8_len (c :: r) = 0%nat ->
    quote_step esc s i start out =
    SNext (i + 1) (i + 1) (out ++ slice s start i ++ [x5c; x75; x66; x66; x66; x64]).
  Proof.
    intros Hc E. pose proof (decode_rune_multi c r Hc) as D. rewrite E in D.
    open_step. rewrite bz_lt128, Hc, D. cbv beta iota zeta. clear F1 F2 F3 F4 F5 D.
    generalize F6. generalize (slice s start i) as m. generalize (start <? i) as lt. intros lt m Fm.
    destruct lt; [|rewrite (Fm eq_refl)]; eval_step.
  Qed.

  (* U+2028 / U+2029 *)
  Lemma step_ls d r' : (bn c <? 128)%N = false -> is_ls (c :: r) = Some (d, r') ->
    quote_step esc s i start out =
    SNext (i + 3) (i + 3) (out ++ slice s start i ++ [x5c; x75; x32; x30; x32; d]).
  Proof.
    intros Hc L. pose proof (decode_rune_multi c r Hc) as D.
    rewrite (is_ls_valid c r _ L), L in D. destruct D as (rv & D & _ & _ & V).
    open_step. rewrite bz_lt128, Hc, D. cbv beta iota zeta. clear F1 F2 F3 F4 F5 D.
    generalize F6. generalize (slice s start i) as m. generalize (start <? i) as lt. intros lt m Fm.
    destruct V as [[-> ->]|[-> ->]]; (destruct lt; [|rewrite (Fm eq_refl)]); eval_step.
  Qed.

  (* any other well-formed sequence of n+1 bytes stays pending *)
  Lemma step_multi n : (bn c <? 128)%N = false -> utf8_len (c :: r) = S n -> is_ls (c :: r) = None ->
    quote_step esc s i start out = SNext (i + Z.of_nat (S n)) start out.
  Proof.
    intros Hc E L. pose proof (decode_rune_multi c r Hc) as D. rewrite E, L in D.
    destruct D as (rv & D & K & V1 & V2).
    open_step. rewrite bz_lt128, Hc, D. cbv beta iota zeta. zdecide. rewrite ?andb_false_r. reflexivity.
  Qed.
End Step.

Definition Inv (esc : bool) (s T : bytes) (i start : Z) (out : bytes) : Prop :=
  0 <= start <= i /\ i <= len s /\ out ++ slice s start i ++ quote esc (skipn (Z.to_nat i) s) = T.

(* the two kinds of step keep it: k bytes of the rest t stand for themselves and join the pending run, or the
   pending run and e are written for them *)
Lemma inv_pending esc s T i start out t k :
  Inv esc s T i start out -> skipn (Z.to_nat i) s = t -> (k <= length t)%nat ->
  quote esc t = firstn k t ++ quote esc (skipn k t) ->
  Inv esc s T (i + Z.of_nat k) start out.
Proof.
  intros (Hs & Hi & HT) Hrest K Q. destruct (advance s i k t) as (A1 & A2 & A3); [lia | exact Hi | exact Hrest | exact K |].
  split; [lia|]. split; [exact A1|]. rewrite A2, (A3 start Hs), <- HT, Hrest, Q, <- !app_assoc. reflexivity.
Qed.

Lemma inv_flush esc s T i start out t k e :
  Inv esc s T i start out -> skipn (Z.to_nat i) s = t -> (k <= length t)%nat ->
  quote esc t = e ++ quote esc (skipn k t) ->
  Inv esc s T (i + Z.of_nat k) (i + Z.of_nat k) (out ++ slice s start i ++ e).
Proof.
  intros (Hs & Hi & HT) Hrest K Q. destruct (advance s i k t) as (A1 & A2 & _); [lia | exact Hi | exact Hrest | exact K |].
  split; [lia|]. split; [exact A1|]. rewrite A2, slice_empty, <- HT, Hrest, Q, <- !app_assoc. reflexivity.
Qed.

Lemma step_keeps_inv esc s T i start out :
  Inv esc s T i start out -> i < len s ->
  exists i' start' out', quote_step esc s i start out = SNext i' start' out' /\ i < i' /\ Inv esc s T i' start' out'.
Proof.
  intros I Hlt. pose proof I as (Hs & Hi & _).
  destruct (skipn (Z.to_nat i) s) as [|c r] eqn:Hrest.
  { exfalso. apply (f_equal (@length _)) in Hrest. rewrite skipn_length in Hrest. unfold len in Hlt. simpl in Hrest. lia. }
  assert (K1 : (1 <= length (c :: r))%nat) by (simpl; lia).
  destruct (bn c <? 128)%N eqn:Hc.
  - (* ASCII *)
    rewrite (step_ascii esc s i start out c r Hs Hi Hrest Hc). pose proof (quote_ascii esc c r Hc) as Q.
    destruct (tbl htmlSafeSet c || (negb esc && tbl safeSet c)) eqn:Safe.
    + eexists _, _, _. split; [reflexivity|]. split; [lia|].
      apply (inv_pending esc s T i start out _ 1 I Hrest K1). rewrite Q. unfold qchar. rewrite Safe. reflexivity.
    + eexists _, _, _. split; [reflexivity|]. split; [lia|].
      exact (inv_flush esc s T i start out _ 1 _ I Hrest K1 Q).
  - destruct (utf8_len (c :: r)) as [|n] eqn:E.
    + (* ill-formed *)
      rewrite (step_invalid esc s i start out c r Hs Hi Hrest Hc E).
      eexists _, _, _. split; [reflexivity|]. split; [lia|].
      exact (inv_flush esc s T i start out _ 1 _ I Hrest K1 (quote_invalid esc c r Hc E)).
    + pose proof (utf8_len_le (c :: r)) as Le. rewrite E in Le.
      pose proof (quote_multi esc c r n Hc E) as Q.
      destruct (is_ls (c :: r)) as [[d r']|] eqn:L.
      * (* U+2028, U+2029 *)
        assert (N3 : S n = 3%nat) by (rewrite <- E; apply (is_ls_valid c r _ L)).
        rewrite N3 in Le.
        rewrite (step_ls esc s i start out c r Hs Hi Hrest d r' Hc L).
        eexists _, _, _. split; [reflexivity|]. split; [lia|].
        apply (inv_flush esc s T i start out _ 3 _ I Hrest Le). rewrite Q.
        apply is_ls_inv in L as [[-> _]|[-> _]]; reflexivity.
      * (* another well-formed sequence *)
        rewrite (step_multi esc s i start out c r Hs Hi Hrest n Hc E L).
        eexists _, _, _. split; [reflexivity|]. split; [lia|].
        exact (inv_pending esc s T i start out _ (S n) I Hrest Le Q).
Qed.

(* the loop ends, within its fuel, at i = len s with the invariant *)
Lemma loop_runs esc s T : forall fuel i start out,
  Inv esc s T i start out -> (Z.to_nat (len s - i) < fuel)%nat ->
  exists start' out', quote_loop fuel esc s i start out = LDone (len s) start' out' /\ Inv esc s T (len s) start' out'.
Proof.
  induction fuel as [|fuel IH]; intros i start out I F; [lia|].
  cbn [quote_loop]. destruct (i <? len s) eqn:C.
  - apply Z.ltb_lt in C. destruct (step_keeps_inv esc s T i start out I C) as (i' & start' & out' & -> & Lt & I').
    apply IH; [exact I'|]. destruct I' as (_ & Hi' & _). lia.
  - apply Z.ltb_ge in C. destruct I as (Hs & Hi & HT). assert (i = len s) by lia. subst i.
    exists start, out. split; [reflexivity|]. split; [exact Hs|]. split; [lia | exact HT].
Qed.

Theorem quote_run_is_quote : forall esc s out0,
  quote_run esc s out0 = QOk (out0 ++ [x22] ++ quote esc s ++ [x22]).
Proof.
  intros esc s out0. set (T := (out0 ++ [x22]) ++ quote esc s).
  assert (I0 : Inv esc s T 0 0 (out0 ++ [x22])).
  { split; [lia|]. split; [apply len_nonneg|]. rewrite slice_empty. reflexivity. }
  destruct (loop_runs esc s T (S (length s)) 0 0 (out0 ++ [x22]) I0) as (start & out & L & (Hs & _ & HT)).
  { unfold len. lia. }
  unfold quote_run. cbv zeta. rewrite L.
  rewrite slice_to_end in HT by lia.
  assert (G : in_slice start (len s) (len s) = true) by (apply slice_in_range; lia).
  assert (Q : skipn (Z.to_nat (len s)) s = []).
  { apply skipn_all2. unfold len. lia. }
  rewrite Q, quote_nil, app_nil_r in HT.
  assert (R : out0 ++ [x22] ++ quote esc s ++ [x22] = (out ++ skipn (Z.to_nat start) s) ++ [x22]).
  { rewrite HT. unfold T. rewrite <- !app_assoc. reflexivity. }
  rewrite R. rewrite ?G, ?slice_to_end by lia. cbn [negb].
  destruct (start <? len s) eqn:C; [reflexivity|].
  apply Z.ltb_ge in C. assert (E : skipn (Z.to_nat start) s = []).
  { apply skipn_all2. unfold len in *. lia. }
  rewrite E, app_nil_r. reflexivity.
Qed.

Theorem quote_full_gen_is_quote : forall esc s, quote_full_gen esc s = [x22] ++ quote esc s ++ [x22].
Proof. intros esc s. unfold quote_full_gen. rewrite quote_run_is_quote. reflexivity. Qed.

(* the bytes between the first and the last byte of what the function writes: Strings.quote models
   the body of the string literal without its two quotes *)
Definition quote_gen (esc : bool) (s : bytes) : bytes := removelast (tl (quote_full_gen esc s)).

Theorem quote_gen_is_quote : forall esc s, quote_gen esc s = quote esc s.
Proof.
  intros esc s. unfold quote_gen. rewrite quote_full_gen_is_quote. cbn [app tl].
  apply removelast_last.
Qed.

(* the fuel never runs out and nothing is out of range, said separately *)
Corollary quote_run_total : forall esc s out0, quote_run esc s out0 <> QFuel /\ quote_run esc s out0 <> QPanic.
Proof. intros esc s out0. rewrite quote_run_is_quote. split; discriminate. Qed.

(* ------------------------------------------------------------------ examples
   The right-hand sides are what the Go encoder of the fork writes for these strings (Encoder.Encode of
   the string with SetEscapeHTML false / true, run once on a copy of v5/internal/json): the translated
   function computes them by vm_compute, and by the theorem so does the model.
   controls (with backspace and form feed, which this fork writes as u-escapes), quotes and backslash,
   the HTML characters, U+2028 / U+2029 next to U+202A, two-, three- and four-byte sequences with a
   well-formed U+FFFD, ill-formed bytes (lone lead and continuation bytes, over-long form, truncated
   sequence, surrogate, beyond U+10FFFF), and a pending run followed by an ill-formed byte. *)
Example ex_empty_false :
  quote_full_gen false [] =
  [x22; x22].
Proof. vm_compute. reflexivity. Qed.

Example ex_empty_true :
  quote_full_gen true [] =
  [x22; x22].
Proof. vm_compute. reflexivity. Qed.

Example ex_controls_false :
  quote_full_gen false [x61; x00; x01; x08; x09; x0a; x0c; x0d; x1f; x7f; x20; x62] =
  [x22; x61; x5c; x75; x30; x30; x30; x30; x5c; x75; x30; x30; x30; x31; x5c; x75; x30; x30; x30; x38; x5c; x74; x5c; x6e; x5c; x75; x30; x30; x30; x63; x5c; x72; x5c; x75; x30; x30; x31; x66; x7f; x20; x62; x22].
Proof. vm_compute. reflexivity. Qed.

Example ex_controls_true :
  quote_full_gen true [x61; x00; x01; x08; x09; x0a; x0c; x0d; x1f; x7f; x20; x62] =
  [x22; x61; x5c; x75; x30; x30; x30; x30; x5c; x75; x30; x30; x30; x31; x5c; x75; x30; x30; x30; x38; x5c; x74; x5c; x6e; x5c; x75; x30; x30; x30; x63; x5c; x72; x5c; x75; x30; x30; x31; x66; x7f; x20; x62; x22].
Proof. vm_compute. reflexivity. Qed.

Example ex_quotes_false :
  quote_full_gen false [x73; x61; x79; x20; x22; x68; x69; x22; x20; x5c; x20; x2f; x20; x27] =
  [x22; x73; x61; x79; x20; x5c; x22; x68; x69; x5c; x22; x20; x5c; x5c; x20; x2f; x20; x27; x22].
Proof. vm_compute. reflexivity. Qed.

Example ex_quotes_true :
  quote_full_gen true [x73; x61; x79; x20; x22; x68; x69; x22; x20; x5c; x20; x2f; x20; x27] =
  [x22; x73; x61; x79; x20; x5c; x22; x68; x69; x5c; x22; x20; x5c; x5c; x20; x2f; x20; x27; x22].
Proof. vm_compute. reflexivity. Qed.

Example ex_html_false :
  quote_full_gen false [x3c; x61; x20; x68; x72; x65; x66; x3d; x22; x78; x22; x3e; x26; x61; x6d; x70; x3b; x3c; x2f; x61; x3e] =
  [x22; x3c; x61; x20; x68; x72; x65; x66; x3d; x5c; x22; x78; x5c; x22; x3e; x26; x61; x6d; x70; x3b; x3c; x2f; x61; x3e; x22].
Proof. vm_compute. reflexivity. Qed.

Example ex_html_true :
  quote_full_gen true [x3c; x61; x20; x68; x72; x65; x66; x3d; x22; x78; x22; x3e; x26; x61; x6d; x70; x3b; x3c; x2f; x61; x3e] =
  [x22; x5c; x75; x30; x30; x33; x63; x61; x20; x68; x72; x65; x66; x3d; x5c; x22; x78; x5c; x22; x5c; x75; x30; x30; x33; x65; x5c; x75; x30; x30; x32; x36; x61; x6d; x70; x3b; x5c; x75; x30; x30; x33; x63; x2f; x61; x5c; x75; x30; x30; x33; x65; x22].
Proof. vm_compute. reflexivity. Qed.

Example ex_ls_false :
  quote_full_gen false [x78; xe2; x80; xa8; x79; xe2; x80; xa9; x7a; xe2; x80; xaa] =
  [x22; x78; x5c; x75; x32; x30; x32; x38; x79; x5c; x75; x32; x30; x32; x39; x7a; xe2; x80; xaa; x22].
Proof. vm_compute. reflexivity. Qed.

Example ex_ls_true :
  quote_full_gen true [x78; xe2; x80; xa8; x79; xe2; x80; xa9; x7a; xe2; x80; xaa] =
  [x22; x78; x5c; x75; x32; x30; x32; x38; x79; x5c; x75; x32; x30; x32; x39; x7a; xe2; x80; xaa; x22].
Proof. vm_compute. reflexivity. Qed.

Example ex_astral_false :
  quote_full_gen false [xf0; x9f; x98; x80; x20; x61; x6e; x64; x20; xc3; xa9; x20; x61; x6e; x64; x20; xef; xbf; xbd] =
  [x22; xf0; x9f; x98; x80; x20; x61; x6e; x64; x20; xc3; xa9; x20; x61; x6e; x64; x20; xef; xbf; xbd; x22].
Proof. vm_compute. reflexivity. Qed.

Example ex_astral_true :
  quote_full_gen true [xf0; x9f; x98; x80; x20; x61; x6e; x64; x20; xc3; xa9; x20; x61; x6e; x64; x20; xef; xbf; xbd] =
  [x22; xf0; x9f; x98; x80; x20; x61; x6e; x64; x20; xc3; xa9; x20; x61; x6e; x64; x20; xef; xbf; xbd; x22].
Proof. vm_compute. reflexivity. Qed.

Example ex_illformed_false :
  quote_full_gen false [xff; x20; x61; x20; xc0; x80; x20; xe2; x80; x20; xed; xa0; x80; x20; xf4; x90; x80; x80; x20; xe2] =
  [x22; x5c; x75; x66; x66; x66; x64; x20; x61; x20; x5c; x75; x66; x66; x66; x64; x5c; x75; x66; x66; x66; x64; x20; x5c; x75; x66; x66; x66; x64; x5c; x75; x66; x66; x66; x64; x20; x5c; x75; x66; x66; x66; x64; x5c; x75; x66; x66; x66; x64; x5c; x75; x66; x66; x66; x64; x20; x5c; x75; x66; x66; x66; x64; x5c; x75; x66; x66; x66; x64; x5c; x75; x66; x66; x66; x64; x5c; x75; x66; x66; x66; x64; x20; x5c; x75; x66; x66; x66; x64; x22].
Proof. vm_compute. reflexivity. Qed.

Example ex_illformed_true :
  quote_full_gen true [xff; x20; x61; x20; xc0; x80; x20; xe2; x80; x20; xed; xa0; x80; x20; xf4; x90; x80; x80; x20; xe2] =
  [x22; x5c; x75; x66; x66; x66; x64; x20; x61; x20; x5c; x75; x66; x66; x66; x64; x5c; x75; x66; x66; x66; x64; x20; x5c; x75; x66; x66; x66; x64; x5c; x75; x66; x66; x66; x64; x20; x5c; x75; x66; x66; x66; x64; x5c; x75; x66; x66; x66; x64; x5c; x75; x66; x66; x66; x64; x20; x5c; x75; x66; x66; x66; x64; x5c; x75; x66; x66; x66; x64; x5c; x75; x66; x66; x66; x64; x5c; x75; x66; x66; x66; x64; x20; x5c; x75; x66; x66; x66; x64; x22].
Proof. vm_compute. reflexivity. Qed.

Example ex_pending_then_bad_false :
  quote_full_gen false [x61; x62; x63; x80] =
  [x22; x61; x62; x63; x5c; x75; x66; x66; x66; x64; x22].
Proof. vm_compute. reflexivity. Qed.

Example ex_pending_then_bad_true :
  quote_full_gen true [x61; x62; x63; x80] =
  [x22; x61; x62; x63; x5c; x75; x66; x66; x66; x64; x22].
Proof. vm_compute. reflexivity. Qed.

Example ex_model_agrees :
  quote false [x61; xe2; x80; xa8; xff; x3c; x0a] = quote_gen false [x61; xe2; x80; xa8; xff; x3c; x0a] /\
  quote true [x61; xe2; x80; xa8; xff; x3c; x0a] =
    [x61; x5c; x75; x32; x30; x32; x38; x5c; x75; x66; x66; x66; x64; x5c; x75; x30; x30; x33; x63; x5c; x6e] /\
  quote_run true [x3c] [x7b] = QOk [x7b; x22; x5c; x75; x30; x30; x33; x63; x22].
Proof. vm_compute. repeat split. Qed.

Print Assumptions quote_run_is_quote.
Print Assumptions quote_gen_is_quote.
