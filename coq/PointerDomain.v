(* PointerDomain.v — the bridge between the BOOLEAN domain predicates of Domain.v (evaluated by the
   correspondence harness on RAW reference tokens, i.e. the pieces of the pointer string between
   slashes, before the escapes ~0 / ~1 are undone) and the Prop hypotheses of the simulation
   theorems of ApplySim.v (tok_dom / ptr_ok / op_dom, stated on DECODED tokens).

   Results.
   1. decode_token never creates a numeric spelling: if the decoded token is read as a number by
      strconv.Atoi, or is a canonical index spelling, then the raw token contained no escape and
      the decoded token IS the raw token (ImplFacts.v: decode_token_atoi, decode_token_canonical_nat/_neg).
   2. The implication Domain.token_ok raw = true -> tok_dom (decode_token raw) is FALSE, but not
      because of unescaping: Domain.token_ok admits canonical spellings that do not fit 64 bits
      (atoi fails on them, so token_ok says true), and admits the spelling of -2^63, while tok_dom
      demands that every canonical spelling is at most 2^63-1 (tok_small).  Counterexamples:
      token_ok_not_tok_dom_big, token_ok_not_tok_dom_min64, and at the level of a decoded,
      validated patch in_domain_C01_not_op_dom.
   3. With the one extra boolean conjunct token_small (canonical spellings fit int64) the
      implication holds and is in fact an equivalence (token_dom_iff, pointer_dom_iff), up to the
      UTF-8 conjunct of tok_dom: token_ok && token_small is exactly the boolean form of the numeric
      part of tok_dom on raw tokens.
   4. tok_dom also asks that the decoded token is valid UTF-8 and op_dom that the value's string
      bodies are scanner-accepted (the string invariant that makes deepCopy a round trip).  Both are
      THEOREMS for decoded patches: path/from are results of unquote on scanner-accepted bodies
      (op_tsb_str, api_decode_tsb), and splitting at '/' and undoing ~0 ~1 keep UTF-8 validity
      (utf8_split_slash, utf8_decode_token, utf8_pointer_tokens).
   5. For a patch produced by DecodePatch (api_decode), in_domain_C01 together with op_small gives
      Forall op_dom (decoded_in_domain_op_dom); C01's theorem restated on the boolean domain, with
      no hypothesis other than the boolean ones: C01_on_boolean_domain.
   6. tok_small can be traded for a bound on the array length (resolve_idx_get_ref_len,
      ary_add_ref_len, ary_remove_ref_len: both are instances of ImplFacts.idx_fits) but not dropped:
      big_index_needs_length_bound. *)
From Coq Require Import Lia.
From JP Require Import Bytes Json Text Strings Den Pointer Rfc6902 ImplV5 Domain DecodeFacts JsonFacts Abs
                       EqualFacts ParseFacts ImplFacts RefFacts ApplyFacts Codec StrInv Depth ApplySim.

Local Open Scope Z_scope.

Lemma decode_token_nonempty t : t <> [] -> decode_token t <> [].
Proof.
  destruct t as [|c r]; [congruence|]. intros _. rewrite decode_token_cons.
  destruct (Byte.eqb c x7e); [|discriminate].
  destruct (decode_tilde_head r) as [h [tl [_ G]]]. rewrite G. discriminate.
Qed.

Corollary decode_token_no_new_canonical t :
  canonical_nat t = None -> canonical_neg t = None -> ~ tok_canonical (decode_token t).
Proof.
  intros H1 H2 [[n Hn]|[k Hk]].
  - rewrite (decode_token_canonical_nat _ _ Hn) in Hn. congruence.
  - rewrite (decode_token_canonical_neg _ _ Hk) in Hk. congruence.
Qed.

Corollary decode_token_no_new_atoi t : atoi t = None -> atoi (decode_token t) = None.
Proof. intro H. rewrite atoi_decode. exact H. Qed.

(* ---- valid UTF-8 is preserved by splitting at '/' and by undoing ~0 / ~1 ---- *)
(* (tok_dom asks that a decoded token is valid UTF-8: the member name that add creates from it is
   re-encoded by copy.  Every string of a decoded patch is the result of unquote, hence valid
   UTF-8; the slash and the tilde are ASCII, so the pieces are valid UTF-8 too.) *)
Lemma pd_high_not c : (bn c <? 128)%N = false -> Byte.eqb c x2f = false /\ Byte.eqb c x7e = false.
Proof. intro H. split; apply (eqb_differ (fun c => bn c <? 128)%N); rewrite H; discriminate. Qed.

Lemma pd_split_slash_high l s p ps :
  Forall (fun x => (bn x <? 128)%N = false) l -> split_slash s = p :: ps ->
  split_slash (l ++ s) = (l ++ p) :: ps.
Proof.
  intros F E. induction F as [|x l Hx Hl IH]; cbn [app]; [exact E|].
  cbn [split_slash]. rewrite (proj1 (pd_high_not x Hx)), IH. reflexivity.
Qed.

Lemma pd_decode_token_high l s :
  Forall (fun x => (bn x <? 128)%N = false) l -> decode_token (l ++ s) = l ++ decode_token s.
Proof.
  induction 1 as [|x l Hx Hl IH]; cbn [app]; [reflexivity|].
  rewrite decode_token_cons, (proj2 (pd_high_not x Hx)), IH. reflexivity.
Qed.

Lemma utf8_split_slash s : utf8 s -> Forall utf8 (split_slash s).
Proof.
  induction 1 as [|c r H U IH|c r n H E U IH].
  - repeat constructor.
  - cbn [split_slash]. destruct (Byte.eqb c x2f); [constructor; [constructor | exact IH]|].
    destruct (split_slash r) as [|p ps]; [repeat constructor; exact H|].
    inversion IH; subst. constructor; [apply U_ascii; assumption | assumption].
  - rewrite <- (firstn_skipn (S n) (c :: r)).
    destruct (split_slash (skipn (S n) (c :: r))) as [|p ps] eqn:Es; [exfalso; exact (split_slash_nonempty _ Es)|].
    rewrite (pd_split_slash_high _ _ p ps (si_utf8_seq_high c r n H E) Es).
    inversion IH; subst. constructor; [apply utf8_chunk; assumption | assumption].
Qed.

Lemma utf8_decode_token_tilde t : utf8 t -> utf8 (decode_token t) /\ utf8 (decode_tilde t).
Proof.
  induction 1 as [|c r H U [IH1 IH2]|c r n H E U [IH1 IH2]].
  - split; [constructor | repeat constructor].
  - assert (D : utf8 (decode_token (c :: r))).
    { rewrite decode_token_cons. destruct (Byte.eqb c x7e); [exact IH2 | apply U_ascii; assumption]. }
    split; [exact D|]. unfold decode_tilde.
    destruct c; try (apply U_ascii; [reflexivity | exact D]); (apply U_ascii; [reflexivity | exact IH1]).
  - assert (D : utf8 (decode_token (c :: r))).
    { rewrite <- (firstn_skipn (S n) (c :: r)).
      rewrite (pd_decode_token_high _ _ (si_utf8_seq_high c r n H E)). apply utf8_chunk; assumption. }
    split; [exact D|]. unfold decode_tilde.
    destruct c; try (apply U_ascii; [reflexivity | exact D]); discriminate H.
Qed.

Lemma utf8_decode_token t : utf8 t -> utf8 (decode_token t).
Proof. intro U. apply utf8_decode_token_tilde. exact U. Qed.

Theorem utf8_pointer_tokens r : utf8 (x2f :: r) -> Forall utf8 (map decode_token (split_slash r)).
Proof.
  intro U. apply utf8_tail in U; [|reflexivity]. apply utf8_split_slash in U.
  rewrite Forall_map. rewrite Forall_forall in *. intros t Ht. apply utf8_decode_token. apply (U t Ht).
Qed.

(* ---- the boolean token predicates, as Props ---- *)
Lemma token_ok_spec t :
  token_ok t = true <-> t <> [] /\ (forall z, atoi t = Some z -> tok_canonical t).
Proof.
  unfold token_ok, tok_canonical. destruct t as [|c r].
  - split; [discriminate | intros [H _]; congruence].
  - set (t := c :: r). split.
    + intro H. split; [discriminate|]. intros z Hz. rewrite Hz in H.
      destruct (canonical_nat t) as [n|]; [left; eauto|].
      destruct (canonical_neg t) as [k|]; [right; eauto | discriminate H].
    + intros [_ H]. destruct (atoi t) as [z|]; [|reflexivity].
      destruct (H z eq_refl) as [[n Hn]|[k Hk]].
      * rewrite Hn. reflexivity.
      * rewrite Hk. destruct (canonical_nat t); reflexivity.
Qed.

(* the conjunct that Domain.token_ok lacks: canonical spellings fit strconv.Atoi's int64 *)
Definition token_small (t : bytes) : bool :=
  match canonical_nat t with Some n => n <=? int64_max | None => true end &&
  match canonical_neg t with Some k => k <=? int64_max | None => true end.

Lemma token_small_spec t : token_small t = true <-> tok_small t.
Proof.
  assert (B : forall x : option Z, match x with Some n => n <=? int64_max | None => true end = true <->
                                   forall n, x = Some n -> n <= int64_max).
  { intros [n|]; [rewrite Z.leb_le | split; [discriminate | reflexivity]]. split; [intros H ? [= <-]; exact H | auto]. }
  unfold token_small, tok_small. rewrite andb_true_iff, !B. reflexivity.
Qed.

Definition token_dom (t : bytes) : bool := token_ok t && token_small t.

(* ---- the bridge on one token, in both directions ---- *)
Theorem token_dom_iff t : token_dom t = true /\ utf8 (decode_token t) <-> tok_dom (decode_token t).
Proof.
  unfold token_dom, tok_dom. rewrite andb_true_iff, token_ok_spec, token_small_spec.
  unfold tok_small, tok_canonical. rewrite atoi_decode, canonical_nat_decode, canonical_neg_decode.
  assert (NE : t <> [] <-> decode_token t <> []).
  { split; [apply decode_token_nonempty | intros H ->; exact (H eq_refl)]. }
  tauto.
Qed.

(* ---- COUNTEREXAMPLES: Domain.token_ok alone does not give tok_dom ---- *)
(* a canonical index spelling of 20 digits: Atoi fails (out of range), so token_ok says true *)
Example token_ok_not_tok_dom_big :
  let t := B "99999999999999999999" in
  token_ok t = true /\ decode_token t = t /\ atoi t = None /\ ~ tok_dom (decode_token t).
Proof.
  split; [vm_compute; reflexivity|]. split; [vm_compute; reflexivity|]. split; [vm_compute; reflexivity|].
  intro D. apply token_dom_iff in D as [D _]. vm_compute in D. discriminate D.
Qed.

(* the spelling of -2^63: Atoi succeeds and the spelling is canonical, but tok_small bounds the
   absolute value by 2^63-1 *)
Example token_ok_not_tok_dom_min64 :
  let t := B "-9223372036854775808" in
  token_ok t = true /\ atoi t = Some int64_min /\ ~ tok_dom (decode_token t).
Proof.
  split; [vm_compute; reflexivity|]. split; [vm_compute; reflexivity|].
  intro D. apply token_dom_iff in D as [D _]. vm_compute in D. discriminate D.
Qed.

Definition ptr_small (p : bytes) : bool :=
  match p with
  | x2f :: r => forallb token_small (split_slash r)
  | _ => true
  end.

Lemma pd_tokens_iff l :
  forallb token_ok l && forallb token_small l = true /\ Forall utf8 (map decode_token l) <->
  Forall tok_dom (map decode_token l).
Proof.
  rewrite andb_true_iff, !Forall_map, !forallb_forall, !Forall_forall.
  assert (D : forall t, (token_ok t = true /\ token_small t = true) /\ utf8 (decode_token t) <-> tok_dom (decode_token t)).
  { intro t. rewrite <- token_dom_iff. unfold token_dom. now rewrite andb_true_iff. }
  split.
  - intros [[A B] U] t Ht. apply D. auto.
  - intro H. split; [split|]; intros t Ht; apply (D t), H, Ht.
Qed.

Lemma pd_pointer_ok_head c r : pointer_ok (c :: r) = true -> c = x2f.
Proof. destruct c; try discriminate; reflexivity. Qed.

Theorem pointer_dom_iff p : utf8 p -> (pointer_ok p && ptr_small p = true <-> p = [] \/ ptr_ok p).
Proof.
  intro U. destruct p as [|c r].
  - split; auto.
  - split.
    + intro H. apply andb_prop in H as [H1 H2]. pose proof (pd_pointer_ok_head _ _ H1) as ->.
      cbn [pointer_ok ptr_small] in H1, H2. right. exists r. split; [reflexivity|].
      apply pd_tokens_iff. rewrite H1, H2. split; [reflexivity | apply utf8_pointer_tokens; exact U].
    + intros [H|[r' [E F]]]; [discriminate H|]. inversion E; subst. cbn [pointer_ok ptr_small].
      apply pd_tokens_iff. exact F.
Qed.

Corollary pointer_ok_ptr_ok p : utf8 p -> pointer_ok p = true -> ptr_small p = true -> p <> [] -> ptr_ok p.
Proof.
  intros U H1 H2 NE. destruct (proj1 (pointer_dom_iff p U)) as [E|E]; auto; [|congruence].
  rewrite H1, H2. reflexivity.
Qed.

Definition op_small (op : operation) : bool :=
  ptr_small (str_or_empty (op_str op (B "path"))) &&
  match op_kind op with
  | KMove | KCopy => ptr_small (str_or_empty (op_str op (B "from")))
  | _ => true
  end.

(* number literals of the patch value start with '-' or a digit: true of every parsed text *)
Definition value_lit (op : operation) : bool :=
  match aget (B "value") op with Some (Some t) => tlit t | _ => true end.

Lemma pd_is_empty_false p : negb (is_empty p) = true -> p <> [].
Proof. destruct p; [discriminate | discriminate]. Qed.

Lemma pd_value_present op :
  amem (B "value") op = true -> value_is_null op = false ->
  exists t, aget (B "value") op = Some (Some t) /\ t <> TNull.
Proof.
  unfold amem, value_is_null. destruct (aget (B "value") op) as [[t|]|]; try discriminate.
  intros _ H. exists t. split; auto. intro E. subst t. discriminate H.
Qed.

(* every text stored in the operation spells its strings with bodies the scanner accepts: true of
   every decoded patch (api_decode_tsb below); gives valid UTF-8 of path / from and tsb of the value *)
Definition op_tsb (op : operation) : Prop :=
  Forall (fun kv : bytes * option tjson => match snd kv with Some t => tsb t | None => True end) op.

Lemma op_tsb_str op k s : op_tsb op -> op_str op k = Ok s -> utf8 s.
Proof.
  unfold op_str. intros F H. destruct (aget k op) as [[t|]|] eqn:E; try discriminate H.
  destruct t; try discriminate H. inversion H; subst. exact (sbody_unquote_utf8 _ (op_vals_get tsb op k _ F E)).
Qed.

(* the bridge on one operation.  validate_operation is what DecodePatch checks (path present and a
   string; from present for move/copy; value present for add/replace): without it
   Domain.op_in_domain reads a missing path as the empty pointer (str_or_empty) *)
Theorem op_in_domain_op_dom op :
  validate_operation op = true -> op_in_domain op = true -> op_small op = true ->
  values_nodup op = true -> value_lit op = true -> op_tsb op ->
  op_dom op.
Proof.
  intros V D S N L TS. unfold op_dom. split.
  { unfold val_good. unfold values_nodup in N. unfold value_lit in L.
    destruct (aget (B "value") op) as [[t|]|] eqn:Ev; auto. split; [exact N|]. split; [exact L|].
    exact (op_vals_get tsb op _ t TS Ev). }
  unfold validate_operation in V. apply andb_prop in V as [V1 V2].
  destruct (op_str op (B "path")) as [path|e|] eqn:Hp; try discriminate V2.
  exists path. split; [reflexivity|].
  unfold op_in_domain in D. unfold op_small in S. rewrite Hp in D, S. cbn [str_or_empty] in D, S.
  apply andb_prop in D as [D1 D2]. apply andb_prop in S as [S1 S2].
  assert (P : path = [] \/ ptr_ok path).
  { apply pointer_dom_iff; [eapply op_tsb_str; eauto | rewrite D1, S1; reflexivity]. }
  assert (Val : amem (B "value") op = true -> negb (is_empty path && value_is_null op) = true ->
                ptr_ok path \/ (path = [] /\ exists t, aget (B "value") op = Some (Some t) /\ t <> TNull)).
  { intros V0 D0. destruct P as [->|P]; [right | left; exact P]. split; [reflexivity|].
    apply pd_value_present; [exact V0|]. cbn [is_empty andb] in D0. apply negb_true_iff in D0. exact D0. }
  assert (From : pointer_ok (str_or_empty (op_str op (B "from"))) && negb (is_empty path) = true ->
                 ptr_small (str_or_empty (op_str op (B "from"))) = true ->
                 match op_str op (B "from") with Ok _ => true | _ => false end = true ->
                 ptr_ok path /\ exists from, op_str op (B "from") = Ok from /\ (ptr_ok from \/ from = [])).
  { intros D0 S0 V0. apply andb_prop in D0 as [D3 D4]. apply pd_is_empty_false in D4.
    split; [destruct P; [congruence | assumption]|].
    destruct (op_str op (B "from")) as [from|e|] eqn:Hf; try discriminate V0.
    exists from. split; [reflexivity|]. cbn [str_or_empty] in D3, S0.
    destruct (proj1 (pointer_dom_iff from (op_tsb_str op (B "from") from TS Hf))) as [E|E]; auto. rewrite D3, S0. reflexivity. }
  destruct (op_kind op); auto.
  - destruct P as [->|P]; [discriminate D2 | exact P].
  - destruct P; auto.
  - discriminate D2.
Qed.

(* ---- what DecodePatch guarantees ---- *)
Lemma op_vals_value_lit op : op_vals (fun t => tlit t = true) op -> value_lit op = true.
Proof.
  intro H. unfold value_lit. destruct (aget (B "value") op) as [[t|]|] eqn:E; auto. exact (op_vals_get _ op _ t H E).
Qed.

Lemma pd_decode_patch_t t p :
  tlit t = true -> decode_patch_t t = Some p ->
  forallb validate_operation p = true /\ forallb value_lit p = true.
Proof.
  intros L H. split.
  - apply decode_patch_spec in H as [[_ ->]|(mss & _ & -> & F)]; [reflexivity|].
    apply forallb_forall. intros op Hop. apply in_map_iff in Hop as (ms & <- & Hm). rewrite Forall_forall in F. exact (F ms Hm).
  - apply forallb_forall, Forall_forall. eapply Forall_impl; [exact op_vals_value_lit|].
    apply (decoded_vals (fun t => tlit t = true) t p); auto using tlit_members.
    intro l. cbn [tlit]. rewrite forallb_forall, Forall_forall. auto.
Qed.

Theorem api_decode_valid bs p :
  api_decode bs = Some p -> forallb validate_operation p = true /\ forallb value_lit p = true.
Proof.
  unfold api_decode. destruct (parse bs) as [t|] eqn:P; [|discriminate].
  apply pd_decode_patch_t. eapply parse_tlit; eauto.
Qed.

Theorem api_decode_tsb bs p : api_decode bs = Some p -> Forall op_tsb p.
Proof.
  unfold api_decode. destruct (parse bs) as [t|] eqn:P; [|discriminate]. intro H.
  exact (decoded_vals tsb t p (fun l => proj1 (tsb_arr l)) tsb_obj_vals (parse_tsb _ _ P) H).
Qed.

(* ---- the bridge on a decoded patch ---- *)
Theorem decoded_in_domain_op_dom bs p :
  api_decode bs = Some p -> in_domain_C01 p = true -> forallb op_small p = true -> Forall op_dom p.
Proof.
  intros Dc D S. pose proof (api_decode_tsb _ _ Dc) as TS.
  apply api_decode_valid in Dc as [V L]. unfold in_domain_C01 in D. apply andb_prop in D as [D N].
  rewrite forallb_forall in V, L, D, N, S. rewrite Forall_forall in TS. apply Forall_forall. intros op Hin.
  apply op_in_domain_op_dom; auto.
Qed.

(* C01's main theorem with its domain stated by the boolean predicates the harness evaluates *)
Theorem C01_on_boolean_domain o indent patch p doc t :
  plain_opts o ->
  api_decode patch = Some p -> in_domain_C01 p = true -> forallb op_small p = true ->
  parse doc = Some t -> root_container t = true -> tnodup t = true ->
  copies_fit (dia o) (den t) (map den_op p) = true ->
  match rfc_apply (dia o) (den t) (map den_op p) with
  | Done j => exists n, api_apply o indent p doc = ROut (output o indent (render (o_esc o) n)) /\ aval n = j /\ ngood n
  | Failed i cz => exists e, api_apply o indent p doc = RErr (Some i) e /\ cause_rel cz e
  end.
Proof.
  intros PO Dc D S P R N F. apply api_apply_sim with (t := t); auto.
  eapply decoded_in_domain_op_dom; eauto.
Qed.

(* and when a copy the reference run reaches is too deep for deepCopy: an error, at an operation *)
Theorem C01_on_boolean_domain_too_deep o indent patch p doc t :
  plain_opts o ->
  api_decode patch = Some p -> in_domain_C01 p = true -> forallb op_small p = true ->
  parse doc = Some t -> root_container t = true -> tnodup t = true ->
  copies_fit (dia o) (den t) (map den_op p) = false ->
  match rfc_apply (dia o) (den t) (map den_op p) with
  | Done _ => exists j, api_apply o indent p doc = RErr (Some j) EInvalid
  | Failed k cz => exists j e, api_apply o indent p doc = RErr (Some j) e /\ (e = EInvalid \/ (j = k /\ cause_rel cz e))
  end.
Proof.
  intros PO Dc D S P R N F. apply api_apply_copy_too_deep with (t := t); auto.
  eapply decoded_in_domain_op_dom; eauto.
Qed.

(* ---- COUNTEREXAMPLES at the level of operations ---- *)
(* a decoded (hence validated) patch that the harness's boolean domain in_domain_C01 admits but
   that is outside op_dom: the token is a canonical spelling that does not fit int64.  (On this
   input the model and the reference still agree - both report an index error - so the gap is in
   the stated hypothesis tok_small of the simulation, not an observed divergence.) *)
Example in_domain_C01_not_op_dom :
  match api_decode (B "[{""op"":""remove"",""path"":""/a/99999999999999999999""}]") with
  | Some p => in_domain_C01 p = true /\ forallb op_small p = false /\ ~ Forall op_dom p
  | None => False
  end.
Proof.
  destruct (api_decode _) as [p|] eqn:E; vm_compute in E; [|discriminate E].
  inversion E; subst p. clear E.
  split; [vm_compute; reflexivity|]. split; [vm_compute; reflexivity|].
  intro H. inversion H as [|? ? Hop _]; subst. clear H.
  destruct (op_dom_remove _ Hop) as (r & Hp & F); [vm_compute; reflexivity|].
  vm_compute in Hp. inversion Hp; subst r. clear Hp.
  apply pd_tokens_iff in F as [F _]. vm_compute in F. discriminate F.
Qed.

(* without DecodePatch's validation the boolean domain reads a missing path as the empty pointer *)
Example op_in_domain_needs_validation :
  let op : operation := [(B "op", Some (TStr (B "add"))); (B "value", Some (TNum (B "1")))] in
  op_in_domain op = true /\ values_nodup op = true /\ op_small op = true /\
  validate_operation op = false /\ ~ op_dom op.
Proof.
  repeat (split; [vm_compute; reflexivity|]).
  intros [_ [path [Hp _]]]. vm_compute in Hp. discriminate Hp.
Qed.

(* non-vacuity of the bridge: a patch with escapes, a negative index and '-' is in the boolean
   domain, and the bridge gives op_dom for it *)
Example bridge_nonvacuous :
  match api_decode (B "[{""op"":""add"",""path"":""/x~1y/-"",""value"":null},{""op"":""test"",""path"":""/a~01/-1"",""value"":1},{""op"":""move"",""from"":""/a/0"",""path"":""/b/10""}]") with
  | Some p => in_domain_C01 p = true /\ forallb op_small p = true /\ Forall op_dom p
  | None => False
  end.
Proof.
  destruct (api_decode _) as [p|] eqn:E; [|vm_compute in E; discriminate E].
  assert (D : in_domain_C01 p = true /\ forallb op_small p = true).
  { pose proof E as E'. vm_compute in E'. inversion E'; subst p. split; vm_compute; reflexivity. }
  destruct D as [D S]. split; auto. split; auto. eapply decoded_in_domain_op_dom; eauto.
Qed.

(* ---- why tok_small cannot simply be dropped from tok_dom ---- *)
(* On canonical numbers that do not fit 64 bits, model and reference agree on every slice that can
   exist in Go (shorter than 2^63): strconv.Atoi fails or the index is out of bounds, and the
   reference's index is out of bounds too.  The three index lemmas of ImplFacts.v hold with the
   length bound IN PLACE OF tok_small: *)
Theorem resolve_idx_get_ref_len o {A} (l : list A) t :
  Z.of_nat (length l) <= int64_max -> tok_canonical t ->
  match idx_existing (dia o) (Rfc6902.zlen l) t with
  | Some i => resolve_idx_get o (ImplV5.zlen l) t = Ok i /\ (i < length l)%nat
  | None => exists e, resolve_idx_get o (ImplV5.zlen l) t = Err e /\ (e = EInvalidIndex \/ e = EAtoi)
  end.
Proof. intros Hl C. exact (resolve_idx_get_fits o l t (bound_fits t _ Hl) (fun _ _ => C)). Qed.

Theorem ary_add_ref_len o (ns : list node) t v :
  Z.of_nat (length ns) < int64_max -> add_tok t ->
  match idx_insert (dia o) (Rfc6902.zlen ns) t with
  | Some i => ary_add o ns t v = Ok (insert_at i v ns) /\ (i <= length ns)%nat
  | None => exists e, ary_add o ns t v = Err e /\ (e = EInvalidIndex \/ e = EAtoi)
  end.
Proof. intros Hl A. apply ary_add_fits; [apply bound_fits; unfold Rfc6902.zlen; lia | exact (add_tok_num t A)]. Qed.

Theorem ary_remove_ref_len o (ns : list node) t :
  o_allow o = false -> Z.of_nat (length ns) <= int64_max -> tok_canonical t ->
  match idx_existing (dia o) (Rfc6902.zlen ns) t with
  | Some i => ary_remove o ns t = Ok (remove_at i ns) /\ (i < length ns)%nat
  | None => exists e, ary_remove o ns t = Err e /\ (e = EInvalidIndex \/ e = EAtoi)
  end.
Proof.
  intros Al Hl C. pose proof (ary_remove_fits o ns t (bound_fits t _ Hl) (fun _ _ => C)) as R.
  destruct (idx_existing (dia o) (Rfc6902.zlen ns) t); [exact R | exact (R Al)].
Qed.

(* ... but WITHOUT a bound on the length they are false in Coq, where lists of 2^63 and more elements
   exist: the canonical index 2^63 is in range for such a list (the reference resolves it), while
   strconv.Atoi rejects its spelling.  So tok_small can be traded for a length bound, not dropped;
   and the length bound is not an invariant of the run (add lengthens an array, ensurePathExists
   pads one up to the index asked for), so it would have to be carried as a budget
   (length + remaining operations <= 2^63-1) through every statement of the simulation.  The
   simulation therefore keeps tok_small, a condition on the patch alone. *)
Theorem big_index_needs_length_bound o {A} (l : list A) :
  let t := B "9223372036854775808" in
  tok_canonical t /\ ~ tok_small t /\
  (int64_max + 1 < Z.of_nat (length l) ->
   idx_existing (dia o) (Rfc6902.zlen l) t = Some (Z.to_nat (int64_max + 1)) /\
   resolve_idx_get o (ImplV5.zlen l) t = Err EAtoi).
Proof.
  intro t.
  assert (C : canonical_nat t = Some (int64_max + 1)) by (vm_compute; reflexivity).
  assert (At : atoi t = None) by (vm_compute; reflexivity).
  split; [left; eauto|]. split.
  - intros [S _]. specialize (S _ C). lia.
  - intro Hl. unfold idx_existing, resolve_idx_get, Rfc6902.zlen. rewrite C, At.
    replace (int64_max + 1 <? Z.of_nat (length l)) with true by (symmetry; apply Z.ltb_lt; lia). split; reflexivity.
Qed.

Print Assumptions utf8_pointer_tokens.
Print Assumptions resolve_idx_get_ref_len.
Print Assumptions ary_add_ref_len.
Print Assumptions ary_remove_ref_len.
Print Assumptions big_index_needs_length_bound.
Print Assumptions api_decode_tsb.
Print Assumptions decode_token_atoi.
Print Assumptions decode_token_no_new_canonical.
Print Assumptions token_dom_iff.
Print Assumptions pointer_dom_iff.
Print Assumptions op_in_domain_op_dom.
Print Assumptions api_decode_valid.
Print Assumptions decoded_in_domain_op_dom.
Print Assumptions C01_on_boolean_domain.
Print Assumptions token_ok_not_tok_dom_big.
Print Assumptions token_ok_not_tok_dom_min64.
Print Assumptions in_domain_C01_not_op_dom.
Print Assumptions op_in_domain_needs_validation.
Print Assumptions bridge_nonvacuous.
