(* UnquoteTie.v -- the translated string decoder (gen/UnquoteGen.v, written by tools/gounquote2v from getu4 and
   unquoteBytes of v5/internal/json/decode.go on every run) computes the hand-written model Strings.unquote,
   and never panics.

     getu4_gen_spec               : getu4_gen l = Some (getu4z l) for EVERY l: getu4 never panics and is
                                    Strings.getu4 (-1 for None); the byte arithmetic wraps around as in Go
     unquote_full_gen_total       : for EVERY byte string s there is x with unquote_full_gen s = uq_of x
                                    (UOk t or UFalse), where x = None if s is not a literal between two
                                    quotes, and otherwise x is what the run of the decoder's step
                                    Codec.dstep (for every input) over the body gives
     unquote_full_gen_no_panic    : for EVERY s: unquote_full_gen s <> UPanic /\ unquote_full_gen s <> UFuel
                                    (no index, slice, store or EncodeRune out of range; the loops end
                                    within their fuel length s + 1)
     unquote_full_gen_is_unquote  : sbody body -> unquote_full_gen ([x22] ++ body ++ [x22]) = UOk (unquote body)
                                    (sbody, Codec.v: exactly the bodies the scanner accepts, ill-formed
                                    UTF-8 and lone surrogate escapes included)

   What is modelled and not translated: utf8.DecodeRune (Utf8Rune.decode_rune), utf8.EncodeRune,
   utf16.IsSurrogate, utf16.DecodeRune (Utf16Rune.v), and the reading of slices as lists of exactly their
   length (see the header of tools/gounquote2v/main.go).

   The proof is written against the MEANING of one loop step, not against its text:
     step2_roomy : with w + 9 <= len b (the regrow test is false) one execution of the body of the second
                   loop at r is SRet UFalse or SNext (r + k, put b w e, w + len e) where Codec.dstep of the
                   rest of the input is None or Some (k, e); len e <= 4, 1 <= k (Codec.dstep_out)
     step2_grow  : with w + 5 <= len b and len b - 8 <= w the step is the step on the regrown buffer
                   grow b w (twice the length plus 8, the first w bytes kept)
     step1_spec  : the first loop breaks or advances over k bytes that dstep copies
   They are proved by evaluating the generated term: its tests on the head byte are rewritten into those of
   dstep (bz_eqb, bz_ltb), and tactics decide whatever integer test, bounds test and read of s they meet from
   the context (zdecide, guards, rd), so harmless rewrites go through and behavioural ones fail in the
   branch they touch.

   THE BUFFER INVARIANT of the second loop (loop2_runs): at the top of every iteration
       0 <= r,  0 <= w,  w + 5 <= len b     (and the first w bytes of b are what has been decoded so far)
   The regrow test `w >= len(b) - 2*UTFMax` then gives  w + 9 <= len b  (either it is false, or the new
   length 2*(len b + 4) >= w + 9), every write is at most 4 bytes (ASCII / escape: a store at w < len b;
   EncodeRune of at most 4 bytes at w with w + 4 <= len b), hence w' + 5 <= len b again.  The bound is
   tight: a four-byte write at w = len b - 9 ends at w' = len b - 5.  Initially len b = len s + 8 and
   w = r <= len s.  r grows by k >= 1 in every step: the fuel length s + 1 suffices. *)
From Coq Require Import Lia.
From JP Require Import Bytes Strings Utf8Rune Utf16Rune JsonFacts Codec TieFacts.
From JP.gen Require Import UnquoteGen.
Local Open Scope Z_scope.

Lemma len_nonneg s : 0 <= len s.
Proof. unfold len. lia. Qed.

Lemma len_cons a (l : bytes) : len (a :: l) = 1 + len l.
Proof. unfold len. cbn [length]. lia. Qed.

Lemma len_nil : len [] = 0.
Proof. reflexivity. Qed.

Lemma len_app (a b : bytes) : len (a ++ b) = len a + len b.
Proof. unfold len. rewrite app_length. lia. Qed.

Lemma len_firstn n (l : bytes) : 0 <= n <= len l -> len (firstn (Z.to_nat n) l) = n.
Proof. unfold len. intro H. rewrite firstn_length. lia. Qed.

Lemma len_skipn n (l : bytes) : 0 <= n <= len l -> len (skipn (Z.to_nat n) l) = len l - n.
Proof. unfold len. intro H. rewrite skipn_length. lia. Qed.

Lemma len_make n : 0 <= n -> len (make_buf n) = n.
Proof. unfold len, make_buf. intro H. rewrite repeat_length. lia. Qed.

Lemma slice_to_end s a : 0 <= a -> slice s a (len s) = skipn (Z.to_nat a) s.
Proof. intro H. unfold slice, len. apply firstn_all2. rewrite skipn_length. lia. Qed.

Lemma slice_from_0 s a : slice s 0 a = firstn (Z.to_nat a) s.
Proof. unfold slice. rewrite Z.sub_0_r. reflexivity. Qed.

(* reading s at or after the position r, in terms of the rest of s from r on *)
Lemma at_rest s r rest i : skipn (Z.to_nat r) s = rest -> 0 <= r <= i ->
  at_ s i = nth (Z.to_nat (i - r)) rest x00.
Proof.
  intros E H. unfold at_. rewrite <- E, <- nth_skipn. f_equal. lia.
Qed.

Lemma slice_rest s r rest i : skipn (Z.to_nat r) s = rest -> 0 <= r <= i ->
  slice s i (len s) = skipn (Z.to_nat (i - r)) rest.
Proof.
  intros E H. rewrite slice_to_end by lia. rewrite <- E, skipn_skipn. f_equal. lia.
Qed.

Lemma len_rest s r rest : skipn (Z.to_nat r) s = rest -> 0 <= r <= len s -> len s = r + len rest.
Proof. intros E H. rewrite <- E, len_skipn by lia. lia. Qed.

Lemma rest_in_range s r c r' : skipn (Z.to_nat r) s = c :: r' -> 0 <= r -> r < len s.
Proof.
  intros E H. apply (f_equal (@length _)) in E. rewrite skipn_length in E. cbn [length] in E. unfold len. lia.
Qed.

Lemma bz_range c : 0 <= bz c < 256.
Proof. unfold bz. pose proof (bn_lt_256 c). lia. Qed.

Lemma bz_5c c : (bz c =? 92) = Byte.eqb c x5c.
Proof. exact (bz_eqb c x5c). Qed.

Lemma bz_22 c : (bz c =? 34) = Byte.eqb c x22.
Proof. exact (bz_eqb c x22). Qed.

Definition getu4z (l : bytes) : Z := match Strings.getu4 l with Some v => Z.of_N v | None => -1 end.

Lemma getu4_step_spec c r :
  getu4_step1 c r = if is_hex c then SNext (r * 16 + Z.of_N (hexval c)) else SRet (Some (-1)).
Proof. destruct c; reflexivity. Qed.

Lemma getu4_gen_long a0 a1 a2 a3 a4 a5 tl :
  getu4_gen (a0 :: a1 :: a2 :: a3 :: a4 :: a5 :: tl) =
  if (bz a0 =? 92) && (bz a1 =? 117) then
    match getu4_loop1 [a2; a3; a4; a5] 0 with LDone r => Some r | LRet v => v | _ => None end
  else Some (-1).
Proof.
  set (L := a0 :: a1 :: a2 :: a3 :: a4 :: a5 :: tl).
  assert (LL : len L = 6 + len tl) by (unfold L; rewrite !len_cons; lia).
  pose proof (len_nonneg tl) as Lt.
  unfold getu4_gen, in_idx, in_slice. zdecide.
  change (at_ L 0) with a0. change (at_ L 1) with a1. change (slice L 2 6) with [a2; a3; a4; a5].
  destruct (bz a0 =? 92); [|reflexivity]. destruct (bz a1 =? 117); reflexivity.
Qed.

Theorem getu4_gen_spec l : getu4_gen l = Some (getu4z l).
Proof.
  destruct l as [|a0 [|a1 [|a2 [|a3 [|a4 [|a5 tl]]]]]];
    try (unfold getu4z; rewrite getu4_short by (simpl; lia); reflexivity).
  rewrite getu4_gen_long. unfold getu4z. change 92 with (bz x5c). change 117 with (bz x75). rewrite !bz_eqb.
  destruct (Byte.eqb a0 x5c) eqn:E0; [|rewrite getu4_not_backslash by exact E0; reflexivity].
  apply Byte.byte_dec_bl in E0. subst a0.
  destruct (Byte.eqb a1 x75) eqn:E1; [|rewrite getu4_not_u by exact E1; reflexivity].
  apply Byte.byte_dec_bl in E1. subst a1. cbv iota.
  change (Strings.getu4 (x5c :: x75 :: a2 :: a3 :: a4 :: a5 :: tl))
    with (if is_hex a2 && is_hex a3 && is_hex a4 && is_hex a5 then Some (hex4 a2 a3 a4 a5) else None).
  cbn [getu4_loop1]. rewrite getu4_step_spec. destruct (is_hex a2); [|reflexivity].
  rewrite getu4_step_spec. destruct (is_hex a3); [|reflexivity].
  rewrite getu4_step_spec. destruct (is_hex a4); [|reflexivity].
  rewrite getu4_step_spec. destruct (is_hex a5); [|reflexivity].
  cbn [andb]. f_equal. unfold hex4. lia.
Qed.

Lemma is_surrogate_z_N v : is_surrogate_z (Z.of_N v) = is_surrogate v.
Proof. exact (f_equal2 andb (leb_of_N 55296 v) (ltb_of_N v 57344)). Qed.

Lemma decode_pair_N v v1 : is_surrogate v = true ->
  decode_pair (Z.of_N v) (Z.of_N v1) =
  if pair_ok v v1 then Z.of_N (65536 + (v - 55296) * 1024 + (v1 - 56320)) else 65533.
Proof.
  unfold is_surrogate, decode_pair, pair_ok. intro S. apply andb_prop in S as [S1 S2].
  change ((55296 <=? Z.of_N v) && (Z.of_N v <? 56320) && (56320 <=? Z.of_N v1) && (Z.of_N v1 <? 57344))
    with ((Z.of_N 55296 <=? Z.of_N v) && (Z.of_N v <? Z.of_N 56320) && (Z.of_N 56320 <=? Z.of_N v1) && (Z.of_N v1 <? Z.of_N 57344)).
  rewrite !leb_of_N, !ltb_of_N, S1. cbn [andb].
  destruct ((v <? 56320) && (56320 <=? v1) && (v1 <? 57344))%N eqn:P; [|reflexivity].
  apply andb_prop in P as [P _]. apply andb_prop in P as [_ P]. apply N.leb_le in S1, P. lia.
Qed.

Lemma pair_cp v v1 : pair_ok v v1 = true -> is_surrogate v = true ->
  ((65536 + (v - 55296) * 1024 + (v1 - 56320) < 1114112)%N) /\
  is_surrogate (65536 + (v - 55296) * 1024 + (v1 - 56320)) = false.
Proof. exact (surrogate_pair_scalar v v1). Qed.

Lemma decode_pair_none v : decode_pair (Z.of_N v) (-1) = 65533.
Proof. unfold decode_pair. zdecide. rewrite !andb_false_r. reflexivity. Qed.

Lemma encode_rune_z_N v : (v < 1114112)%N -> is_surrogate v = false -> encode_rune_z (Z.of_N v) = encode_rune v.
Proof.
  intros H S. unfold encode_rune_z. rewrite is_surrogate_z_N, S, N2Z.id. zdecide. reflexivity.
Qed.

Lemma encode_rune_len v : 1 <= len (encode_rune v) <= 4.
Proof. pose proof (encode_rune_length v). unfold len. lia. Qed.

Lemma enc_len rr : 1 <= len (encode_rune_z rr) <= 4.
Proof. unfold encode_rune_z. destruct (_ && _ && _); [apply encode_rune_len | vm_compute; split; discriminate]. Qed.

(* writing e into the buffer at w *)
Definition put (b : bytes) (w : Z) (e : bytes) : bytes :=
  firstn (Z.to_nat w) b ++ e ++ skipn (Z.to_nat (w + len e)) b.

Lemma put_len b w e : 0 <= w -> w + len e <= len b -> len (put b w e) = len b.
Proof.
  intros H1 H2. pose proof (len_nonneg e). unfold put. rewrite !len_app, len_firstn, len_skipn by lia. lia.
Qed.

Lemma put_prefix b w e : 0 <= w -> w + len e <= len b ->
  firstn (Z.to_nat (w + len e)) (put b w e) = firstn (Z.to_nat w) b ++ e.
Proof.
  intros H1 H2. pose proof (len_nonneg e). unfold put. rewrite app_assoc. apply firstn_app_exact.
  rewrite app_length, firstn_length. unfold len in *. lia.
Qed.

Lemma encode_at_fits b w rr : 0 <= w -> w + 4 <= len b ->
  encode_at b w rr = Some (put b w (encode_rune_z rr), len (encode_rune_z rr)).
Proof.
  intros H1 H2. pose proof (enc_len rr) as L. unfold encode_at. cbv zeta.
  change (Z.of_nat (length (encode_rune_z rr))) with (len (encode_rune_z rr)).
  change (Z.of_nat (length b)) with (len b). zdecide. reflexivity.
Qed.

(* DecodeRune at a byte >= 0x80, and EncodeRune of what it found *)
Lemma decode_encode c r : (bn c <? 128)%N = false ->
  match utf8_len (c :: r) with
  | O => decode_rune (c :: r) = (65533, 1)
  | S n => exists rv, decode_rune (c :: r) = (rv, Z.of_nat (S n)) /\ (2 <= S n)%nat /\
                      encode_rune_z rv = firstn (S n) (c :: r)
  end.
Proof. exact (decode_rune_encode c r). Qed.

(* closed tests, by computation *)
Ltac ceval :=
  rewrite ?Z.geb_leb, ?Z.gtb_ltb;
  repeat match goal with
  | |- context [?a <? ?b] =>
      let v := eval vm_compute in (a <? b) in
      match v with true => idtac | false => idtac end; change (a <? b) with v
  | |- context [?a <=? ?b] =>
      let v := eval vm_compute in (a <=? b) in
      match v with true => idtac | false => idtac end; change (a <=? b) with v
  | |- context [?a =? ?b] =>
      let v := eval vm_compute in (a =? b) in
      match v with true => idtac | false => idtac end; change (a =? b) with v
  end;
  cbn [negb andb orb].

(* the bounds tests that hold *)
Ltac guards :=
  repeat match goal with
  | |- context [in_idx ?i ?n] => replace (in_idx i n) with true by (symmetry; apply idx_in_range; lia)
  | |- context [in_slice ?a ?b ?n] => replace (in_slice a b n) with true by (symmetry; apply slice_in_range; lia)
  end;
  cbn [negb].

(* reads of s at r + constant, through the rest of s from r on *)
Ltac rd s r H :=
  repeat match goal with
  | |- context [at_ s ?i] => rewrite (at_rest s r _ i H) by lia
  | |- context [slice s ?i (len s)] => rewrite (slice_rest s r _ i H) by lia
  end;
  repeat match goal with
  | |- context [Z.to_nat (?i - r)] =>
      first [ replace (Z.to_nat (i - r)) with 0%nat by lia
            | replace (Z.to_nat (i - r)) with 1%nat by lia
            | replace (Z.to_nat (i - r)) with 6%nat by lia ]
  end;
  cbn [nth skipn].

Lemma snext_eq (r1 r2 : Z) (b1 b2 : bytes) (w1 w2 : Z) :
  r1 = r2 -> b1 = b2 -> w1 = w2 -> @SNext (Z * bytes * Z) uq_res (r1, b1, w1) = SNext (r2, b2, w2).
Proof. intros -> -> ->. reflexivity. Qed.

Ltac fin :=
  cbv beta iota;
  first [ reflexivity
        | apply snext_eq; [ lia | reflexivity | first [reflexivity | rewrite ?len_cons, ?len_nil; lia] ] ].

(* with room in the buffer: the regrow test is false *)
Lemma step2_roomy s r b w c r' :
  0 <= r -> skipn (Z.to_nat r) s = c :: r' -> 0 <= w -> w + 9 <= len b ->
  unquote_step2 s r b w =
  match dstep (c :: r') with
  | None => SRet UFalse
  | Some (k, e) => SNext (r + Z.of_nat k, put b w e, w + len e)
  end.
Proof.
  intros Hr Hrest Hw Hb.
  pose proof (rest_in_range s r c r' Hrest Hr) as Hlt.
  assert (Ls : len s = r + (1 + len r')) by (rewrite <- (len_cons c r'); apply len_rest; [exact Hrest | lia]).
  pose proof (len_nonneg r') as Lr'.
  unfold unquote_step2. cbv zeta. zdecide. cbv beta iota.
  guards. rd s r Hrest.
  unfold dstep. cbn [dguard ustep]. rewrite (bz_5c c), (bz_22 c), (bz_lt32 c), (bz_lt128 c).
  destruct (Byte.eqb c x5c) eqn:E5c.
  - apply Byte.byte_dec_bl in E5c. subst c. cbv beta iota.
    destruct r' as [|e r''].
    + rewrite len_nil in Ls. zdecide. reflexivity.
    + rewrite len_cons in Ls. pose proof (len_nonneg r'') as Lr''. zdecide. cbv beta iota. guards. rd s r Hrest.
      destruct (Byte.eqb e x75) eqn:Eu.
      * (* \u *)
        apply Byte.byte_dec_bl in Eu. subst e. ceval. cbv beta iota.
        rewrite getu4_gen_spec. cbv beta iota. unfold uesc, getu4z.
        destruct (Strings.getu4 (x5c :: x75 :: r'')) as [v|] eqn:G; [|reflexivity].
        destruct (getu4_some_inv _ _ G) as (a1 & a2 & a3 & a4 & r2 & Eq & Hh & Hv).
        injection Eq as ->.
        rewrite !len_cons in Ls. pose proof (len_nonneg r2) as Lr2.
        pose proof (hex4_lt _ _ _ _ Hh) as Hv16. rewrite <- Hv in Hv16.
        zdecide. cbv beta iota. rewrite is_surrogate_z_N.
        destruct (is_surrogate v) eqn:Sv.
        -- guards. rd s r Hrest. rewrite getu4_gen_spec. cbv beta iota. unfold getu4z.
           destruct (Strings.getu4 r2) as [v1|] eqn:G1.
           ++ rewrite (decode_pair_N v v1 Sv). destruct (pair_ok v v1) eqn:P.
              ** destruct (pair_cp v v1 P Sv) as [C1 C2]. zdecide. cbv beta iota.
                 rewrite encode_at_fits by lia. cbv beta iota. rewrite encode_rune_z_N by assumption. fin.
              ** ceval. cbv beta iota. rewrite encode_at_fits by lia. fin.
           ++ rewrite decode_pair_none. ceval. cbv beta iota. rewrite encode_at_fits by lia. fin.
        -- rewrite encode_at_fits by lia. cbv beta iota.
           rewrite encode_rune_z_N by (assumption || lia). fin.
      * (* the other escapes: by cases on the byte, once the arm of \u is gone from the goal *)
        change 117 with (bz x75). rewrite bz_eqb, Eu. cbv beta iota.
        destruct e; try discriminate Eu; try reflexivity; ceval; cbv beta iota; fin.
  - destruct (Byte.eqb c x22 || (bn c <? 32)%N); [reflexivity|]. cbn [negb].
    destruct (bn c <? 128)%N eqn:Hc; [fin|]. cbv beta iota.
    pose proof (decode_encode c r' Hc) as D.
    destruct (utf8_len (c :: r')) as [|n] eqn:E.
    + rewrite D. cbv beta iota. rewrite encode_at_fits by lia. fin.
    + destruct D as (rv & D & K & En). rewrite D. cbv beta iota.
      rewrite encode_at_fits by lia. cbv beta iota. rewrite En. fin.
Qed.

(* make and copy (the first allocation, and every regrowing): a fresh buffer of length n that starts with src *)
Lemma copy_facts n (src : bytes) : len src <= n ->
  copy_n (make_buf n) src = len src /\ len (copy_into (make_buf n) src) = n /\
  firstn (Z.to_nat (len src)) (copy_into (make_buf n) src) = src.
Proof.
  intro H. pose proof (len_nonneg src) as H0. unfold copy_into, copy_n. rewrite len_make by lia.
  replace (Z.min n (len src)) with (len src) by lia.
  assert (F : firstn (Z.to_nat (len src)) src = src) by (apply firstn_all2; unfold len; lia).
  rewrite F. split; [reflexivity|]. split.
  - rewrite len_app, len_skipn by (rewrite len_make; lia). rewrite len_make by lia. lia.
  - apply firstn_app_exact. unfold len. lia.
Qed.

(* without room: the buffer is regrown first, and the step is the step on the regrown buffer *)
Definition grow (b : bytes) (w : Z) : bytes := copy_into (make_buf ((len b + 4) * 2)) (slice b 0 w).

Lemma grow_facts b w : 0 <= w <= len b ->
  len (grow b w) = (len b + 4) * 2 /\ firstn (Z.to_nat w) (grow b w) = firstn (Z.to_nat w) b.
Proof.
  intro H. assert (Ls : len (slice b 0 w) = w) by (rewrite slice_from_0; apply len_firstn; exact H).
  destruct (copy_facts ((len b + 4) * 2) (slice b 0 w)) as (_ & L & P); [lia|].
  rewrite Ls in P. split; [exact L|]. unfold grow. rewrite P. apply slice_from_0.
Qed.

Lemma omatch_eq {A T} (x y : option A) (d : T) (f : A -> T) :
  x = y -> match x with None => d | Some a => f a end = match y with None => d | Some a => f a end.
Proof. now intros ->. Qed.

(* the step is one function of the buffer that the regrow test leaves: only the two buffers are compared *)
Lemma step2_grow s r b w : 0 <= w -> w + 5 <= len b -> len b - 8 <= w ->
  unquote_step2 s r b w = unquote_step2 s r (grow b w) w.
Proof.
  intros Hw Hb Hfull. destruct (grow_facts b w) as [L1 _]; [lia|].
  remember (grow b w) as b1 eqn:E. unfold grow in E.
  unfold unquote_step2. cbv zeta. apply omatch_eq. rewrite <- E. zdecide. guards. reflexivity.
Qed.

Lemma step2_any s r b w c r' :
  0 <= r -> skipn (Z.to_nat r) s = c :: r' -> 0 <= w -> w + 5 <= len b ->
  exists b1, firstn (Z.to_nat w) b1 = firstn (Z.to_nat w) b /\ w + 9 <= len b1 /\
    unquote_step2 s r b w =
    match dstep (c :: r') with
    | None => SRet UFalse
    | Some (k, e) => SNext (r + Z.of_nat k, put b1 w e, w + len e)
    end.
Proof.
  intros Hr Hrest Hw Hb. destruct (Z_le_gt_dec (len b - 8) w) as [Full|Room].
  - destruct (grow_facts b w) as [L1 P1]; [lia|]. exists (grow b w). split; [exact P1|]. split; [lia|].
    rewrite step2_grow by lia. apply step2_roomy; try assumption. lia.
  - exists b. split; [reflexivity|]. split; [lia|]. apply step2_roomy; try assumption. lia.
Qed.

Lemma step1_spec s r c r' :
  0 <= r -> skipn (Z.to_nat r) s = c :: r' ->
  unquote_step1 s r = SBreak r \/
  exists k, unquote_step1 s r = SNext (r + Z.of_nat k) /\ dstep (c :: r') = Some (k, firstn k (c :: r')).
Proof.
  intros Hr Hrest.
  pose proof (rest_in_range s r c r' Hrest Hr) as Hlt.
  unfold unquote_step1. cbv zeta. guards. rd s r Hrest. unfold dstep. cbn [dguard ustep].
  rewrite (bz_5c c), (bz_22 c), (bz_lt32 c), (bz_lt128 c).
  destruct (Byte.eqb c x5c); [left; reflexivity|]. cbn [orb].
  destruct (Byte.eqb c x22 || (bn c <? 32)%N); [left; reflexivity|]. cbn [negb].
  destruct (bn c <? 128)%N eqn:Hc; [right; exists 1%nat; split; reflexivity|]. cbv beta iota.
  pose proof (decode_encode c r' Hc) as D.
  destruct (utf8_len (c :: r')) as [|n] eqn:E.
  - rewrite D. left. reflexivity.
  - destruct D as (rv & D & K & En). rewrite D. cbv beta iota.
    replace (Z.of_nat (S n) =? 1) with false by (symmetry; apply Z.eqb_neq; lia).
    rewrite andb_false_r. right. exists (S n). split; reflexivity.
Qed.

Definition uq_of (x : option bytes) : uq_res := match x with Some t => UOk t | None => UFalse end.

Lemma skipn_rest (s : bytes) r rest k : skipn (Z.to_nat r) s = rest -> 0 <= r -> 0 <= k ->
  skipn (Z.to_nat (r + k)) s = skipn (Z.to_nat k) rest.
Proof. intros E Hr Hk. rewrite <- E, skipn_skipn. f_equal. lia. Qed.

Lemma rest_cons (s : bytes) r : 0 <= r < len s -> exists c r', skipn (Z.to_nat r) s = c :: r'.
Proof.
  intro H. destruct (skipn (Z.to_nat r) s) as [|c r'] eqn:E; [|eauto].
  apply (f_equal (@length _)) in E. rewrite skipn_length in E. unfold len in H. simpl in E. lia.
Qed.

(* the second loop: it ends within its fuel, never panics, and does what the run says *)
Lemma loop2_runs s : forall fuel r b w,
  0 <= r -> 0 <= w -> w + 5 <= len b -> (Z.to_nat (len s - r) < fuel)%nat ->
  exists x, runs (skipn (Z.to_nat r) s) x /\
    match x with
    | None => unquote_loop2 fuel s r b w = LRet UFalse
    | Some t => exists r1 b1, unquote_loop2 fuel s r b w = LDone (r1, b1, w + len t) /\
                  w + len t <= len b1 /\
                  firstn (Z.to_nat (w + len t)) b1 = firstn (Z.to_nat w) b ++ t
    end.
Proof.
  induction fuel as [|fuel IH]; intros r b w Hr Hw Hb F; [lia|].
  cbn [unquote_loop2]. destruct (r <? len s) eqn:C.
  - apply Z.ltb_lt in C. destruct (rest_cons s r) as (c & r' & Hrest); [lia|].
    destruct (step2_any s r b w c r' Hr Hrest Hw Hb) as (b1 & P1 & L1 & St). rewrite St, Hrest.
    destruct (dstep (c :: r')) as [[k e]|] eqn:Sp.
    + destruct (dstep_out _ _ _ Sp) as (_ & [K1 _] & E4 & _). apply Nat2Z.inj_le in E4. fold (len e) in E4. pose proof (len_nonneg e) as E0.
      destruct (IH (r + Z.of_nat k) (put b1 w e) (w + len e)) as (x & Rx & Hx);
        [lia | lia | rewrite put_len by lia; lia | lia |].
      rewrite (skipn_rest s r (c :: r') (Z.of_nat k) Hrest), Nat2Z.id in Rx by lia.
      exists (option_map (app e) x). split; [apply (R_step c r' k e x Sp Rx)|].
      destruct x as [t|]; cbn [option_map]; [|exact Hx].
      destruct Hx as (r1 & b2 & Lp & Lb & Pf). exists r1, b2.
      rewrite len_app, Z.add_assoc. split; [exact Lp|]. split; [exact Lb|].
      rewrite Pf, put_prefix, P1 by lia. rewrite <- app_assoc. reflexivity.
    + exists None. split; [apply R_false; exact Sp | reflexivity].
  - apply Z.ltb_ge in C. exists (Some []). split.
    + rewrite skipn_all2 by (unfold len in C; lia). constructor.
    + exists r, b. rewrite len_nil, Z.add_0_r, app_nil_r. split; [reflexivity|]. split; [lia | reflexivity].
Qed.

(* the first loop skips a prefix that the run copies *)
Lemma loop1_runs s : forall fuel r,
  0 <= r <= len s -> (Z.to_nat (len s - r) < fuel)%nat ->
  exists r1, unquote_loop1 fuel s r = LDone r1 /\ r <= r1 <= len s /\
    forall x, runs (skipn (Z.to_nat r1) s) x ->
              runs (skipn (Z.to_nat r) s) (option_map (app (slice s r r1)) x).
Proof.
  induction fuel as [|fuel IH]; intros r Hr F; [lia|].
  assert (Stop : exists r1, LDone r = @LDone Z uq_res r1 /\ r <= r1 <= len s /\
    forall x, runs (skipn (Z.to_nat r1) s) x -> runs (skipn (Z.to_nat r) s) (option_map (app (slice s r r1)) x)).
  { exists r. split; [reflexivity|]. split; [lia|]. intros x Rx. unfold slice. rewrite Z.sub_diag. cbn [Z.to_nat firstn].
    destruct x; exact Rx. }
  cbn [unquote_loop1]. destruct (r <? len s) eqn:C; [|exact Stop].
  apply Z.ltb_lt in C. destruct (rest_cons s r) as (c & r' & Hrest); [lia|].
  destruct (step1_spec s r c r') as [Br|(k & St & Sp)]; [lia | exact Hrest | rewrite Br; exact Stop |].
  rewrite St. pose proof (len_rest s r _ Hrest) as Ls. destruct (dstep_out _ _ _ Sp) as (_ & K & _).
  destruct (IH (r + Z.of_nat k)) as (r1 & L & R1 & Tr); [unfold len in *; lia | unfold len in *; lia |].
  exists r1. split; [exact L|]. split; [lia|]. intros x Rx. specialize (Tr x Rx).
  rewrite (skipn_rest s r (c :: r') (Z.of_nat k) Hrest), Nat2Z.id in Tr by lia. rewrite Hrest.
  assert (Sl : slice s r r1 = firstn k (c :: r') ++ slice s (r + Z.of_nat k) r1).
  { unfold slice. rewrite (skipn_rest s r (c :: r') (Z.of_nat k) Hrest), Nat2Z.id, Hrest by lia.
    replace (Z.to_nat (r1 - r)) with (k + Z.to_nat (r1 - (r + Z.of_nat k)))%nat by lia.
    apply firstn_add. }
  rewrite Sl. pose proof (R_step c r' k _ _ Sp Tr) as Q.
  destruct x; cbn [option_map] in *; [rewrite <- app_assoc|]; exact Q.
Qed.

(* the literal without its quotes, if it has them *)
Definition lit_body (s : bytes) : option bytes :=
  if (2 <=? len s) && (bz (at_ s 0) =? 34) && (bz (at_ s (len s - 1)) =? 34)
  then Some (slice s 1 (len s - 1)) else None.

(* EVERY byte string: the function returns (never panics, never runs out of fuel), and returns what
   the run of the step specification over the body says *)
Theorem unquote_full_gen_total s :
  exists x, match lit_body s with None => x = None | Some body => runs body x end /\
            unquote_full_gen s = uq_of x.
Proof.
  unfold unquote_full_gen, lit_body. pose proof (len_nonneg s) as L0.
  destruct (len s <? 2) eqn:C2.
  { apply Z.ltb_lt in C2. zdecide. exists None. split; reflexivity. }
  apply Z.ltb_ge in C2. zdecide. guards.
  destruct (bz (at_ s 0) =? 34); cbn [negb andb]; [|exists None; split; reflexivity].
  destruct (bz (at_ s (len s - 1)) =? 34); cbn [negb andb]; [|exists None; split; reflexivity].
  cbv zeta. generalize (slice s 1 (len s - 1)) as body. clear s L0 C2. intro body.
  pose proof (len_nonneg body) as L0.
  destruct (loop1_runs body (S (length body)) 0) as (r1 & L1 & R1 & Tr); [lia | unfold len; lia |].
  rewrite L1. cbn [Z.to_nat skipn] in Tr.
  destruct (r1 =? len body) eqn:Cr.
  - apply Z.eqb_eq in Cr. exists (Some body). split; [|reflexivity].
    specialize (Tr (Some [])). rewrite skipn_all2 in Tr by (unfold len in Cr; lia). specialize (Tr R_nil).
    cbn [option_map] in Tr. rewrite app_nil_r, slice_from_0, firstn_all2 in Tr by (unfold len in Cr; lia). exact Tr.
  - apply Z.eqb_neq in Cr. zdecide. guards.
    assert (Ls : len (slice body 0 r1) = r1) by (rewrite slice_from_0; apply len_firstn; lia).
    destruct (copy_facts (len body + 2 * 4) (slice body 0 r1)) as (Cn & Cl & Cp); [lia|].
    rewrite Cn, Ls. rewrite Ls in Cp.
    set (b0 := copy_into (make_buf (len body + 2 * 4)) (slice body 0 r1)) in *.
    destruct (loop2_runs body (S (length body)) r1 b0 r1) as (x & Rx & Hx); [lia | lia | lia | unfold len; lia |].
    exists (option_map (app (slice body 0 r1)) x). split; [exact (Tr x Rx)|].
    destruct x as [t|]; cbn [option_map uq_of].
    + destruct Hx as (r2 & b2 & Lp & Lb & Pf). rewrite Lp. pose proof (len_nonneg t) as Lt. guards.
      rewrite slice_from_0, Pf, Cp. reflexivity.
    + rewrite Hx. reflexivity.
Qed.

Corollary unquote_full_gen_no_panic s : unquote_full_gen s <> UPanic /\ unquote_full_gen s <> UFuel.
Proof.
  destruct (unquote_full_gen_total s) as (x & _ & E). rewrite E. destruct x; split; discriminate.
Qed.

Lemma lit_body_quoted body : lit_body ([x22] ++ body ++ [x22]) = Some body.
Proof.
  unfold lit_body. pose proof (len_nonneg body) as L0.
  assert (L : len ([x22] ++ body ++ [x22]) = len body + 2) by (rewrite !len_app; change (len [x22]) with 1; lia).
  rewrite L. zdecide.
  assert (A0 : at_ ([x22] ++ body ++ [x22]) 0 = x22) by reflexivity.
  assert (A1 : at_ ([x22] ++ body ++ [x22]) (len body + 2 - 1) = x22).
  { unfold at_. replace (Z.to_nat (len body + 2 - 1)) with (S (length body)) by (unfold len; lia).
    cbn [app nth]. rewrite app_nth2 by lia. rewrite Nat.sub_diag. reflexivity. }
  rewrite A0, A1. change (bz x22 =? 34) with true. cbn [andb]. f_equal.
  unfold slice. replace (Z.to_nat (len body + 2 - 1 - 1)) with (length body) by (unfold len; lia).
  change (skipn (Z.to_nat 1) ([x22] ++ body ++ [x22])) with (body ++ [x22]).
  apply (firstn_app_exact (length body) body [x22] eq_refl).
Qed.

(* the translated decoder computes the model on every body the scanner accepts *)
Theorem unquote_full_gen_is_unquote body :
  sbody body -> unquote_full_gen ([x22] ++ body ++ [x22]) = UOk (unquote body).
Proof.
  intro S. destruct (unquote_full_gen_total ([x22] ++ body ++ [x22])) as (x & Rx & E).
  rewrite lit_body_quoted in Rx. rewrite E, (runs_sbody body x Rx S). reflexivity.
Qed.

(* ------------------------------------------------------------------ examples
   The right-hand sides are what the Go function returns (getu4 and unquoteBytes copied textually from
   decode.go into a scratch main package and run, go1.23.5): the translated function computes them by
   vm_compute; for the bodies the scanner accepts so does the model (ex_model_...).
   Escapes, \uXXXX in upper and lower case, a surrogate pair and the bounds of the pair ranges, lone high and
   low surrogates at the end and in the middle, a high surrogate followed by something else, hex digits just
   outside the three ranges, truncated and unknown escapes, control bytes, well-formed UTF-8 (early return
   of the first loop), ill-formed UTF-8, and ill-formed bytes followed by a long tail (the regrow path, once
   and twice). *)
Example ex_empty :
  unquote_full_gen [x22; x22] =
  UOk [].
Proof. vm_compute. reflexivity. Qed.

Example ex_model_empty :
  unquote [] =
  [].
Proof. vm_compute. reflexivity. Qed.

Example ex_plain :
  unquote_full_gen [x22; x68; x65; x6c; x6c; x6f; x2c; x20; x77; x6f; x72; x6c; x64; x22] =
  UOk [x68; x65; x6c; x6c; x6f; x2c; x20; x77; x6f; x72; x6c; x64].
Proof. vm_compute. reflexivity. Qed.

Example ex_model_plain :
  unquote [x68; x65; x6c; x6c; x6f; x2c; x20; x77; x6f; x72; x6c; x64] =
  [x68; x65; x6c; x6c; x6f; x2c; x20; x77; x6f; x72; x6c; x64].
Proof. vm_compute. reflexivity. Qed.

Example ex_escapes :
  unquote_full_gen [x22; x61; x5c; x22; x5c; x5c; x5c; x2f; x5c; x62; x5c; x66; x5c; x6e; x5c; x72; x5c; x74; x7a; x22] =
  UOk [x61; x22; x5c; x2f; x08; x0c; x0a; x0d; x09; x7a].
Proof. vm_compute. reflexivity. Qed.

Example ex_model_escapes :
  unquote [x61; x5c; x22; x5c; x5c; x5c; x2f; x5c; x62; x5c; x66; x5c; x6e; x5c; x72; x5c; x74; x7a] =
  [x61; x22; x5c; x2f; x08; x0c; x0a; x0d; x09; x7a].
Proof. vm_compute. reflexivity. Qed.

Example ex_escape_apostrophe :
  unquote_full_gen [x22; x61; x5c; x27; x7a; x22] =
  UOk [x61; x27; x7a].
Proof. vm_compute. reflexivity. Qed.

Example ex_u_bmp :
  unquote_full_gen [x22; x5c; x75; x30; x30; x34; x31; x5c; x75; x30; x30; x65; x39; x5c; x75; x32; x30; x61; x63; x5c; x75; x66; x66; x66; x66; x5c; x75; x30; x30; x30; x30; x22] =
  UOk [x41; xc3; xa9; xe2; x82; xac; xef; xbf; xbf; x00].
Proof. vm_compute. reflexivity. Qed.

Example ex_model_u_bmp :
  unquote [x5c; x75; x30; x30; x34; x31; x5c; x75; x30; x30; x65; x39; x5c; x75; x32; x30; x61; x63; x5c; x75; x66; x66; x66; x66; x5c; x75; x30; x30; x30; x30] =
  [x41; xc3; xa9; xe2; x82; xac; xef; xbf; xbf; x00].
Proof. vm_compute. reflexivity. Qed.

Example ex_u_pair :
  unquote_full_gen [x22; x78; x5c; x75; x64; x38; x33; x64; x5c; x75; x64; x65; x30; x30; x79; x22] =
  UOk [x78; xf0; x9f; x98; x80; x79].
Proof. vm_compute. reflexivity. Qed.

Example ex_model_u_pair :
  unquote [x78; x5c; x75; x64; x38; x33; x64; x5c; x75; x64; x65; x30; x30; x79] =
  [x78; xf0; x9f; x98; x80; x79].
Proof. vm_compute. reflexivity. Qed.

Example ex_u_pair_bounds :
  unquote_full_gen [x22; x5c; x75; x64; x38; x30; x30; x5c; x75; x64; x63; x30; x30; x5c; x75; x64; x62; x66; x66; x5c; x75; x64; x66; x66; x66; x22] =
  UOk [xf0; x90; x80; x80; xf4; x8f; xbf; xbf].
Proof. vm_compute. reflexivity. Qed.

Example ex_model_u_pair_bounds :
  unquote [x5c; x75; x64; x38; x30; x30; x5c; x75; x64; x63; x30; x30; x5c; x75; x64; x62; x66; x66; x5c; x75; x64; x66; x66; x66] =
  [xf0; x90; x80; x80; xf4; x8f; xbf; xbf].
Proof. vm_compute. reflexivity. Qed.

Example ex_u_hex_upper_lower :
  unquote_full_gen [x22; x5c; x75; x44; x38; x33; x44; x5c; x75; x64; x45; x30; x30; x5c; x75; x30; x30; x45; x39; x5c; x75; x41; x62; x43; x64; x5c; x75; x61; x62; x63; x64; x5c; x75; x41; x42; x43; x44; x5c; x75; x30; x39; x61; x66; x5c; x75; x30; x39; x41; x46; x22] =
  UOk [xf0; x9f; x98; x80; xc3; xa9; xea; xaf; x8d; xea; xaf; x8d; xea; xaf; x8d; xe0; xa6; xaf; xe0; xa6; xaf].
Proof. vm_compute. reflexivity. Qed.

Example ex_model_u_hex_upper_lower :
  unquote [x5c; x75; x44; x38; x33; x44; x5c; x75; x64; x45; x30; x30; x5c; x75; x30; x30; x45; x39; x5c; x75; x41; x62; x43; x64; x5c; x75; x61; x62; x63; x64; x5c; x75; x41; x42; x43; x44; x5c; x75; x30; x39; x61; x66; x5c; x75; x30; x39; x41; x46] =
  [xf0; x9f; x98; x80; xc3; xa9; xea; xaf; x8d; xea; xaf; x8d; xea; xaf; x8d; xe0; xa6; xaf; xe0; xa6; xaf].
Proof. vm_compute. reflexivity. Qed.

Example ex_u_lone_high_end :
  unquote_full_gen [x22; x78; x5c; x75; x64; x38; x33; x64; x22] =
  UOk [x78; xef; xbf; xbd].
Proof. vm_compute. reflexivity. Qed.

Example ex_model_u_lone_high_end :
  unquote [x78; x5c; x75; x64; x38; x33; x64] =
  [x78; xef; xbf; xbd].
Proof. vm_compute. reflexivity. Qed.

Example ex_u_lone_low_end :
  unquote_full_gen [x22; x78; x5c; x75; x64; x65; x30; x30; x22] =
  UOk [x78; xef; xbf; xbd].
Proof. vm_compute. reflexivity. Qed.

Example ex_model_u_lone_low_end :
  unquote [x78; x5c; x75; x64; x65; x30; x30] =
  [x78; xef; xbf; xbd].
Proof. vm_compute. reflexivity. Qed.

Example ex_u_lone_high_mid :
  unquote_full_gen [x22; x5c; x75; x64; x38; x33; x64; x78; x79; x7a; x22] =
  UOk [xef; xbf; xbd; x78; x79; x7a].
Proof. vm_compute. reflexivity. Qed.

Example ex_model_u_lone_high_mid :
  unquote [x5c; x75; x64; x38; x33; x64; x78; x79; x7a] =
  [xef; xbf; xbd; x78; x79; x7a].
Proof. vm_compute. reflexivity. Qed.

Example ex_u_lone_low_mid :
  unquote_full_gen [x22; x5c; x75; x64; x65; x30; x30; x78; x79; x7a; x22] =
  UOk [xef; xbf; xbd; x78; x79; x7a].
Proof. vm_compute. reflexivity. Qed.

Example ex_model_u_lone_low_mid :
  unquote [x5c; x75; x64; x65; x30; x30; x78; x79; x7a] =
  [xef; xbf; xbd; x78; x79; x7a].
Proof. vm_compute. reflexivity. Qed.

Example ex_u_high_then_bmp :
  unquote_full_gen [x22; x5c; x75; x64; x38; x33; x64; x5c; x75; x30; x30; x34; x31; x22] =
  UOk [xef; xbf; xbd; x41].
Proof. vm_compute. reflexivity. Qed.

Example ex_model_u_high_then_bmp :
  unquote [x5c; x75; x64; x38; x33; x64; x5c; x75; x30; x30; x34; x31] =
  [xef; xbf; xbd; x41].
Proof. vm_compute. reflexivity. Qed.

Example ex_u_high_high_low :
  unquote_full_gen [x22; x5c; x75; x64; x38; x33; x64; x5c; x75; x64; x38; x33; x64; x5c; x75; x64; x65; x30; x30; x22] =
  UOk [xef; xbf; xbd; xf0; x9f; x98; x80].
Proof. vm_compute. reflexivity. Qed.

Example ex_model_u_high_high_low :
  unquote [x5c; x75; x64; x38; x33; x64; x5c; x75; x64; x38; x33; x64; x5c; x75; x64; x65; x30; x30] =
  [xef; xbf; xbd; xf0; x9f; x98; x80].
Proof. vm_compute. reflexivity. Qed.

Example ex_u_low_high :
  unquote_full_gen [x22; x5c; x75; x64; x65; x30; x30; x5c; x75; x64; x38; x33; x64; x22] =
  UOk [xef; xbf; xbd; xef; xbf; xbd].
Proof. vm_compute. reflexivity. Qed.

Example ex_model_u_low_high :
  unquote [x5c; x75; x64; x65; x30; x30; x5c; x75; x64; x38; x33; x64] =
  [xef; xbf; xbd; xef; xbf; xbd].
Proof. vm_compute. reflexivity. Qed.

Example ex_u_high_then_backslash_n :
  unquote_full_gen [x22; x5c; x75; x64; x62; x66; x66; x5c; x6e; x22] =
  UOk [xef; xbf; xbd; x0a].
Proof. vm_compute. reflexivity. Qed.

Example ex_model_u_high_then_backslash_n :
  unquote [x5c; x75; x64; x62; x66; x66; x5c; x6e] =
  [xef; xbf; xbd; x0a].
Proof. vm_compute. reflexivity. Qed.

Example ex_u_high_then_short :
  unquote_full_gen [x22; x5c; x75; x64; x38; x33; x64; x5c; x75; x31; x32; x22] =
  UFalse.
Proof. vm_compute. reflexivity. Qed.

Example ex_u_d7ff_e000 :
  unquote_full_gen [x22; x5c; x75; x64; x37; x66; x66; x5c; x75; x65; x30; x30; x30; x22] =
  UOk [xed; x9f; xbf; xee; x80; x80].
Proof. vm_compute. reflexivity. Qed.

Example ex_model_u_d7ff_e000 :
  unquote [x5c; x75; x64; x37; x66; x66; x5c; x75; x65; x30; x30; x30] =
  [xed; x9f; xbf; xee; x80; x80].
Proof. vm_compute. reflexivity. Qed.

Example ex_u_bad_hex_g :
  unquote_full_gen [x22; x5c; x75; x30; x30; x67; x30; x22] =
  UFalse.
Proof. vm_compute. reflexivity. Qed.

Example ex_u_bad_hex_G :
  unquote_full_gen [x22; x5c; x75; x30; x30; x47; x30; x22] =
  UFalse.
Proof. vm_compute. reflexivity. Qed.

Example ex_u_bad_hex_colon :
  unquote_full_gen [x22; x5c; x75; x30; x30; x3a; x30; x22] =
  UFalse.
Proof. vm_compute. reflexivity. Qed.

Example ex_u_bad_hex_slash :
  unquote_full_gen [x22; x5c; x75; x30; x30; x2f; x30; x22] =
  UFalse.
Proof. vm_compute. reflexivity. Qed.

Example ex_u_bad_hex_at :
  unquote_full_gen [x22; x5c; x75; x30; x30; x40; x30; x22] =
  UFalse.
Proof. vm_compute. reflexivity. Qed.

Example ex_u_bad_hex_backquote :
  unquote_full_gen [x22; x5c; x75; x30; x30; x60; x30; x22] =
  UFalse.
Proof. vm_compute. reflexivity. Qed.

Example ex_u_bad_hex_high_byte :
  unquote_full_gen [x22; x5c; x75; x30; x30; xe9; x30; x22] =
  UFalse.
Proof. vm_compute. reflexivity. Qed.

Example ex_u_truncated :
  unquote_full_gen [x22; x5c; x75; x31; x32; x22] =
  UFalse.
Proof. vm_compute. reflexivity. Qed.

Example ex_bad_escape :
  unquote_full_gen [x22; x61; x5c; x78; x22] =
  UFalse.
Proof. vm_compute. reflexivity. Qed.

Example ex_backslash_at_end :
  unquote_full_gen [x22; x61; x62; x63; x5c; x22] =
  UFalse.
Proof. vm_compute. reflexivity. Qed.

Example ex_control :
  unquote_full_gen [x22; x61; x01; x62; x22] =
  UFalse.
Proof. vm_compute. reflexivity. Qed.

Example ex_inner_quote :
  unquote_full_gen [x22; x61; x22; x62; x22] =
  UFalse.
Proof. vm_compute. reflexivity. Qed.

Example ex_utf8_valid_only :
  unquote_full_gen [x22; x68; xc3; xa9; x20; xe2; x82; xac; x20; xf0; x9f; x98; x80; xef; xbf; xbd; x22] =
  UOk [x68; xc3; xa9; x20; xe2; x82; xac; x20; xf0; x9f; x98; x80; xef; xbf; xbd].
Proof. vm_compute. reflexivity. Qed.

Example ex_model_utf8_valid_only :
  unquote [x68; xc3; xa9; x20; xe2; x82; xac; x20; xf0; x9f; x98; x80; xef; xbf; xbd] =
  [x68; xc3; xa9; x20; xe2; x82; xac; x20; xf0; x9f; x98; x80; xef; xbf; xbd].
Proof. vm_compute. reflexivity. Qed.

Example ex_utf8_valid_after_escape :
  unquote_full_gen [x22; x5c; x6e; x68; xc3; xa9; x20; xe2; x82; xac; x20; xf0; x9f; x98; x80; x22] =
  UOk [x0a; x68; xc3; xa9; x20; xe2; x82; xac; x20; xf0; x9f; x98; x80].
Proof. vm_compute. reflexivity. Qed.

Example ex_model_utf8_valid_after_escape :
  unquote [x5c; x6e; x68; xc3; xa9; x20; xe2; x82; xac; x20; xf0; x9f; x98; x80] =
  [x0a; x68; xc3; xa9; x20; xe2; x82; xac; x20; xf0; x9f; x98; x80].
Proof. vm_compute. reflexivity. Qed.

Example ex_illformed :
  unquote_full_gen [x22; xff; x20; xc0; x80; x20; xe2; x80; x20; xed; xa0; x80; x20; xf4; x90; x80; x80; x20; xe2; x22] =
  UOk [xef; xbf; xbd; x20; xef; xbf; xbd; xef; xbf; xbd; x20; xef; xbf; xbd; xef; xbf; xbd; x20; xef; xbf; xbd; xef; xbf; xbd; xef; xbf; xbd; x20; xef; xbf; xbd; xef; xbf; xbd; xef; xbf; xbd; xef; xbf; xbd; x20; xef; xbf; xbd].
Proof. vm_compute. reflexivity. Qed.

Example ex_model_illformed :
  unquote [xff; x20; xc0; x80; x20; xe2; x80; x20; xed; xa0; x80; x20; xf4; x90; x80; x80; x20; xe2] =
  [xef; xbf; xbd; x20; xef; xbf; xbd; xef; xbf; xbd; x20; xef; xbf; xbd; xef; xbf; xbd; x20; xef; xbf; xbd; xef; xbf; xbd; xef; xbf; xbd; x20; xef; xbf; xbd; xef; xbf; xbd; xef; xbf; xbd; xef; xbf; xbd; x20; xef; xbf; xbd].
Proof. vm_compute. reflexivity. Qed.

Example ex_regrow_5_bad_long_tail :
  unquote_full_gen [x22; x80; x80; x80; x80; x80; x61; x62; x63; x64; x65; x66; x67; x68; x69; x6a; x6b; x6c; x6d; x6e; x6f; x70; x71; x72; x73; x74; x75; x76; x77; x78; x79; x7a; x30; x31; x32; x33; x34; x35; x36; x37; x38; x39; x22] =
  UOk [xef; xbf; xbd; xef; xbf; xbd; xef; xbf; xbd; xef; xbf; xbd; xef; xbf; xbd; x61; x62; x63; x64; x65; x66; x67; x68; x69; x6a; x6b; x6c; x6d; x6e; x6f; x70; x71; x72; x73; x74; x75; x76; x77; x78; x79; x7a; x30; x31; x32; x33; x34; x35; x36; x37; x38; x39].
Proof. vm_compute. reflexivity. Qed.

Example ex_model_regrow_5_bad_long_tail :
  unquote [x80; x80; x80; x80; x80; x61; x62; x63; x64; x65; x66; x67; x68; x69; x6a; x6b; x6c; x6d; x6e; x6f; x70; x71; x72; x73; x74; x75; x76; x77; x78; x79; x7a; x30; x31; x32; x33; x34; x35; x36; x37; x38; x39] =
  [xef; xbf; xbd; xef; xbf; xbd; xef; xbf; xbd; xef; xbf; xbd; xef; xbf; xbd; x61; x62; x63; x64; x65; x66; x67; x68; x69; x6a; x6b; x6c; x6d; x6e; x6f; x70; x71; x72; x73; x74; x75; x76; x77; x78; x79; x7a; x30; x31; x32; x33; x34; x35; x36; x37; x38; x39].
Proof. vm_compute. reflexivity. Qed.

Example ex_regrow_12_bad_tail :
  unquote_full_gen [x22; xff; xff; xff; xff; xff; xff; xff; xff; xff; xff; xff; xff; x74; x61; x69; x6c; x20; x74; x61; x69; x6c; x20; x74; x61; x69; x6c; x20; x74; x61; x69; x6c; x20; x74; x61; x69; x6c; x20; x74; x61; x69; x6c; x20; x74; x61; x69; x6c; x20; x74; x61; x69; x6c; x22] =
  UOk [xef; xbf; xbd; xef; xbf; xbd; xef; xbf; xbd; xef; xbf; xbd; xef; xbf; xbd; xef; xbf; xbd; xef; xbf; xbd; xef; xbf; xbd; xef; xbf; xbd; xef; xbf; xbd; xef; xbf; xbd; xef; xbf; xbd; x74; x61; x69; x6c; x20; x74; x61; x69; x6c; x20; x74; x61; x69; x6c; x20; x74; x61; x69; x6c; x20; x74; x61; x69; x6c; x20; x74; x61; x69; x6c; x20; x74; x61; x69; x6c; x20; x74; x61; x69; x6c].
Proof. vm_compute. reflexivity. Qed.

Example ex_model_regrow_12_bad_tail :
  unquote [xff; xff; xff; xff; xff; xff; xff; xff; xff; xff; xff; xff; x74; x61; x69; x6c; x20; x74; x61; x69; x6c; x20; x74; x61; x69; x6c; x20; x74; x61; x69; x6c; x20; x74; x61; x69; x6c; x20; x74; x61; x69; x6c; x20; x74; x61; x69; x6c; x20; x74; x61; x69; x6c] =
  [xef; xbf; xbd; xef; xbf; xbd; xef; xbf; xbd; xef; xbf; xbd; xef; xbf; xbd; xef; xbf; xbd; xef; xbf; xbd; xef; xbf; xbd; xef; xbf; xbd; xef; xbf; xbd; xef; xbf; xbd; xef; xbf; xbd; x74; x61; x69; x6c; x20; x74; x61; x69; x6c; x20; x74; x61; x69; x6c; x20; x74; x61; x69; x6c; x20; x74; x61; x69; x6c; x20; x74; x61; x69; x6c; x20; x74; x61; x69; x6c; x20; x74; x61; x69; x6c].
Proof. vm_compute. reflexivity. Qed.

Example ex_regrow_twice :
  unquote_full_gen [x22; xc0; xc0; xc0; xc0; xc0; xc0; xc0; xc0; xc0; xc0; xc0; xc0; xc0; xc0; xc0; xc0; xc0; xc0; xc0; xc0; xc0; xc0; xc0; xc0; xc0; xc0; xc0; xc0; xc0; xc0; xc0; xc0; xc0; xc0; xc0; xc0; xc0; xc0; xc0; xc0; x5c; x75; x64; x38; x33; x64; x5c; x75; x64; x65; x30; x30; x22] =
  UOk [xef; xbf; xbd; xef; xbf; xbd; xef; xbf; xbd; xef; xbf; xbd; xef; xbf; xbd; xef; xbf; xbd; xef; xbf; xbd; xef; xbf; xbd; xef; xbf; xbd; xef; xbf; xbd; xef; xbf; xbd; xef; xbf; xbd; xef; xbf; xbd; xef; xbf; xbd; xef; xbf; xbd; xef; xbf; xbd; xef; xbf; xbd; xef; xbf; xbd; xef; xbf; xbd; xef; xbf; xbd; xef; xbf; xbd; xef; xbf; xbd; xef; xbf; xbd; xef; xbf; xbd; xef; xbf; xbd; xef; xbf; xbd; xef; xbf; xbd; xef; xbf; xbd; xef; xbf; xbd; xef; xbf; xbd; xef; xbf; xbd; xef; xbf; xbd; xef; xbf; xbd; xef; xbf; xbd; xef; xbf; xbd; xef; xbf; xbd; xef; xbf; xbd; xef; xbf; xbd; xef; xbf; xbd; xef; xbf; xbd; xf0; x9f; x98; x80].
Proof. vm_compute. reflexivity. Qed.

Example ex_model_regrow_twice :
  unquote [xc0; xc0; xc0; xc0; xc0; xc0; xc0; xc0; xc0; xc0; xc0; xc0; xc0; xc0; xc0; xc0; xc0; xc0; xc0; xc0; xc0; xc0; xc0; xc0; xc0; xc0; xc0; xc0; xc0; xc0; xc0; xc0; xc0; xc0; xc0; xc0; xc0; xc0; xc0; xc0; x5c; x75; x64; x38; x33; x64; x5c; x75; x64; x65; x30; x30] =
  [xef; xbf; xbd; xef; xbf; xbd; xef; xbf; xbd; xef; xbf; xbd; xef; xbf; xbd; xef; xbf; xbd; xef; xbf; xbd; xef; xbf; xbd; xef; xbf; xbd; xef; xbf; xbd; xef; xbf; xbd; xef; xbf; xbd; xef; xbf; xbd; xef; xbf; xbd; xef; xbf; xbd; xef; xbf; xbd; xef; xbf; xbd; xef; xbf; xbd; xef; xbf; xbd; xef; xbf; xbd; xef; xbf; xbd; xef; xbf; xbd; xef; xbf; xbd; xef; xbf; xbd; xef; xbf; xbd; xef; xbf; xbd; xef; xbf; xbd; xef; xbf; xbd; xef; xbf; xbd; xef; xbf; xbd; xef; xbf; xbd; xef; xbf; xbd; xef; xbf; xbd; xef; xbf; xbd; xef; xbf; xbd; xef; xbf; xbd; xef; xbf; xbd; xef; xbf; xbd; xef; xbf; xbd; xef; xbf; xbd; xf0; x9f; x98; x80].
Proof. vm_compute. reflexivity. Qed.

Example ex_regrow_bad_then_escapes :
  unquote_full_gen [x22; x80; x80; x80; x80; x80; x80; x5c; x6e; x5c; x6e; x5c; x6e; x5c; x6e; x5c; x6e; x5c; x6e; x5c; x6e; x5c; x6e; x5c; x6e; x5c; x6e; x5c; x6e; x5c; x6e; x5c; x6e; x5c; x6e; x5c; x6e; x5c; x6e; x5c; x6e; x5c; x6e; x5c; x6e; x5c; x6e; x80; x80; x80; x22] =
  UOk [xef; xbf; xbd; xef; xbf; xbd; xef; xbf; xbd; xef; xbf; xbd; xef; xbf; xbd; xef; xbf; xbd; x0a; x0a; x0a; x0a; x0a; x0a; x0a; x0a; x0a; x0a; x0a; x0a; x0a; x0a; x0a; x0a; x0a; x0a; x0a; x0a; xef; xbf; xbd; xef; xbf; xbd; xef; xbf; xbd].
Proof. vm_compute. reflexivity. Qed.

Example ex_model_regrow_bad_then_escapes :
  unquote [x80; x80; x80; x80; x80; x80; x5c; x6e; x5c; x6e; x5c; x6e; x5c; x6e; x5c; x6e; x5c; x6e; x5c; x6e; x5c; x6e; x5c; x6e; x5c; x6e; x5c; x6e; x5c; x6e; x5c; x6e; x5c; x6e; x5c; x6e; x5c; x6e; x5c; x6e; x5c; x6e; x5c; x6e; x5c; x6e; x80; x80; x80] =
  [xef; xbf; xbd; xef; xbf; xbd; xef; xbf; xbd; xef; xbf; xbd; xef; xbf; xbd; xef; xbf; xbd; x0a; x0a; x0a; x0a; x0a; x0a; x0a; x0a; x0a; x0a; x0a; x0a; x0a; x0a; x0a; x0a; x0a; x0a; x0a; x0a; xef; xbf; xbd; xef; xbf; xbd; xef; xbf; xbd].
Proof. vm_compute. reflexivity. Qed.

Example ex_no_quotes :
  unquote_full_gen [x61; x62; x63] =
  UFalse.
Proof. vm_compute. reflexivity. Qed.

Example ex_one_quote :
  unquote_full_gen [x22] =
  UFalse.
Proof. vm_compute. reflexivity. Qed.

Example ex_nil :
  unquote_full_gen [] =
  UFalse.
Proof. vm_compute. reflexivity. Qed.

Example ex_no_closing_quote :
  unquote_full_gen [x22; x61; x62; x63] =
  UFalse.
Proof. vm_compute. reflexivity. Qed.

Example ex_no_opening_quote :
  unquote_full_gen [x61; x62; x63; x22] =
  UFalse.
Proof. vm_compute. reflexivity. Qed.

Print Assumptions unquote_full_gen_total.
Print Assumptions unquote_full_gen_no_panic.
Print Assumptions unquote_full_gen_is_unquote.

