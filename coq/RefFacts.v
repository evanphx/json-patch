(* RefFacts.v — the RFC 6902 reference (Rfc6902.v) restated as "descend to the parent, act on the
   leaf, rebuild": the form in which the implementation's pointer walk is compared with it.  Before
   that, what a reference token must look like to be read as an array index (Pointer.canonical_nat,
   canonical_neg). *)
From Coq Require Import Lia.
From JP Require Import Bytes Json Pointer Rfc6902 JsonFacts ListFacts.

(* ---- canonical index spellings (Pointer.canonical_nat, canonical_neg) ---- *)
Local Open Scope Z_scope.

Lemma digits_val_nonneg : forall s acc v, 0 <= acc -> digits_val acc s = Some v -> 0 <= v.
Proof.
  induction s as [|c s IH]; simpl; intros acc v Ha H.
  - inversion H; subst; auto.
  - destruct (is_digit c); try discriminate. apply IH in H; auto.
    assert (0 <= Z.of_N (bn c - 48)) by apply N2Z.is_nonneg. lia.
Qed.

Definition dig (c : byte) : Z := Z.of_N (bn c - 48).

Lemma dig_range c : is_digit c = true -> (0 <= dig c <= 9)%Z.
Proof. unfold is_digit, dig. intro H. apply andb_prop in H as [H1 H2]. apply N.leb_le in H1, H2. lia. Qed.

Lemma digit19_digit c : is_digit19 c = true -> is_digit c = true /\ 1 <= dig c.
Proof.
  unfold is_digit19, is_digit, dig. intro H. apply andb_prop in H as [H1 H2]. rewrite H2, andb_true_r.
  apply N.leb_le in H1. split; [apply N.leb_le|]; lia.
Qed.

(* canonical_nat and canonical_neg on a non-empty spelling, by tests on its first byte *)
Lemma canonical_nat_cons c r :
  canonical_nat (c :: r) =
  if bseq (c :: r) [x30] then Some 0 else if is_digit19 c && forallb is_digit r then digits_val 0 (c :: r) else None.
Proof. destruct c; try reflexivity. destruct r; reflexivity. Qed.

Lemma canonical_neg_cons c r :
  canonical_neg (c :: r) =
  if Byte.eqb c x2d then match canonical_nat r with Some k => if 0 <? k then Some k else None | None => None end else None.
Proof. destruct c; reflexivity. Qed.

Lemma canonical_nat_digits t n : canonical_nat t = Some n -> digits_val 0 t = Some n /\ 0 <= n /\
  exists c r, t = c :: r /\ is_digit c = true.
Proof.
  destruct t as [|c r]; [discriminate|]. rewrite canonical_nat_cons. destruct (bseq (c :: r) [x30]) eqn:Z.
  - apply bseq_eq in Z. injection Z as -> ->. intro H. injection H as <-.
    split; [reflexivity|]. split; [lia|]. now exists x30, [].
  - destruct (is_digit19 c && forallb is_digit r) eqn:E; [|discriminate]. intro D.
    apply andb_prop in E as [E _]. apply digit19_digit in E as [E _].
    split; [exact D|]. split; [eapply digits_val_nonneg; eauto; lia | eauto].
Qed.

Lemma canonical_neg_inv t k : canonical_neg t = Some k ->
  0 < k /\ exists c r, t = x2d :: c :: r /\ digits_val 0 (c :: r) = Some k.
Proof.
  destruct t as [|c r]; [discriminate|]. rewrite canonical_neg_cons.
  destruct (Byte.eqb c x2d) eqn:C; [|discriminate]. apply Byte.byte_dec_bl in C. subst c.
  destruct (canonical_nat r) as [k'|] eqn:E; [|discriminate]. destruct (0 <? k') eqn:P; [|discriminate].
  intro H. injection H as <-. apply Z.ltb_lt in P. split; [exact P|].
  apply canonical_nat_digits in E as (D & _ & c & r' & -> & _). eauto.
Qed.

Local Close Scope Z_scope.

Definition child_at (d : dialect) (j : ojson) (t : bytes) : option ojson :=
  match j with
  | OObj ms => aget t ms
  | OArr l => match idx_existing d (zlen l) t with Some i => Some (nth i l ONull) | None => None end
  | _ => None
  end.

Definition put_child (d : dialect) (j : ojson) (t : bytes) (c' : ojson) : ojson :=
  match j with
  | OObj ms => OObj (aset t c' ms)
  | OArr l => match idx_existing d (zlen l) t with Some i => OArr (set_at i c' l) | None => j end
  | _ => j
  end.

Fixpoint descend (d : dialect) (toks : list bytes) (j : ojson) : option ojson :=
  match toks with
  | [] => Some j
  | t :: r => match child_at d j t with Some c => descend d r c | None => None end
  end.

Lemma idx_existing_lt d {A} (l : list A) t i : idx_existing d (Rfc6902.zlen l) t = Some i -> (i < length l)%nat.
Proof.
  unfold idx_existing, Rfc6902.zlen. destruct (canonical_nat t) as [n|] eqn:E.
  - pose proof (canonical_nat_digits _ _ E) as [_ [N0 _]].
    destruct (n <? Z.of_nat (length l))%Z eqn:L; try discriminate. apply Z.ltb_lt in L. intro H; inversion H. lia.
  - destruct (canonical_neg t) as [k|] eqn:E2; try discriminate.
    pose proof (canonical_neg_inv _ _ E2) as [P _].
    destruct (neg_idx d && (k <=? Z.of_nat (length l))%Z) eqn:L; try discriminate.
    apply andb_prop in L as [_ L]. apply Z.leb_le in L. intro H; inversion H. lia.
Qed.

Lemma put_child_same d j t x : child_at d j t = Some x -> put_child d j t x = j.
Proof.
  destruct j; simpl; try discriminate.
  - destruct (idx_existing d (Rfc6902.zlen l) t) as [i|] eqn:E; try discriminate. intro H; inversion H; subst.
    f_equal. apply set_at_same. eapply idx_existing_lt; eauto.
  - intro H. f_equal. apply aset_same. exact H.
Qed.

Lemma child_at_container d c t x : child_at d c t = Some x -> is_container c = true.
Proof. destruct c; try discriminate; reflexivity. Qed.

Lemma descend_container d ps c p : descend d ps c = Some p -> is_container p = true -> is_container c = true.
Proof.
  destruct ps as [|t ps]; cbn [descend]; [intros H Cp; inversion H; subst; exact Cp|].
  destruct (child_at d c t) eqn:E; [intros _ _; eapply child_at_container; eauto | discriminate].
Qed.

Fixpoint rebuild (d : dialect) (toks : list bytes) (j x : ojson) : ojson :=
  match toks with
  | [] => x
  | t :: r => match child_at d j t with Some c => put_child d j t (rebuild d r c x) | None => j end
  end.

Lemma bind_ok {A} (r : res A) : bind r (fun x => Ok x) = r.
Proof. destruct r; reflexivity. Qed.

Lemma at_parent_cons d t next rest0 j f :
  at_parent d (t :: next :: rest0) j f =
  match child_at d j t with
  | Some c => bind (at_parent d (next :: rest0) c f) (fun c' => Ok (put_child d j t c'))
  | None => Fail FUnreachable
  end.
Proof.
  destruct j; try reflexivity.
  cbn [at_parent child_at put_child]. destruct (idx_existing d (zlen l) t); reflexivity.
Qed.

Lemma at_parent_prefix d f : forall ps j toks, toks <> [] ->
  at_parent d (ps ++ toks) j f =
  match descend d ps j with
  | Some p => bind (at_parent d toks p f) (fun p' => Ok (rebuild d ps j p'))
  | None => Fail FUnreachable
  end.
Proof.
  induction ps as [|t0 ps IH]; intros j toks NE.
  - cbn [app descend rebuild]. now rewrite bind_ok.
  - change ((t0 :: ps) ++ toks) with (t0 :: (ps ++ toks)).
    destruct (ps ++ toks) as [|n1 r1] eqn:Ea; [destruct ps; [cbn in Ea; congruence | discriminate]|].
    rewrite at_parent_cons, <- Ea. cbn [descend rebuild].
    destruct (child_at d j t0) as [c|] eqn:E; [|reflexivity].
    rewrite (IH c toks NE). destruct (descend d ps c); [|reflexivity].
    destruct (at_parent d toks o f); reflexivity.
Qed.

Lemma at_parent_snoc d g ps t j :
  at_parent d (ps ++ [t]) j g =
  match descend d ps j with
  | Some p => bind (g p t) (fun p' => Ok (rebuild d ps j p'))
  | None => Fail FUnreachable
  end.
Proof. apply (at_parent_prefix d g ps j [t]). discriminate. Qed.

Lemma at_parent_ok_parent d g ps t j j' :
  (forall p t, is_container p = false -> g p t = Fail FUnreachable) ->
  at_parent d (ps ++ [t]) j g = Ok j' -> exists p, descend d ps j = Some p /\ is_container p = true.
Proof.
  intros NC H. rewrite at_parent_snoc in H. destruct (descend d ps j) as [p|]; [|discriminate H].
  exists p. split; [reflexivity|]. destruct (is_container p) eqn:Cp; [reflexivity|].
  rewrite (NC p t Cp) in H. discriminate H.
Qed.

Definition get_leaf (d : dialect) (p : ojson) (t : bytes) : res ojson :=
  match p with
  | OObj ms => match aget t ms with Some c => Ok c | None => Fail FMissingMember end
  | OArr l => match idx_existing d (zlen l) t with Some i => Ok (nth i l ONull) | None => Fail FIndex end
  | _ => Fail FUnreachable
  end.

Lemma get_at_snoc d : forall ps t j,
  get_at d (ps ++ [t]) j =
  match descend d ps j with Some p => get_leaf d p t | None => Fail FUnreachable end.
Proof.
  induction ps as [|t0 ps IH]; intros t j.
  - simpl. destruct j; auto; try (destruct (idx_existing d (zlen l) t); auto); try (destruct (aget t ms); auto).
  - change ((t0 :: ps) ++ [t]) with (t0 :: (ps ++ [t])). cbn [get_at descend].
    assert (NE : ps ++ [t] <> []) by (destruct ps; discriminate).
    destruct j; cbn [child_at]; auto.
    + destruct (idx_existing d (zlen l) t0); [apply IH|]. destruct (ps ++ [t]); congruence.
    + destruct (aget t0 ms); [apply IH|]. destruct (ps ++ [t]); congruence.
Qed.

Lemma get_at_ok_descend d : forall toks j v, get_at d toks j = Ok v <-> descend d toks j = Some v.
Proof.
  induction toks as [|t r IH]; intros j v; simpl.
  - split; intro H; inversion H; auto.
  - destruct j; cbn [child_at]; try (split; discriminate).
    + destruct (idx_existing d (zlen l) t); [apply IH|]. destruct r; split; discriminate.
    + destruct (aget t ms); [apply IH|]. destruct r; split; discriminate.
Qed.

Lemma leaf_noncontainer d p t :
  is_container p = false ->
  (forall v, add_leaf d v p t = Fail FUnreachable) /\ remove_leaf d p t = Fail FUnreachable /\
  (forall v, replace_leaf d v p t = Fail FUnreachable) /\ (forall v, test_leaf d v p t = Fail FUnreachable) /\
  get_leaf d p t = Fail FUnreachable.
Proof. destruct p; simpl; try discriminate; intros _; repeat split; reflexivity. Qed.

Lemma tokens_split (all : list bytes) :
  all <> [] -> map decode_token all = map decode_token (removelast all) ++ [decode_token (last all [])].
Proof.
  intro H. rewrite (app_removelast_last [] H) at 1. rewrite map_app. reflexivity.
Qed.

Lemma zlen_map {A B} (f : A -> B) l : zlen (map f l) = zlen l.
Proof. unfold zlen. now rewrite map_length. Qed.

Lemma leaf_child d p t c : child_at d p t = Some c ->
  get_leaf d p t = Ok c /\ (forall v, replace_leaf d v p t = Ok (put_child d p t v)) /\
  (forall v, test_leaf d v p t = if jeq c v then Ok p else Fail FTest).
Proof.
  destruct p; try discriminate; cbn [child_at get_leaf replace_leaf test_leaf put_child].
  - destruct (idx_existing d (zlen l) t); [|discriminate]. intros [= <-]. auto.
  - unfold amem. intros ->. auto.
Qed.
