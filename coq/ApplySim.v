(* ApplySim.v — the simulation: the model of v5/patch.go (ImplV5: lazily parsed nodes, ordered key
   lists, in-place index arithmetic, the pointer walk of findObject) refines the ORDERED RFC 6902
   reference (Rfc6902.v) on the values the nodes denote (Abs.aval), for every document, every
   operation sequence in the stated domain and both SupportNegativeIndices settings.
   One side condition follows the reference run (Domain.copies_fit): deepCopy refuses a source value
   nested deeper than the decoder's limit; where it holds the model refines the reference (step_sim,
   apply_sim, api_apply_sim), where it fails the copy is an error (step_copy_too_deep,
   apply_copy_too_deep, api_apply_copy_too_deep). *)
From Coq Require Import Lia.
From JP Require Import Bytes Json Text Strings Den Pointer Rfc6902 ImplV5 DecodeFacts JsonFacts Abs EqualFacts
                       ImplFacts RefFacts ApplyFacts Codec StrInv Depth.
From JP Require Export ListFacts.

(* ---- good nodes and containers ---- *)
(* nwf: no duplicate names, key list and map agree; nlit: every number literal in a raw message starts with '-' or a digit;
   nstr (StrInv.v): raw messages spell their strings with bodies the scanner accepts, the member
   names of parsed objects are valid UTF-8 (what deepCopy's re-encoding needs to be a round trip) *)
Definition ngood (n : node) : Prop := nwf n /\ nlit n /\ nstr n.
Definition cval (c : con) : ojson := aval (node_of_con c).
Definition cgood (c : con) : Prop :=
  ngood (node_of_con c) /\ match c with KDocNil _ _ => False | _ => True end.

Lemma ngood_nil : ngood NNil. Proof. repeat split. Qed.

Lemma Forall_ngood_split (l : list node) : Forall ngood l <-> Forall nwf l /\ Forall nlit l /\ Forall nstr l.
Proof.
  unfold ngood. rewrite !Forall_forall. split.
  - intro H. repeat split; intros x Hx; apply (H x Hx).
  - intros [H1 [H2 H3]] x Hx. repeat split; auto.
Qed.

Lemma ngood_ary ns : ngood (NAry ns) <-> Forall ngood ns.
Proof. unfold ngood at 1. rewrite nwf_ary, nlit_ary, nstr_ary, Forall_ngood_split. reflexivity. Qed.

(* the names in the map are those of the key list (keys_agree): only the key list is mentioned *)
Lemma ngood_doc keys obj :
  ngood (NDoc keys obj) <-> keys_agree keys obj /\ Forall utf8 keys /\ Forall (fun kv => ngood (snd kv)) obj.
Proof.
  unfold ngood. rewrite nwf_doc, nlit_doc, nstr_doc, !Forall_forall. split.
  - intros [[A W] [L [U S]]]. split; [exact A|]. split; [exact U|].
    intros kv H. split; [apply (W kv H) | split; [apply (L kv H) | apply (S kv H)]].
  - intros [A [U G]]. split; [split; [exact A|]; intros kv H; apply (G kv H)|].
    split; [intros kv H; apply (G kv H)|]. split; [exact U|].
    intros kv H. split; [|apply (G kv H)]. apply U. destruct A as [_ [_ A]]. apply A. apply in_map. exact H.
Qed.

Lemma ngood_raw t : ngood (NRaw t) <-> tnodup t = true /\ tlit t = true /\ tsb t.
Proof. reflexivity. Qed.

Lemma Forall_utf8_doc_set keys (obj : list (bytes * node)) k v :
  Forall utf8 keys -> utf8 k -> Forall utf8 (fst (doc_set keys obj k v)).
Proof. exact (Forall_doc_set_keys utf8 keys obj k v). Qed.

Lemma Forall_kdel1 (P : bytes -> Prop) k keys : Forall P keys -> Forall P (kdel1 k keys).
Proof.
  induction 1 as [|x l Hx Hl IH]; simpl; [constructor|]. destruct (bseq k x); [assumption | constructor; assumption].
Qed.

(* the token domain, on decoded reference tokens: non-empty; numeric spellings are canonical
   (0, a nonzero digit followed by digits, or '-' followed by such a positive number) and fit 64 bits
   (tok_small cannot be dropped without bounding array lengths: PointerDomain.v,
   big_index_needs_length_bound); the token is valid UTF-8 (add makes it a member name, which copy
   re-encodes; true of every token of a decoded patch: PointerDomain.v, utf8_pointer_tokens) *)
Definition tok_dom (t : bytes) : Prop :=
  t <> [] /\ tok_small t /\ (forall z, atoi t = Some z -> tok_canonical t) /\ utf8 t.

Lemma tok_dom_nonempty t : tok_dom t -> t <> [].
Proof. intros [NE _]. exact NE. Qed.

Lemma tok_dom_small t : tok_dom t -> tok_small t.
Proof. intros [_ [S _]]. exact S. Qed.

Lemma tok_dom_num t : tok_dom t -> tok_num t.
Proof. intros [_ [_ [C _]]]. exact C. Qed.

Lemma tok_dom_utf8 t : tok_dom t -> utf8 t.
Proof. intros [_ [_ [_ U]]]. exact U. Qed.

Lemma tok_dom_cases t : tok_dom t ->
  tok_canonical t \/ (atoi t = None /\ canonical_nat t = None /\ canonical_neg t = None).
Proof.
  intro D. destruct (atoi_num t (tok_dom_num t D)) as [[n [H _]]|[[k [_ [H _]]]|[H1 [H2 H3]]]]; [left; left; eauto | left; right; eauto | right; auto].
Qed.

Lemma nth_map_aval ns i : nth i (map aval ns) ONull = aval (nth i ns NNil).
Proof. change ONull with (aval NNil). apply map_nth. Qed.

Lemma cval_doc s ks obj : cval (KDoc s ks obj) = OObj (abs_members ks obj).
Proof. apply aval_doc. Qed.

Lemma cval_ary s ns : cval (KAry s ns) = OArr (map aval ns).
Proof. reflexivity. Qed.

Lemma cgood_doc s ks obj :
  cgood (KDoc s ks obj) <-> keys_agree ks obj /\ Forall utf8 ks /\ Forall (fun kv => ngood (snd kv)) obj.
Proof. unfold cgood. cbn [node_of_con]. rewrite ngood_doc. tauto. Qed.

Lemma cgood_ary s ns : cgood (KAry s ns) <-> Forall ngood ns.
Proof. unfold cgood. cbn [node_of_con]. rewrite ngood_ary. tauto. Qed.

Lemma cgood_inv c : cgood c ->
  (exists s ks obj, c = KDoc s ks obj /\ keys_agree ks obj /\ Forall utf8 ks /\ Forall (fun kv => ngood (snd kv)) obj) \/
  (exists s ns, c = KAry s ns /\ Forall ngood ns).
Proof.
  intro G. destruct c as [s ks obj|s st|s ns]; [left | destruct G as [_ []] | right].
  - exists s, ks, obj. split; [reflexivity | apply (proj1 (cgood_doc s ks obj)), G].
  - exists s, ns. split; [reflexivity | apply (proj1 (cgood_ary s ns)), G].
Qed.

Lemma cgood_container c : cgood c -> is_container (cval c) = true.
Proof. intro G. destruct (cgood_inv c G) as [(s & ks & obj & -> & _) | (s & ns & -> & _)]; [rewrite cval_doc|]; reflexivity. Qed.

(* the index of an existing element, for a token of the domain: a numeric spelling is resolved as in the
   reference, any other token is an index on neither side (ImplFacts.resolve_idx_get_fits) *)
Lemma resolve_idx_get_dom o {A} (l : list A) key : tok_dom key ->
  match idx_existing (dia o) (Rfc6902.zlen l) key with
  | Some i => resolve_idx_get o (ImplV5.zlen l) key = Ok i /\ (i < length l)%nat
  | None => exists e, resolve_idx_get o (ImplV5.zlen l) key = Err e /\ (e = EInvalidIndex \/ e = EAtoi)
  end.
Proof.
  intro D. exact (resolve_idx_get_fits o l key (tok_small_fits _ _ (tok_dom_small _ D)) (tok_dom_num _ D)).
Qed.

Lemma con_get_sim o c key :
  cgood c -> tok_dom key ->
  match child_at (dia o) (cval c) key with
  | Some j => exists v, con_get o c key = Ok v /\ aval v = j /\ ngood v
  | None => exists e, con_get o c key = Err e /\
            match c with KDoc _ _ _ => e = EMissing | _ => e = EInvalidIndex \/ e = EAtoi end
  end.
Proof.
  intros [(self & keys & obj & -> & Ag & Uk & Gv) | (self & ns & -> & G)]%cgood_inv D.
  - rewrite cval_doc. cbn [child_at con_get].
    destruct key as [|b key]; [case (tok_dom_nonempty _ D eq_refl)|].
    rewrite (aget_abs_members_agree keys obj (b :: key) Ag).
    destruct (aget (b :: key) obj) as [v|] eqn:E; cbn [option_map]; [|eauto].
    exists v. repeat split; auto; apply aget_In in E; rewrite Forall_forall in Gv; apply (Gv _ E).
  - rewrite cval_ary. cbn [child_at con_get].
    destruct key as [|b key]; [case (tok_dom_nonempty _ D eq_refl)|].
    rewrite zlen_map. pose proof (resolve_idx_get_dom o ns (b :: key) D) as R.
    destruct (idx_existing (dia o) (Rfc6902.zlen ns) (b :: key)) as [i|].
    + destruct R as [R L]. rewrite R. exists (nth i ns NNil). split; auto. split; [symmetry; apply nth_map_aval|].
      apply Forall_nth; auto.
    + destruct R as [e [R Re]]. rewrite R. eauto.
Qed.

(* ---- lazy parsing of the child the walk steps into ---- *)
Lemma tlit_members ms : tlit (TObj ms) = true -> Forall (fun kv => tlit (snd kv) = true) ms.
Proof. simpl. rewrite forallb_forall, Forall_forall. auto. Qed.

Lemma into_con_sim v :
  ngood v ->
  if is_container (aval v)
  then exists ch, into_con v = Some ch /\ cval ch = aval v /\ cgood ch
  else into_con v = None.
Proof.
  intros [W [L S]]. destruct v as [|t|keys obj|ns]; cbn [aval into_con].
  - reflexivity.
  - apply nwf_raw in W. unfold nlit in L. apply nstr_raw in S. destruct t; try reflexivity.
    + (* array *) simpl is_container. pose proof (parsed_arr l W) as [P1 P2].
      exists (KAry NNil (map child l)). split; auto. split; [exact P1|]. split; [|exact I]. split; [exact P2|].
      split; [|apply nstr_parsed_arr; exact S].
      apply nlit_ary. rewrite Forall_map. simpl in L. rewrite forallb_forall in L. apply Forall_forall.
      intros t Ht. apply nlit_child. auto.
    + (* object *) pose proof (den_obj_nodup ms W) as D. rewrite D. simpl is_container.
      pose proof (parsed_obj ms W) as P. pose proof W as W'. apply tnodup_obj in W' as [N F].
      rewrite doc_of_nodup in * by exact N. destruct P as [P1 P2].
      eexists. split; [reflexivity|]. split; [unfold cval; cbn [node_of_con]; rewrite P1; exact D|].
      split; [|exact I]. split; [exact P2|]. cbn [node_of_con]. split; [|apply nstr_parsed_obj; exact S].
      apply nlit_doc. rewrite Forall_map.
      apply tlit_members in L. rewrite Forall_forall in *. intros kv Hk. apply nlit_child. auto.
  - cbn [is_container]. exists (KDoc NNil keys obj). split; auto. split; [reflexivity|].
    split; [split; auto | exact I].
  - simpl is_container. exists (KAry NNil ns). split; auto. split; [reflexivity|]. split; [split; auto | exact I].
Qed.

Lemma resolve_idx_agrees o (ns : list node) key i :
  tok_dom key -> resolve_idx_get o (ImplV5.zlen ns) key = Ok i ->
  idx_existing (dia o) (Rfc6902.zlen (map aval ns)) key = Some i.
Proof.
  intros D R. rewrite zlen_map. pose proof (resolve_idx_get_dom o ns key D) as Q.
  destruct (idx_existing (dia o) (Rfc6902.zlen ns) key) as [i'|].
  - destruct Q as [Q _]. rewrite Q in R. inversion R. reflexivity.
  - destruct Q as [e [Q _]]. rewrite Q in R. discriminate.
Qed.

Lemma con_put_sim o c key ch v :
  cgood c -> tok_dom key -> con_get o c key = Ok v -> ngood ch ->
  cval (con_put o c key ch) = put_child (dia o) (cval c) key (aval ch) /\ cgood (con_put o c key ch).
Proof.
  intros [(self & keys & obj & -> & Ag & Uk & Gv) | (self & ns & -> & G)]%cgood_inv D Hg Gc.
  - destruct key as [|b key]; [case (tok_dom_nonempty _ D eq_refl)|].
    cbn [con_get] in Hg. destruct (aget (b :: key) obj) as [v'|] eqn:E; try discriminate.
    pose proof (abs_doc_set keys obj (b :: key) ch Ag) as DS. unfold doc_set in DS.
    rewrite (kmem_agree keys obj _ Ag) in DS. unfold amem in DS. rewrite E in DS.
    destruct DS as [D1 D2]. cbn [con_put]. rewrite !cval_doc. cbn [put_child].
    split; [now rewrite D1|]. apply cgood_doc. split; auto. split; auto. apply Forall_aset; auto.
  - destruct key as [|b key]; [case (tok_dom_nonempty _ D eq_refl)|].
    cbn [con_get] in Hg. destruct (resolve_idx_get o (ImplV5.zlen ns) (b :: key)) as [i| |] eqn:R; try discriminate.
    cbn [con_put]. rewrite R, !cval_ary. cbn [put_child].
    rewrite (resolve_idx_agrees o ns (b :: key) i D R).
    change (firstn i ns ++ ch :: skipn (S i) ns) with (set_at i ch ns).
    split; [now rewrite map_set_at | apply cgood_ary, Forall_set_at; auto].
Qed.

(* the pointer walk of findObject.  cp is the container the walk ends in; back puts what the leaf action leaves of
   it back along the path (the con_put of every level, innermost first).  The statement is about every leaf action
   f, of any result type: walk runs f once, at cp, and each operation hands it its own (ApplyFacts.get_fn, add_fn,
   ...), so this one induction serves them all *)
Lemma walk_spec o parts : forall c,
  cgood c -> Forall tok_dom (map decode_token parts) ->
  match descend (dia o) (map decode_token parts) (cval c) with
  | Some p =>
      if is_container p then
        exists cp (back : con -> con), cval cp = p /\ cgood cp /\
          (forall A (f : con -> A * con), walk o parts c f = (Some (fst (f cp)), back (snd (f cp)))) /\
          (forall cp', cgood cp' ->
             cval (back cp') = rebuild (dia o) (map decode_token parts) (cval c) (cval cp') /\ cgood (back cp'))
      else exists c', (forall A (f : con -> A * con), walk o parts c f = (None, c')) /\ cval c' = cval c /\ cgood c'
  | None => exists c', (forall A (f : con -> A * con), walk o parts c f = (None, c')) /\ cval c' = cval c /\ cgood c'
  end.
Proof.
  induction parts as [|p parts IH]; intros c G D.
  - cbn [map descend].
    rewrite (cgood_container c G). exists c, (fun x => x). split; [reflexivity|]. split; [exact G|]. split.
    + intros A f. cbn [walk]. destruct (f c); reflexivity.
    + intros cp' Gcp'. split; [reflexivity | exact Gcp'].
  - cbn [map descend]. inversion D as [|? ? Dk Dr]; subst.
    pose proof (con_get_sim o c (decode_token p) G Dk) as CG.
    destruct (child_at (dia o) (cval c) (decode_token p)) as [j|] eqn:Ech.
    + destruct CG as [next [Hg [Ev Gn]]].
      pose proof (into_con_sim next Gn) as IC. rewrite Ev in IC.
      assert (Fail_case : forall ch', cval ch' = j -> cgood ch' ->
                cval (con_put o c (decode_token p) (node_of_con ch')) = cval c /\
                cgood (con_put o c (decode_token p) (node_of_con ch'))).
      { intros ch' Ev' Gc'. destruct (con_put_sim o c (decode_token p) (node_of_con ch') next G Dk Hg (proj1 Gc')) as [Q1 Q2].
        split; auto. rewrite Q1. fold (cval ch'). rewrite Ev'. apply put_child_same. exact Ech. }
      destruct (is_container j) eqn:Cj.
      * destruct IC as [ch [Hic [Evc Gch]]]. specialize (IH ch Gch Dr). rewrite Evc in IH.
        destruct (descend (dia o) (map decode_token parts) j) as [p'|] eqn:Ed; [destruct (is_container p') eqn:Cp|].
        2, 3: (destruct IH as [ch' [W1 [W2 W3]]]; exists (con_put o c (decode_token p) (node_of_con ch')); split;
               [intros A f; cbn [walk]; rewrite Hg, Hic, (W1 A f); reflexivity | apply Fail_case; auto; congruence]).
        destruct IH as [cp [back [E1 [E2 [E3 E4]]]]].
        exists cp, (fun x => con_put o c (decode_token p) (node_of_con (back x))).
        split; auto. split; auto. split.
        -- intros A f. cbn [walk]. rewrite Hg, Hic, (E3 A f). reflexivity.
        -- intros cp' Gcp'. destruct (E4 cp' Gcp') as [F1 F2].
           destruct (con_put_sim o c (decode_token p) (node_of_con (back cp')) next G Dk Hg (proj1 F2)) as [Q1 Q2].
           split; auto. rewrite Q1. cbn [rebuild]. rewrite Ech. fold (cval (back cp')). rewrite F1. reflexivity.
      * (* the child is not a container: the walk stops; so does the reference *)
        assert (W : forall A (f : con -> A * con), walk o (p :: parts) c f = (None, c)).
        { intros A f. cbn [walk]. rewrite Hg, IC. reflexivity. }
        destruct parts as [|p2 parts].
        -- cbn [map descend]. rewrite Cj. exists c. auto.
        -- cbn [map descend]. replace (child_at (dia o) j (decode_token p2)) with (@None ojson)
             by (destruct j; try reflexivity; discriminate).
           exists c. auto.
    + destruct CG as [e [Hg _]]. exists c. split; auto. intros A f. cbn [walk]. rewrite Hg. reflexivity.
Qed.

(* ---- findObject on a pointer "/tok/.../tok" ---- *)
Lemma split_slash_nonempty s : split_slash s <> [].
Proof.
  induction s as [|c s IH]; simpl; [discriminate|].
  destruct (Byte.eqb c x2f); [discriminate|]. destruct (split_slash s); [congruence | discriminate].
Qed.

Definition path_parts (r : bytes) : list bytes := removelast (split_slash r).
Definition path_key (r : bytes) : bytes := decode_token (last (split_slash r) []).

Definition ptoks (r : bytes) : list bytes := map decode_token (path_parts r) ++ [path_key r].

Lemma ptoks_eq r : ptoks r = map decode_token (split_slash r).
Proof. symmetry. apply tokens_split, split_slash_nonempty. Qed.

Lemma ptr_tokens_slash r :
  ptr_tokens (x2f :: r) = Some (map decode_token (path_parts r) ++ [path_key r]).
Proof. cbn [ptr_tokens]. f_equal. symmetry. apply ptoks_eq. Qed.

Lemma split_path_slash r : split_path (x2f :: r) = Some (path_parts r, path_key r).
Proof.
  unfold split_path. simpl. pose proof (split_slash_nonempty r) as NE.
  destruct (split_slash r) as [|p ps] eqn:E; [congruence|]. unfold path_parts, path_key. rewrite E. reflexivity.
Qed.

Lemma dom_split r :
  Forall tok_dom (map decode_token (split_slash r)) ->
  Forall tok_dom (map decode_token (path_parts r)) /\ tok_dom (path_key r).
Proof.
  intro H. rewrite <- ptoks_eq in H. apply Forall_app in H as [H1 H2].
  split; auto. inversion H2; auto.
Qed.

Lemma find_spec {A} o c r (f : con -> bytes -> A * con) :
  cgood c -> Forall tok_dom (map decode_token (split_slash r)) ->
  match descend (dia o) (map decode_token (path_parts r)) (cval c) with
  | Some p =>
      if is_container p then
        exists cp (back : con -> con), cval cp = p /\ cgood cp /\
          find o c (x2f :: r) f = (FoundAt (fst (f cp (path_key r))), back (snd (f cp (path_key r)))) /\
          (forall cp', cgood cp' ->
             cval (back cp') = rebuild (dia o) (map decode_token (path_parts r)) (cval c) (cval cp') /\ cgood (back cp'))
      else exists c', find o c (x2f :: r) f = (FoundNil, c') /\ cval c' = cval c /\ cgood c'
  | None => exists c', find o c (x2f :: r) f = (FoundNil, c') /\ cval c' = cval c /\ cgood c'
  end.
Proof.
  intros G D. apply dom_split in D as [D1 D2].
  pose proof (walk_spec o (path_parts r) c G D1) as W.
  unfold find. rewrite split_path_slash.
  destruct (descend (dia o) (map decode_token (path_parts r)) (cval c)) as [p|]; [destruct (is_container p)|].
  2, 3: (destruct W as [c' [W1 W2]]; exists c'; split; auto; rewrite (W1 A (fun c' => f c' (path_key r))); reflexivity).
  destruct W as [cp [back [E1 [E2 [E3 E4]]]]]. exists cp, back. split; auto. split; auto. split; auto.
  rewrite (E3 A (fun c' => f c' (path_key r))). reflexivity.
Qed.

Notation ROk := Rfc6902.Ok.
Notation RFail := Rfc6902.Fail.

Lemma con_add_sim o cp key v :
  cgood cp -> tok_dom key -> ngood v ->
  match add_leaf (dia o) (aval v) (cval cp) key with
  | ROk j' => exists cp', con_add o cp key v = Ok cp' /\ cval cp' = j' /\ cgood cp'
  | RFail cz => cz = FIndex /\ exists e, con_add o cp key v = Err e /\ (e = EInvalidIndex \/ e = EAtoi)
  end.
Proof.
  intros [(self & keys & obj & -> & Ag & Uk & Gs) | (self & ns & -> & G)]%cgood_inv D Gv.
  - rewrite cval_doc. cbn [add_leaf con_add].
    pose proof (abs_doc_set keys obj key v Ag) as DS. destruct (doc_set keys obj key v) as [k' o'] eqn:E.
    destruct DS as [D1 D2]. eexists. split; [reflexivity|]. rewrite cval_doc, D1.
    split; auto. apply cgood_doc. split; auto.
    pose proof (Forall_utf8_doc_set keys obj key v Uk (tok_dom_utf8 _ D)) as Uk'. rewrite E in Uk'. split; [exact Uk'|].
    unfold doc_set in E. inversion E; subst. apply Forall_aset; auto.
  - rewrite cval_ary. cbn [add_leaf con_add].
    rewrite zlen_map. pose proof (ary_add_fits o ns key v (tok_small_fits _ _ (tok_dom_small _ D)) (tok_dom_num _ D)) as R.
    destruct (idx_insert (dia o) (Rfc6902.zlen ns) key) as [i|].
    + destruct R as [R L]. rewrite R. eexists. split; [reflexivity|]. rewrite cval_ary.
      split; [f_equal; apply map_insert_at | apply cgood_ary, Forall_insert_at; auto].
    + destruct R as [e [R Re]]. rewrite R. split; auto. eauto.
Qed.

Lemma con_remove_sim o cp key :
  cgood cp -> tok_dom key ->
  match remove_leaf (dia o) (cval cp) key with
  | ROk j' => exists cp', con_remove o cp key = Ok cp' /\ cval cp' = j' /\ cgood cp'
  | RFail cz => o_allow o = false -> exists e, con_remove o cp key = Err e /\
               ((cz = FMissingMember /\ e = EMissing) \/ (cz = FIndex /\ (e = EInvalidIndex \/ e = EAtoi)))
  end.
Proof.
  intros [(self & keys & obj & -> & Ag & Uk & Gs) | (self & ns & -> & G)]%cgood_inv D.
  - rewrite cval_doc. cbn [remove_leaf con_remove].
    rewrite (amem_abs_members keys obj key Ag), (kmem_agree keys obj key Ag). destruct (amem key obj).
    + destruct (abs_del keys obj key Ag) as [A1 A2].
      eexists. split; [reflexivity|]. rewrite cval_doc, A1. split; auto.
      apply cgood_doc. split; auto. split; [apply Forall_kdel1; exact Uk | apply Forall_adel; auto].
    + intros ->. exists EMissing. split; auto.
  - rewrite cval_ary. cbn [remove_leaf con_remove].
    rewrite zlen_map. pose proof (ary_remove_fits o ns key (tok_small_fits _ _ (tok_dom_small _ D)) (tok_dom_num _ D)) as R.
    destruct (idx_existing (dia o) (Rfc6902.zlen ns) key) as [i|].
    + destruct R as [R L]. rewrite R. eexists. split; [reflexivity|]. rewrite cval_ary.
      split; [f_equal; apply map_remove_at | apply cgood_ary, Forall_remove_at; auto].
    + intro Al. destruct (R Al) as [e [R' Re]]. rewrite R'. exists e. split; auto.
Qed.

(* replace calls set after get has found the key: set then does what putting the value back there does *)
Lemma con_set_after_get o c key v old :
  cgood c -> key <> [] -> con_get o c key = Ok old -> con_set o c key v = Ok (con_put o c key v).
Proof.
  intros [(self & keys & obj & -> & Ag & _) | (self & ns & -> & _)]%cgood_inv NE Hg;
    destruct key as [|b key]; try congruence; cbn [con_get con_set con_put] in *.
  - unfold doc_set. rewrite (kmem_agree keys obj _ Ag). unfold amem.
    destruct (aget (b :: key) obj); [reflexivity | discriminate].
  - destruct (resolve_idx_get o (ImplV5.zlen ns) (b :: key)) as [i| |] eqn:R; try discriminate.
    now rewrite (ary_set_after_get o ns (b :: key) v i R).
Qed.

Lemma con_set_sim o cp key v old :
  cgood cp -> tok_dom key -> ngood v -> con_get o cp key = Ok old ->
  exists cp', con_set o cp key v = Ok cp' /\ replace_leaf (dia o) (aval v) (cval cp) key = ROk (cval cp') /\ cgood cp'.
Proof.
  intros G D Gv Hg. destruct (con_put_sim o cp key v old G D Hg Gv) as [Q1 Q2].
  exists (con_put o cp key v). split; [exact (con_set_after_get o cp key v old G (tok_dom_nonempty _ D) Hg)|]. split; [|exact Q2].
  rewrite Q1. pose proof (con_get_sim o cp key G D) as CG.
  destruct (child_at (dia o) (cval cp) key) as [j|] eqn:E; [|destruct CG as [e [H _]]; congruence].
  exact (proj1 (proj2 (leaf_child _ _ _ _ E)) (aval v)).
Qed.

(* FRoot / FPointer / FOther: the property (C08) names no error class for these causes; all that is
   claimed of the error is that it is neither the copy-size error nor ErrTestFailed *)
Definition cause_rel (c : cause) (e : errclass) : Prop :=
  match c with
  | FTest => e = ETestFailed
  | FMissingMember | FUnreachable => e = EMissing
  | FIndex => e = EInvalidIndex \/ e = EAtoi \/ e = EMissing   (* replace reports ErrMissing for a bad index *)
  | _ => plain_err e = true
  end.

Lemma rebuild_same d : forall ps j p, descend d ps j = Some p -> rebuild d ps j p = j.
Proof.
  induction ps as [|t ps IH]; intros j p; simpl.
  - intro H; inversion H; reflexivity.
  - destruct (child_at d j t) as [c|] eqn:E; try discriminate. intro H. rewrite (IH _ _ H).
    apply put_child_same. exact E.
Qed.

Definition sgood (st : state) : Prop := exists c, s_root st = RCon c /\ cgood c.
Definition sval (st : state) : ojson := match s_root st with RCon c => cval c | RNull => ONull end.
Lemma sval_con st c : s_root st = RCon c -> sval st = cval c.
Proof. unfold sval. now intros ->. Qed.
Lemma sgood_con c acc : cgood c -> sgood (mkState (RCon c) acc).
Proof. intro G. exists c. auto. Qed.

Definition val_good (op : operation) : Prop :=
  match aget (B "value") op with Some (Some t) => tnodup t = true /\ tlit t = true /\ tsb t | _ => True end.

Definition ref_value (op : operation) : ojson :=
  match aget (B "value") op with Some (Some t) => den t | _ => ONull end.

Lemma opv_aval op : aval (opv op) = ref_value op.
Proof. unfold opv, op_value, ref_value. destruct (aget (B "value") op) as [[t|]|]; reflexivity. Qed.

Lemma opv_good op : val_good op -> ngood (opv op).
Proof.
  unfold val_good, opv, op_value. destruct (aget (B "value") op) as [[t|]|].
  - intros G. apply ngood_raw. exact G.
  - intros _. apply ngood_raw. repeat split.
  - intros _. apply ngood_nil.
Qed.

Definition ptr_dom (p : bytes) (r : bytes) : Prop :=
  p = x2f :: r /\ Forall tok_dom (map decode_token (split_slash r)).

Definition ptr_ok (p : bytes) : Prop := exists r, p = x2f :: r /\ Forall tok_dom (map decode_token (split_slash r)).

Lemma ptoks_nonempty r : ptoks r <> [].
Proof. unfold ptoks. destruct (map decode_token (path_parts r)); discriminate. Qed.

(* ---- the model's result x of an operation against the reference's result r: the same document value
   in a good state, or an error of the class of the reference's cause ---- *)
Definition sim_res (r : Rfc6902.res ojson) (x : res state) : Prop :=
  match r with
  | ROk j' => exists st', x = Ok st' /\ sval st' = j' /\ sgood st'
  | RFail cz => exists e, x = Err e /\ cause_rel cz e
  end.

(* a leaf action of the model against a leaf function of the reference, at a good container *)
Definition leaf_sim {A} (f : con -> bytes -> res A * con) (g : ojson -> bytes -> Rfc6902.res ojson) : Prop :=
  forall cp key, cgood cp -> tok_dom key ->
    match g (cval cp) key with
    | ROk j' => exists a cp', f cp key = (Ok a, cp') /\ cval cp' = j' /\ cgood cp'
    | RFail cz => exists e cp', f cp key = (Err e, cp') /\ cause_rel cz e
    end.

(* find + leaf action against at_parent + leaf function *)
Lemma find_at_parent {A} o c r (f : con -> bytes -> res A * con) (g : ojson -> bytes -> Rfc6902.res ojson) (Q : A -> Prop) :
  cgood c -> Forall tok_dom (map decode_token (split_slash r)) ->
  (forall p t, is_container p = false -> g p t = RFail FUnreachable) ->
  (forall cp, cgood cp -> descend (dia o) (map decode_token (path_parts r)) (cval c) = Some (cval cp) ->
     match g (cval cp) (path_key r) with
     | ROk j' => exists a cp', f cp (path_key r) = (Ok a, cp') /\ cval cp' = j' /\ cgood cp' /\ Q a
     | RFail cz => exists e cp', f cp (path_key r) = (Err e, cp') /\ cause_rel cz e
     end) ->
  match at_parent (dia o) (map decode_token (path_parts r) ++ [path_key r]) (cval c) g with
  | ROk j' => exists a c2, find o c (x2f :: r) f = (FoundAt (Ok a), c2) /\ cval c2 = j' /\ cgood c2 /\ Q a
  | RFail cz => exists e c2, (find o c (x2f :: r) f = (FoundAt (Err e), c2) \/
                              (find o c (x2f :: r) f = (FoundNil, c2) /\ e = EMissing)) /\ cause_rel cz e
  end.
Proof.
  intros G D NC L. rewrite at_parent_snoc. pose proof (find_spec o c r f G D) as FS.
  destruct (descend (dia o) (map decode_token (path_parts r)) (cval c)) as [p|].
  - destruct (is_container p) eqn:Cp.
    + destruct FS as [cp [back [E1 [E2 [E3 E4]]]]]. specialize (L cp E2). rewrite E1 in L. specialize (L eq_refl).
      destruct (g p (path_key r)) as [j'|cz]; simpl.
      * destruct L as [a [cp' [L1 [L2 [L3 L4]]]]]. rewrite L1 in E3. simpl in E3.
        destruct (E4 cp' L3) as [F1 F2]. exists a, (back cp'). split; [exact E3|]. split; [now rewrite F1, L2|]. split; [exact F2 | exact L4].
      * destruct L as [e [cp' [L1 L2]]]. rewrite L1 in E3. simpl in E3. exists e, (back cp'). split; auto.
    + destruct FS as [c' [F1 [F2 F3]]]. rewrite (NC p (path_key r) Cp). simpl. exists EMissing, c'. split; [right; auto | reflexivity].
  - destruct FS as [c' [F1 [F2 F3]]]. exists EMissing, c'. split; [right; auto | reflexivity].
Qed.

Lemma find_sim {A} o c r acc (f : con -> bytes -> res A * con) (g : ojson -> bytes -> Rfc6902.res ojson) :
  cgood c -> Forall tok_dom (map decode_token (split_slash r)) ->
  (forall p t, is_container p = false -> g p t = RFail FUnreachable) -> leaf_sim f g ->
  sim_res (at_parent (dia o) (ptoks r) (cval c) g) (finish acc (find o c (x2f :: r) f)).
Proof.
  intros G D NC L. unfold ptoks. pose proof (find_at_parent o c r f g (fun _ => True) G D NC) as F. lapply F; clear F.
  - intro F. destruct (at_parent _ _ _ g) as [j'|cz].
    + destruct F as [a [c2 [F1 [F2 [F3 _]]]]]. rewrite F1. eexists. split; [reflexivity|]. split; [exact F2 | exists c2; auto].
    + destruct F as [e [c2 [[F1|[F1 ->]] F2]]]; rewrite F1; eexists; (split; [reflexivity | exact F2]).
  - intros cp Gcp _. specialize (L cp (path_key r) Gcp (proj2 (dom_split r D))).
    destruct (g (cval cp) (path_key r)) as [j|cz]; [|exact L]. destruct L as [a [cp' [L1 [L2 L3]]]]. eauto 6.
Qed.

Lemma get_leaf_sim o cp key :
  cgood cp -> tok_dom key ->
  match get_leaf (dia o) (cval cp) key with
  | ROk j => exists v, con_get o cp key = Ok v /\ aval v = j /\ ngood v
  | RFail cz => exists e, con_get o cp key = Err e /\ cause_rel cz e
  end.
Proof.
  intros G D. pose proof (con_get_sim o cp key G D) as CG.
  destruct (cgood_inv cp G) as [(s & ks & ob & -> & _) | (s & ns & -> & _)].
  - rewrite cval_doc in *. cbn [get_leaf child_at] in *. destruct (aget key (abs_members ks ob)); [exact CG|].
    destruct CG as [e [H ->]]. exists EMissing. split; [exact H | reflexivity].
  - rewrite cval_ary in *. cbn [get_leaf child_at] in *. destruct (idx_existing (dia o) (Rfc6902.zlen (map aval ns)) key); [exact CG|].
    destruct CG as [e [H [-> | ->]]]; eexists; (split; [exact H | cbn; auto]).
Qed.

Lemma find_get_sim o c r :
  cgood c -> Forall tok_dom (map decode_token (split_slash r)) ->
  match get_at (dia o) (ptoks r) (cval c) with
  | ROk j => exists v c2, find o c (x2f :: r) (get_fn o) = (FoundAt (Ok v), c2) /\
                          aval v = j /\ ngood v /\ cval c2 = cval c /\ cgood c2
  | RFail cz => exists e c2, (find o c (x2f :: r) (get_fn o) = (FoundAt (Err e), c2) \/
                              (find o c (x2f :: r) (get_fn o) = (FoundNil, c2) /\ e = EMissing)) /\
                             cause_rel cz e /\ cval c2 = cval c /\ cgood c2
  end.
Proof.
  intros G D. unfold ptoks. rewrite get_at_snoc.
  pose proof (find_spec o c r (get_fn o) G D) as FS.
  destruct (descend (dia o) (map decode_token (path_parts r)) (cval c)) as [p|] eqn:Ed.
  - destruct (is_container p) eqn:Cp.
    + destruct FS as [cp [back [E1 [E2 [E3 E4]]]]]. cbn [get_fn fst snd] in E3.
      destruct (E4 cp E2) as [F1 F2]. rewrite E1, (rebuild_same _ _ _ _ Ed) in F1.
      pose proof (get_leaf_sim o cp (path_key r) E2 (proj2 (dom_split r D))) as CG. rewrite E1 in CG.
      destruct (get_leaf (dia o) p (path_key r)).
      * destruct CG as [v [H1 [H2 H3]]]. rewrite H1 in E3. exists v, (back cp). auto.
      * destruct CG as [e [H1 H2]]. rewrite H1 in E3. exists e, (back cp). auto.
    + destruct FS as [c' [F1 [F2 F3]]].
      destruct (leaf_noncontainer (dia o) p (path_key r) Cp) as (_ & _ & _ & _ & ->).
      exists EMissing, c'. split; [right; auto|]. split; [reflexivity|]. split; auto.
  - destruct FS as [c' [F1 [F2 F3]]]. exists EMissing, c'. split; [right; auto|]. split; [reflexivity|]. split; auto.
Qed.

(* ---- the add phase of add, move and copy ---- *)
Lemma add_find_sim o c r acc v :
  cgood c -> Forall tok_dom (map decode_token (split_slash r)) -> ngood v ->
  sim_res (at_parent (dia o) (ptoks r) (cval c) (add_leaf (dia o) (aval v))) (finish acc (find o c (x2f :: r) (add_fn o v))).
Proof.
  intros G D Gv. apply find_sim; [exact G | exact D | intros p t Cp; now apply leaf_noncontainer |].
  intros cp key Gcp Dk. pose proof (con_add_sim o cp key v Gcp Dk Gv) as CA. unfold add_fn.
  destruct (add_leaf (dia o) (aval v) (cval cp) key) as [j'|cz].
  - destruct CA as [cp' [C1 C2]]. rewrite C1. eauto.
  - destruct CA as [-> [e [C1 C2]]]. rewrite C1. exists e, cp. split; [reflexivity|]. destruct C2 as [-> | ->]; cbn; auto.
Qed.

Lemma op_add_sim o st op r c :
  s_root st = RCon c -> cgood c -> o_ensure o = false ->
  op_str op (B "path") = Ok (x2f :: r) -> Forall tok_dom (map decode_token (split_slash r)) -> val_good op ->
  sim_res (at_parent (dia o) (ptoks r) (cval c) (add_leaf (dia o) (ref_value op))) (op_add o st op).
Proof.
  intros Hr G En Hp D Vg. rewrite (op_add_eq o st op _ _ c Hp Hr), En, <- opv_aval.
  exact (add_find_sim o c r (s_acc st) (opv op) G D (opv_good op Vg)).
Qed.

(* add with EnsurePathExistsOnAdd on, once ensurePathExists has returned: the add, in the container it left *)
Lemma ensured_add_sim o st op r c c1 :
  s_root st = RCon c -> o_ensure o = true -> op_str op (B "path") = Ok (x2f :: r) ->
  ensure_path o c (x2f :: r) = (None, c1) -> cgood c1 ->
  Forall tok_dom (map decode_token (split_slash r)) -> val_good op ->
  sim_res (at_parent (dia o) (ptoks r) (cval c1) (add_leaf (dia o) (ref_value op))) (op_add o st op).
Proof.
  intros Hr En Hp E G1 D Vg. rewrite (op_add_eq o st op _ _ c Hp Hr), En, E, <- opv_aval.
  exact (add_find_sim o c1 r (s_acc st) (opv op) G1 D (opv_good op Vg)).
Qed.

(* ---- remove (AllowMissingPathOnRemove off), path not "" ---- *)
Lemma op_remove_sim o st op r c :
  s_root st = RCon c -> cgood c -> o_allow o = false ->
  op_str op (B "path") = Ok (x2f :: r) -> Forall tok_dom (map decode_token (split_slash r)) ->
  sim_res (at_parent (dia o) (ptoks r) (cval c) (remove_leaf (dia o))) (op_remove o st op).
Proof.
  intros Hr G Al Hp D. rewrite (op_remove_eq o st op _ c Hp Hr), Al.
  apply (find_sim o c r (s_acc st)); [exact G | exact D | intros p t Cp; now apply leaf_noncontainer |].
  intros cp key Gcp Dk. pose proof (con_remove_sim o cp key Gcp Dk) as CA. unfold remove_fn.
  destruct (remove_leaf (dia o) (cval cp) key) as [j'|cz].
  - destruct CA as [cp' [C1 C2]]. rewrite C1. eauto.
  - destruct (CA Al) as [e [C1 C2]]. rewrite C1. exists e, cp. split; [reflexivity|].
    destruct C2 as [[-> ->]|[-> [C2|C2]]]; cbn; auto.
Qed.

(* ---- replace, path not "" ---- *)
Lemma op_replace_sim o st op r c :
  s_root st = RCon c -> cgood c ->
  op_str op (B "path") = Ok (x2f :: r) -> Forall tok_dom (map decode_token (split_slash r)) -> val_good op ->
  sim_res (at_parent (dia o) (ptoks r) (cval c) (replace_leaf (dia o) (ref_value op))) (op_replace o st op).
Proof.
  intros Hr G Hp D Vg. pose proof (opv_good op Vg) as Gv. rewrite (op_replace_eq o st op _ _ c Hp Hr).
  apply (find_sim o c r (s_acc st)); [exact G | exact D | intros p t Cp; now apply leaf_noncontainer |].
  intros cp key Gcp Dk. pose proof (con_get_sim o cp key Gcp Dk) as CG. unfold replace_fn.
  destruct (child_at (dia o) (cval cp) key) as [j|] eqn:Ech.
  - destruct CG as [old [H1 _]]. rewrite H1.
    destruct (con_set_sim o cp key (opv op) old Gcp Dk Gv H1) as [cp' [S1 [S2 S3]]].
    rewrite opv_aval in S2. rewrite S2, S1. exists cp', cp'. auto.
  - destruct CG as [e [H1 H2]]. rewrite H1.
    assert (R : replace_leaf (dia o) (ref_value op) (cval cp) key = RFail FMissingMember \/
                replace_leaf (dia o) (ref_value op) (cval cp) key = RFail FIndex).
    { pose proof (cgood_container cp Gcp) as Cc. destruct (cval cp); try discriminate; cbn [child_at replace_leaf] in *.
      - destruct (idx_existing (dia o) (Rfc6902.zlen l) key); [discriminate | auto].
      - unfold amem. rewrite Ech. auto. }
    destruct R as [-> | ->]; exists EMissing, cp; split; auto; cbn; auto.
Qed.

(* ---- what a passing test leaves behind: every container below parsed, same value ---- *)
Lemma deep_t_sim t : tnodup t = true -> tlit t = true -> tsb t -> aval (deep_t t) = den t /\ ngood (deep_t t).
Proof.
  induction t using tjson_rect'; intros T L B; try (split; [reflexivity | split; [exact T | split; [exact L | exact B]]]).
  - split; [reflexivity | apply ngood_nil].
  - (* array *)
    apply tnodup_arr in T. simpl in L. rewrite forallb_forall in L. apply tsb_arr in B. rewrite Forall_forall in H, T, B.
    cbn [deep_t]. split.
    + cbn [aval den]. f_equal. rewrite map_map. apply map_ext_in. intros x Hx. apply (H x Hx); auto.
    + apply ngood_ary. rewrite Forall_map. apply Forall_forall. intros x Hx. apply (H x Hx); auto.
  - (* object *)
    pose proof (den_obj_nodup ms T) as D. apply tnodup_obj in T as [N F]. apply tlit_members in L.
    pose proof (tsb_obj_keys ms B) as Bk. apply tsb_obj_vals in B.
    rewrite deep_t_obj, build_with_nodup by exact N. simpl app.
    set (obj := map (fun kv => (unquote (fst kv), deep_t (snd kv))) ms).
    assert (K : map fst obj = map (fun kv => unquote (fst kv)) ms) by (unfold obj; rewrite map_map; reflexivity).
    rewrite <- K. rewrite <- K in Bk. assert (No : NoDup (map fst obj)) by (rewrite K; exact N).
    rewrite Forall_forall in H, F, L, B. split.
    + rewrite aval_doc, abs_members_self, D by exact No. f_equal. unfold obj, den_members. rewrite map_map.
      apply map_ext_in. intros kv Hk. simpl. f_equal. apply (H kv Hk); auto.
    + apply ngood_doc. split; [apply keys_agree_self; exact No|]. split; [exact Bk|]. unfold obj. rewrite Forall_map.
      apply Forall_forall. intros kv Hk. simpl. apply (H kv Hk); auto.
Qed.

Lemma deep_sim n : ngood n -> aval (deep n) = aval n /\ ngood (deep n).
Proof.
  induction n using node_rect'; intro G.
  - split; [reflexivity | exact G].
  - destruct G as [W [L S]]. destruct t; try (apply deep_t_sim; auto); split; try reflexivity; split; auto.
  - apply ngood_doc in G as [Ag [Uk Gs]]. cbn [deep]. fold (msnd deep obj).
    rewrite Forall_forall in H, Gs. split.
    + rewrite !aval_doc. f_equal. unfold abs_members. apply map_ext_in. intros k Hk. f_equal. rewrite aget_msnd.
      destruct (aget k obj) as [v|] eqn:E; auto. simpl. apply aget_In in E. apply (H _ E). apply (Gs _ E).
    + apply ngood_doc. split; [unfold keys_agree; rewrite msnd_keys; exact Ag|].
      split; [exact Uk|]. unfold msnd. rewrite Forall_map. apply Forall_forall. intros kv Hk. simpl. apply (H _ Hk). apply (Gs _ Hk).
  - apply ngood_ary in G. rewrite Forall_forall in H, G. cbn [deep]. split.
    + cbn [aval]. f_equal. rewrite map_map. apply map_ext_in. intros x Hx. apply (H x Hx). auto.
    + apply ngood_ary. rewrite Forall_map. apply Forall_forall. intros x Hx. apply (H x Hx). auto.
Qed.

(* ---- test, path not "" ---- *)
Lemma test_value_rel v ov : ngood v -> ngood ov ->
  jeq (aval v) (aval ov) =
  if is_null v then is_null ov else if is_null ov then false else node_equal v ov.
Proof.
  intros [Wv [Lv _]] [Wo [Lo _]]. rewrite (is_null_onull v), (is_null_onull ov).
  destruct (onull (aval v)) eqn:N1.
  - destruct (aval v); try discriminate. apply jeq_null_l.
  - destruct (onull (aval ov)) eqn:N2.
    + destruct (aval ov); try discriminate. rewrite jeq_null_r. exact N1.
    + symmetry. apply node_equal_spec; auto.
Qed.

Lemma test_leaf_sim o ov : ngood ov -> leaf_sim (test_fn o ov) (test_leaf (dia o) (aval ov)).
Proof.
  intros Go cp key G D. pose proof (con_get_sim o cp key G D) as CG. unfold test_fn.
  destruct (child_at (dia o) (cval cp) key) as [j|] eqn:Ech.
  - destruct CG as [v [H1 [H2 H3]]]. rewrite H1.
    rewrite (proj2 (proj2 (leaf_child _ _ _ _ Ech))), <- H2, (test_value_rel v ov H3 Go).
    destruct (is_null v).
    + destruct (is_null ov); [exists tt, cp; auto | exists ETestFailed, cp; split; reflexivity].
    + destruct (is_null ov); [exists ETestFailed, cp; split; reflexivity|].
      destruct (node_equal v ov); [|exists ETestFailed, cp; split; reflexivity].
      destruct (deep_sim v H3) as [Dv Dg].
      destruct (con_put_sim o cp key (deep v) v G D H1 Dg) as [Q1 Q2].
      exists tt, (con_put o cp key (deep v)). split; auto. split; auto.
      rewrite Q1, Dv, H2. apply put_child_same. exact Ech.
  - destruct CG as [e [H1 H2]]. rewrite H1. destruct (cgood_inv cp G) as [(s & ks & ob & -> & _) | (s & ns & -> & _)].
    + subst e. rewrite cval_doc in *. cbn [child_at test_leaf] in *.
      rewrite Ech, jeq_null_l, <- is_null_onull.
      destruct (is_null ov); [exists tt, (KDoc s ks ob); split; [reflexivity | split; [apply cval_doc | exact G]] | exists ETestFailed, (KDoc s ks ob); split; reflexivity].
    + rewrite cval_ary in *. cbn [child_at test_leaf] in *.
      destruct (idx_existing (dia o) (Rfc6902.zlen (map aval ns)) key); try discriminate.
      destruct H2 as [-> | ->]; eexists; eexists; split; try reflexivity; simpl; auto.
Qed.

Lemma op_test_sim o st op r c :
  s_root st = RCon c -> cgood c ->
  op_str op (B "path") = Ok (x2f :: r) -> Forall tok_dom (map decode_token (split_slash r)) -> val_good op ->
  sim_res (at_parent (dia o) (ptoks r) (cval c) (test_leaf (dia o) (ref_value op))) (op_test o st op).
Proof.
  intros Hr G Hp D Vg. rewrite (op_test_eq o st op _ _ c Hp Hr), <- opv_aval.
  exact (find_sim o c r (s_acc st) (test_fn o (opv op)) _ G D
           (fun p t Cp => proj1 (proj2 (proj2 (proj2 (leaf_noncontainer (dia o) p t Cp)))) _)
           (test_leaf_sim o (opv op) (opv_good op Vg))).
Qed.

(* ---- move, from and path not "" ---- *)
Definition take_leaf (d : dialect) (p : ojson) (t : bytes) : Rfc6902.res ojson :=
  match get_leaf d p t with ROk _ => remove_leaf d p t | RFail c => RFail c end.

Lemma move_ref d ps t j (K : ojson -> ojson -> Rfc6902.res ojson) :
  (v <- get_at d (ps ++ [t]) j ;; doc1 <- at_parent d (ps ++ [t]) j (remove_leaf d) ;; K v doc1) =
  match descend d ps j with
  | Some p => match get_leaf d p t with
              | ROk v => match remove_leaf d p t with ROk p' => K v (rebuild d ps j p') | RFail c => RFail c end
              | RFail c => RFail c
              end
  | None => RFail FUnreachable
  end.
Proof.
  rewrite get_at_snoc, at_parent_snoc. destruct (descend d ps j) as [p|]; auto.
  destruct (get_leaf d p t); auto. simpl. destruct (remove_leaf d p t); auto.
Qed.

Lemma get_leaf_remove d p t v : get_leaf d p t = ROk v -> exists p', remove_leaf d p t = ROk p'.
Proof.
  destruct p; try discriminate; cbn [get_leaf remove_leaf].
  - destruct (idx_existing d (Rfc6902.zlen l) t); [eauto | discriminate].
  - unfold amem. destruct (aget t ms); [eauto | discriminate].
Qed.

Lemma op_move_sim o st op rf r c :
  s_root st = RCon c -> cgood c ->
  op_str op (B "from") = Ok (x2f :: rf) -> Forall tok_dom (map decode_token (split_slash rf)) ->
  op_str op (B "path") = Ok (x2f :: r) -> Forall tok_dom (map decode_token (split_slash r)) ->
  sim_res (v <- get_at (dia o) (ptoks rf) (cval c) ;;
           doc1 <- at_parent (dia o) (ptoks rf) (cval c) (remove_leaf (dia o)) ;;
           at_parent (dia o) (ptoks r) doc1 (add_leaf (dia o) v))
          (op_move o st op).
Proof.
  intros Hr G Hf Df Hp Dp. pose proof (proj2 (dom_split rf Df)) as Dk.
  pose proof (find_spec o c rf (move_src_fn o) G Df) as FS.
  unfold ptoks at 1 2. rewrite move_ref.
  rewrite (op_move_eq o st op _ _ c Hf Hr).
  destruct (descend (dia o) (map decode_token (path_parts rf)) (cval c)) as [p|] eqn:Ed.
  2: { destruct FS as [c' [F1 _]]. rewrite F1. exists EMissing. split; reflexivity. }
  destruct (is_container p) eqn:Cp.
  2: { destruct FS as [c' [F1 _]]. rewrite F1.
       destruct (leaf_noncontainer (dia o) p (path_key rf) Cp) as (_ & _ & _ & _ & ->).
       exists EMissing. split; reflexivity. }
  destruct FS as [cp [back [E1 [E2 [E3 E4]]]]]. rewrite E3. clear E3.
  pose proof (get_leaf_sim o cp (path_key rf) E2 Dk) as CG. rewrite E1 in CG.
  pose proof (con_remove_sim o cp (path_key rf) E2 Dk) as CR. rewrite E1 in CR.
  unfold move_src_fn.
  destruct (get_leaf (dia o) p (path_key rf)) as [j|cz] eqn:GL.
  - destruct CG as [v [H1 [H2 H3]]]. rewrite H1.
    destruct (get_leaf_remove _ _ _ _ GL) as [p' RL]. rewrite RL in *. destruct CR as [cp' [R1 [R2 R3]]]. rewrite R1. cbn [fst snd].
    destruct (E4 cp' R3) as [F1 F2]. rewrite R2 in F1. rewrite Hp, <- F1, <- H2.
    exact (add_find_sim o (back cp') r (s_acc st) v F2 Dp H3).
  - destruct CG as [e [H1 H2]]. rewrite H1. exists e. split; [reflexivity | exact H2].
Qed.

Lemma nwf_onodup n : nwf n -> onodup (aval n) = true.
Proof. exact (nwf_aval_onodup n). Qed.

(* ---- operations on the whole document (path "") ---- *)
Lemma root_value_sim t (self : node) :
  tnodup t = true -> tlit t = true -> tsb t ->
  match t with
  | TObj ms => let (k, ob) := doc_of ms in cgood (KDoc self k ob) /\ cval (KDoc self k ob) = den t
  | TArr l => cgood (KAry self (map child l)) /\ cval (KAry self (map child l)) = den t
  | _ => is_container (den t) = false
  end.
Proof.
  intros T L B. pose proof (into_con_sim (NRaw t) (conj T (conj L B))) as IC. cbn [aval] in IC.
  destruct t; try reflexivity.
  - simpl is_container in IC. destruct IC as [ch [H1 [H2 H3]]]. cbn [into_con] in H1. inversion H1; subst ch.
    split; [split; [exact (proj1 H3) | exact I] | exact H2].
  - rewrite (den_obj_nodup ms T) in IC. simpl is_container in IC. destruct IC as [ch [H1 [H2 H3]]].
    cbn [into_con] in H1. destruct (doc_of ms) as [k ob]. inversion H1; subst ch.
    split; [split; [exact (proj1 H3) | exact I] | unfold cval in *; cbn [node_of_con] in *; rewrite H2; symmetry; apply den_obj_nodup; exact T].
Qed.

Lemma sim_res_con c acc : cgood c -> sim_res (ROk (cval c)) (Ok (mkState (RCon c) acc)).
Proof. intro G. eexists. split; [reflexivity|]. split; [reflexivity|]. exists c. auto. Qed.

Lemma op_add_root_sim o st op t :
  op_str op (B "path") = Ok [] -> aget (B "value") op = Some (Some t) -> t <> TNull ->
  tnodup t = true -> tlit t = true -> tsb t ->
  sim_res (if is_container (den t) then ROk (den t) else RFail FRoot) (op_add o st op).
Proof.
  intros Hp Hv NN T L B. unfold op_add, op_value. rewrite Hp, Hv. unfold root_of_value.
  pose proof (root_value_sim t (NRaw t) T L B) as RV.
  destruct t; try congruence; try (rewrite RV; eexists; split; reflexivity).
  - destruct RV as [R1 R2]. rewrite <- R2, (cgood_container _ R1). apply sim_res_con, R1.
  - destruct (doc_of ms) as [k ob]. destruct RV as [R1 R2]. rewrite <- R2, (cgood_container _ R1). apply sim_res_con, R1.
Qed.

Lemma op_replace_root_sim o st op t :
  op_str op (B "path") = Ok [] -> aget (B "value") op = Some (Some t) -> t <> TNull ->
  tnodup t = true -> tlit t = true -> tsb t ->
  sim_res (if is_container (den t) then ROk (den t) else RFail FRoot) (op_replace o st op).
Proof.
  intros Hp Hv NN T L B. unfold op_replace, op_value. rewrite Hp, Hv.
  pose proof (root_value_sim t NNil T L B) as RV.
  destruct t; try congruence; try (rewrite RV; eexists; split; reflexivity).
  - destruct RV as [R1 R2]. rewrite <- R2, (cgood_container _ R1). apply sim_res_con, R1.
  - destruct (doc_of ms) as [k ob]. destruct RV as [R1 R2]. rewrite <- R2, (cgood_container _ R1). apply sim_res_con, R1.
Qed.

Lemma op_test_root_sim o st op c :
  s_root st = RCon c -> cgood c -> op_str op (B "path") = Ok [] -> val_good op ->
  sim_res (if jeq (cval c) (ref_value op) then ROk (cval c) else RFail FTest) (op_test o st op).
Proof.
  intros Hr G Hp Vg. pose proof (opv_good op Vg) as Gv. unfold op_test. rewrite Hp, Hr. fold (opv op).
  rewrite <- opv_aval.
  assert (EQ : node_equal (node_of_con c) (opv op) = jeq (cval c) (aval (opv op))).
  { destruct G as [[W [L _]] _]. destruct Gv as [Wv [Lv _]]. apply node_equal_spec; auto. }
  destruct c as [s k ob| |s ns]; [| exfalso; exact (proj2 G) |]; cbn [root_node]; rewrite EQ;
    destruct (jeq _ _); try (exists ETestFailed; split; reflexivity).
  - destruct (deep_sim (NDoc k ob) (proj1 G)) as [D1 D2]. cbn [deep] in *.
    unfold cval. cbn [node_of_con]. rewrite <- D1. apply (sim_res_con (KDoc s k _)). split; [exact D2 | exact I].
  - destruct (deep_sim (NAry ns) (proj1 G)) as [D1 D2]. cbn [deep] in *.
    unfold cval. cbn [node_of_con]. rewrite <- D1. apply (sim_res_con (KAry s _)). split; [exact D2 | exact I].
Qed.

(* deepCopy re-encodes the value (MarshalEscaped) and stores the bytes as a fresh raw node.  That the
   re-encoded text denotes the same value and satisfies the invariant again is the codec round trip
   (StrInv.codec_node: quote/unquote on valid UTF-8 names, HTML escaping of scanner-accepted bodies). *)
Lemma nnil_or (c : node) : c = NNil \/ c <> NNil.
Proof. destruct c; auto; right; discriminate. Qed.

Lemma deep_copy_sim o v : ngood v ->
  aval (fst (deep_copy o v)) = aval v /\ ngood (fst (deep_copy o v)).
Proof.
  intros [W [L S]]. unfold deep_copy. destruct (nnil_or v) as [->|NN]; [split; [reflexivity | apply ngood_nil]|].
  pose proof (codec_node (o_esc o) v W L S) as C. unfold enc in C.
  destruct v; try congruence; cbn [fst]; exact C.
Qed.

Lemma find_unit_sim o c r :
  cgood c -> Forall tok_dom (map decode_token (split_slash r)) ->
  match descend (dia o) (map decode_token (path_parts r)) (cval c) with
  | Some p => if is_container p
              then exists c2, find o c (x2f :: r) unit_fn = (FoundAt tt, c2) /\ cval c2 = cval c /\ cgood c2
              else exists c2, find o c (x2f :: r) unit_fn = (FoundNil, c2)
  | None => exists c2, find o c (x2f :: r) unit_fn = (FoundNil, c2)
  end.
Proof.
  intros G D. pose proof (find_spec o c r unit_fn G D) as FS.
  destruct (descend (dia o) (map decode_token (path_parts r)) (cval c)) as [p|] eqn:Ed.
  - destruct (is_container p).
    + destruct FS as [cp [back [E1 [E2 [E3 E4]]]]]. cbn [unit_fn fst snd] in E3.
      destruct (E4 cp E2) as [F1 F2]. exists (back cp). split; auto. split; auto.
      rewrite F1, E1. apply rebuild_same. exact Ed.
    + destruct FS as [c' [F1 _]]. eauto.
  - destruct FS as [c' [F1 _]]. eauto.
Qed.

Lemma at_parent_unreachable d ps t j g :
  (forall p t, is_container p = false -> g p t = RFail FUnreachable) ->
  match descend d ps j with Some p => is_container p = false | None => True end ->
  at_parent d (ps ++ [t]) j g = RFail FUnreachable.
Proof.
  intros NC H. rewrite at_parent_snoc. destruct (descend d ps j) as [p|]; auto. rewrite (NC p t H). reflexivity.
Qed.

(* the destination parent of an add at /r is reached, as a container *)
Definition dest_reachable (d : dialect) (doc : ojson) (r : bytes) : bool :=
  match descend d (map decode_token (path_parts r)) doc with
  | Some p => is_container p
  | None => false
  end.

Lemma dest_unreachable_ref d doc r g :
  (forall p t, is_container p = false -> g p t = RFail FUnreachable) ->
  dest_reachable d doc r = false -> at_parent d (ptoks r) doc g = RFail FUnreachable.
Proof.
  intros NC H. unfold ptoks. apply at_parent_unreachable; [exact NC|]. unfold dest_reachable in H.
  destruct (descend d (map decode_token (path_parts r)) doc); [exact H | exact I].
Qed.

Lemma ptr_ok_tokens from : ptr_ok from \/ from = [] -> exists ftoks, ptr_tokens from = Some ftoks.
Proof. intros [[rf [-> _]]| ->]; eexists; [apply ptr_tokens_slash | reflexivity]. Qed.

Lemma copy_src_sim o c from r ftoks :
  cgood c -> ptr_tokens from = Some ftoks ->
  ptr_ok from \/ from = [] ->
  Forall tok_dom (map decode_token (split_slash r)) ->
  match get_at (dia o) ftoks (cval c) with
  | ROk j =>
      if dest_reachable (dia o) (cval c) r
      then exists v c2, copy_src o c from (@Ok bytes (x2f :: r)) = Ok (v, c2, x2f :: r) /\
                        aval v = j /\ ngood v /\ cval c2 = cval c /\ cgood c2
      else copy_src o c from (@Ok bytes (x2f :: r)) = Err EMissing
  | RFail cz => exists e, copy_src o c from (@Ok bytes (x2f :: r)) = Err e /\ cause_rel cz e
  end.
Proof.
  intros G Ht Kf Dp. unfold copy_src, dest_reachable.
  assert (W1 : match get_at (dia o) ftoks (cval c) with
               | ROk _ => exists x c1, find o c from (get_fn o) = (FoundAt (Ok x), c1) /\ cval c1 = cval c /\ cgood c1
               | RFail cz => exists e c1, (find o c from (get_fn o) = (FoundAt (Err e), c1) \/
                                           (find o c from (get_fn o) = (FoundNil, c1) /\ e = EMissing)) /\ cause_rel cz e
               end).
  { destruct Kf as [[rf [-> Df]]| ->].
    - rewrite ptr_tokens_slash in Ht. injection Ht as <-. pose proof (find_get_sim o c rf G Df) as FG. unfold ptoks in FG.
      destruct (get_at _ _ _); [destruct FG as [v [c1 [F1 [_ [_ F]]]]]; eauto | destruct FG as [e [c1 [F1 [F2 _]]]]; eauto].
    - injection Ht as <-. cbn [get_at]. destruct c as [s k ob| |s ns]; [| exfalso; exact (proj2 G) |]; cbn; eauto. }
  destruct (get_at (dia o) ftoks (cval c)) as [j|cz] eqn:Eg.
  2: { destruct W1 as [e [c1 [[F1|[F1 ->]] F2]]]; rewrite F1; eauto. }
  destruct W1 as [x [c1 [F1 [V1 G1]]]]. rewrite F1.
  pose proof (find_unit_sim o c1 r G1 Dp) as FU. rewrite V1 in FU.
  destruct (descend (dia o) (map decode_token (path_parts r)) (cval c)) as [p|];
    [destruct (is_container p)|]; try (destruct FU as [c2 ->]; reflexivity).
  destruct FU as [c2 [-> [V2 G2]]].
  destruct Kf as [[rf [-> Df]]| ->].
  - rewrite ptr_tokens_slash in Ht. injection Ht as <-. pose proof (find_get_sim o c2 rf G2 Df) as FG.
    unfold ptoks in FG. rewrite V2, Eg in FG. destruct FG as [v [c3 [-> [A [B _]]]]]. exists v, c2. auto.
  - injection Ht as <-. cbn [get_at] in Eg. injection Eg as <-.
    exists (node_of_con c2), c2. split; [reflexivity|]. split; [exact V2|]. split; [exact (proj1 G2) | auto].
Qed.

Lemma copy_check_fits o v : ngood v -> (odepth (aval v) <= max_depth)%N -> copy_too_deep o v = false.
Proof. intros [W _] B. rewrite (copy_too_deep_val o v W). apply N.ltb_ge. exact B. Qed.

Lemma copy_check_deep o v : ngood v -> (max_depth < odepth (aval v))%N -> copy_too_deep o v = true.
Proof. intros [W _] B. rewrite (copy_too_deep_val o v W). apply N.ltb_lt. exact B. Qed.

Lemma op_copy_sim o st op from ftoks r c :
  s_root st = RCon c -> cgood c -> o_limit o = 0%Z ->
  op_str op (B "from") = Ok from -> ptr_tokens from = Some ftoks ->
  ptr_ok from \/ from = [] ->
  op_str op (B "path") = Ok (x2f :: r) -> Forall tok_dom (map decode_token (split_slash r)) ->
  (forall v, get_at (dia o) ftoks (cval c) = ROk v -> (odepth v <= max_depth)%N) ->
  sim_res (v <- get_at (dia o) ftoks (cval c) ;; at_parent (dia o) (ptoks r) (cval c) (add_leaf (dia o) v))
          (op_copy o st op).
Proof.
  intros Hr G Lim Hf Ht Kf Hp Dp Fit. rewrite op_copy_eq, Hf, Hr, Hp. change (list byte) with bytes.
  pose proof (copy_src_sim o c from r ftoks G Ht Kf Dp) as CS.
  destruct (get_at (dia o) ftoks (cval c)) as [j|cz]; cbn [bind].
  2: { destruct CS as [e [-> C]]. exists e. auto. }
  destruct (dest_reachable (dia o) (cval c) r) eqn:DR.
  2: { rewrite CS, dest_unreachable_ref; [exists EMissing; split; reflexivity | | exact DR].
       intros p t Cp. now apply leaf_noncontainer. }
  destruct CS as [v [c2 [-> [A [Gv [V2 G2]]]]]]. unfold copy_put.
  rewrite (copy_check_fits o v Gv) by (rewrite A; apply Fit; reflexivity).
  destruct (deep_copy_sim o v Gv) as [DC1 DC2]. destruct (deep_copy o v) as [cp sz]. cbn [fst] in *.
  rewrite Lim. change ((0 <? 0)%Z) with false. cbn [andb]. rewrite <- A, <- DC1, <- V2.
  exact (add_find_sim o c2 r _ cp G2 Dp DC2).
Qed.

(* the complementary case: the source resolves to a value nested deeper than the decoder accepts.
   Order of the checks in copy(): source, path, destination parent, THEN the depth (deepCopy), then
   the size limit, then the add: so an unreachable destination parent is still reported as such
   (ErrMissing, as the reference's FUnreachable), and otherwise the error is deepCopy's, whatever
   the limit is and whether or not the add itself could succeed *)
Lemma op_copy_too_deep o st op from ftoks r c j :
  s_root st = RCon c -> cgood c ->
  op_str op (B "from") = Ok from -> ptr_tokens from = Some ftoks ->
  ptr_ok from \/ from = [] ->
  op_str op (B "path") = Ok (x2f :: r) -> Forall tok_dom (map decode_token (split_slash r)) ->
  get_at (dia o) ftoks (cval c) = ROk j -> (max_depth < odepth j)%N ->
  op_copy o st op = if dest_reachable (dia o) (cval c) r then Err EInvalid else Err EMissing.
Proof.
  intros Hr G Hf Ht Kf Hp Dp Eg Deep. rewrite op_copy_eq, Hf, Hr, Hp. change (list byte) with bytes.
  pose proof (copy_src_sim o c from r ftoks G Ht Kf Dp) as CS. rewrite Eg in CS.
  destruct (dest_reachable (dia o) (cval c) r); [|rewrite CS; reflexivity].
  destruct CS as [v [c2 [-> [A [Gv _]]]]]. unfold copy_put. rewrite (copy_check_deep o v Gv) by (rewrite A; exact Deep). reflexivity.
Qed.

From JP Require Import Domain.

Definition plain_opts (o : opts) : Prop := o_allow o = false /\ o_ensure o = false /\ o_limit o = 0%Z.

(* the stated domain of C01, on a decoded operation.  t <> TNull: the one value of an add / replace of
   the whole document on which the two sides part: patch.go unmarshals the text null into a nil
   partialDoc without error (root_of_value: KDocNil), the reference takes only a container as the
   new root (FRoot); any other scalar is an error on both sides *)
Definition op_dom (op : operation) : Prop :=
  val_good op /\
  exists path, op_str op (B "path") = Ok path /\
    match op_kind op with
    | KAdd | KReplace =>
        ptr_ok path \/ (path = [] /\ exists t, aget (B "value") op = Some (Some t) /\ t <> TNull)
    | KRemove => ptr_ok path
    | KTest => ptr_ok path \/ path = []
    | KMove | KCopy =>
        ptr_ok path /\ exists from, op_str op (B "from") = Ok from /\ (ptr_ok from \/ from = [])
    | KUnknown => False
    end.

(* the domain by kind, for the kinds whose path is a pointer /r: remove; move and copy, with their from *)
Lemma op_dom_remove op : op_dom op -> op_kind op = KRemove ->
  exists r, op_str op (B "path") = @Ok bytes (x2f :: r) /\ Forall tok_dom (map decode_token (split_slash r)).
Proof. intros [_ [path [Hp K]]] Ek. rewrite Ek in K. destruct K as [r [-> D]]. eauto. Qed.

Lemma op_dom_from op : op_dom op -> op_kind op = KMove \/ op_kind op = KCopy ->
  exists r from, op_str op (B "path") = @Ok bytes (x2f :: r) /\ Forall tok_dom (map decode_token (split_slash r)) /\
                 op_str op (B "from") = Ok from /\ (ptr_ok from \/ from = []).
Proof. intros [_ [path [Hp K]]] [Ek|Ek]; rewrite Ek in K; destruct K as [[r [-> D]] [from [Hf Kf]]]; eauto 7. Qed.

(* what the operation reads of the options besides SupportNegativeIndices is off (move removes what get
   found: AllowMissingPathOnRemove is not consulted) *)
Definition reads_off (o : opts) (op : operation) : Prop :=
  match op_kind op with
  | KAdd => o_ensure o = false
  | KRemove => o_allow o = false
  | KCopy => o_limit o = 0%Z
  | _ => True
  end.

Lemma plain_reads_off o op : plain_opts o -> reads_off o op.
Proof. intros [A [E L]]. unfold reads_off. destruct (op_kind op); auto. Qed.

Lemma ref_value_den_op op : value_or_null (rvalue (den_op op)) = ref_value op.
Proof. unfold den_op, ref_value. simpl. destruct (aget (B "value") op) as [[t|]|]; reflexivity. Qed.

Lemma match_nonempty {A B} (l : list A) (a b : B) : l <> [] -> match l with [] => a | _ :: _ => b end = b.
Proof. destruct l; congruence. Qed.

Lemma match_ptoks {B} r (a b : B) : match ptoks r with [] => a | _ :: _ => b end = b.
Proof. exact (match_nonempty _ a b (ptoks_nonempty r)). Qed.

(* ---- the reference's step on a decoded operation whose path is /r, by the kind of the operation ---- *)
Definition from_toks (op : operation) : option (list bytes) := ptr_tokens (str_or_empty (op_str op (B "from"))).

Lemma rfc_step_slash d doc op r :
  op_str op (B "path") = Ok (x2f :: r) ->
  rfc_step d doc (den_op op) =
  match op_kind op with
  | KAdd => at_parent d (ptoks r) doc (add_leaf d (ref_value op))
  | KRemove => at_parent d (ptoks r) doc (remove_leaf d)
  | KReplace => at_parent d (ptoks r) doc (replace_leaf d (ref_value op))
  | KMove =>
      match from_toks op with
      | None => RFail FPointer
      | Some [] => RFail FRoot
      | Some ftoks => v <- get_at d ftoks doc ;; doc1 <- at_parent d ftoks doc (remove_leaf d) ;;
                      at_parent d (ptoks r) doc1 (add_leaf d v)
      end
  | KCopy =>
      match from_toks op with
      | None => RFail FPointer
      | Some ftoks => v <- get_at d ftoks doc ;; at_parent d (ptoks r) doc (add_leaf d v)
      end
  | _ => at_parent d (ptoks r) doc (test_leaf d (ref_value op))
  end.
Proof.
  intro Hp. unfold rfc_step, den_op, from_toks, rfc_add. cbn [rpath rkind rfrom rvalue]. rewrite Hp. cbn [str_or_empty].
  rewrite ptr_tokens_slash. fold (ptoks r). fold (ref_value op).
  change (value_or_null _) with (value_or_null (rvalue (den_op op))). rewrite ref_value_den_op.
  destruct (op_kind op); cbn [ref_kind]; rewrite ?match_ptoks; try reflexivity.
  - destruct (ptr_tokens _) as [[|f fs]|]; try reflexivity.
    destruct (get_at d (f :: fs) doc); cbn [bind]; [|reflexivity]. destruct (at_parent d (f :: fs) doc (remove_leaf d)); cbn [bind]; [apply match_ptoks | reflexivity].
  - destruct (ptr_tokens _) as [ftoks|]; try reflexivity. destruct (get_at d ftoks doc); cbn [bind]; [apply match_ptoks | reflexivity].
Qed.

Lemma from_toks_slash op rf : op_str op (B "from") = Ok (x2f :: rf) -> from_toks op = Some (ptoks rf).
Proof. intro H. unfold from_toks. rewrite H. apply ptr_tokens_slash. Qed.

(* copy_fits (Domain.v): the operation is not a copy whose source value nests deeper than the decoder's
   limit; for every other kind of operation the hypothesis is trivially true (copy_fits_not_copy) *)
Theorem step_sim_reads o st op :
  sgood st -> reads_off o op -> op_dom op ->
  copy_fits (dia o) (sval st) (den_op op) = true ->
  sim_res (rfc_step (dia o) (sval st) (den_op op)) (step o st op).
Proof.
  intros [c [Hr G]] RO [Vg [path [Hp K]]] Fit.
  rewrite (sval_con st c Hr) in *. unfold step, reads_off in *. destruct (op_kind op) eqn:Ek; try contradiction.
  - (* add *)
    destruct K as [[r [-> D]]|[-> [t [Hv NN]]]].
    + rewrite (rfc_step_slash _ _ _ _ Hp), Ek. exact (op_add_sim o st op r c Hr G RO Hp D Vg).
    + unfold rfc_step, den_op. cbn [rpath rkind rvalue]. rewrite Hp, Ek, Hv. cbn [str_or_empty ref_kind ptr_tokens rfc_add value_or_null].
      unfold val_good in Vg. rewrite Hv in Vg. destruct Vg as [T [L B]].
      exact (op_add_root_sim o st op t Hp Hv NN T L B).
  - (* remove *)
    destruct K as [r [-> D]]. rewrite (rfc_step_slash _ _ _ _ Hp), Ek. exact (op_remove_sim o st op r c Hr G RO Hp D).
  - (* replace *)
    destruct K as [[r [-> D]]|[-> [t [Hv NN]]]].
    + rewrite (rfc_step_slash _ _ _ _ Hp), Ek. exact (op_replace_sim o st op r c Hr G Hp D Vg).
    + unfold rfc_step, den_op. cbn [rpath rkind rvalue]. rewrite Hp, Ek, Hv. cbn [str_or_empty ref_kind ptr_tokens value_or_null].
      unfold val_good in Vg. rewrite Hv in Vg. destruct Vg as [T [L B]].
      exact (op_replace_root_sim o st op t Hp Hv NN T L B).
  - (* move *)
    destruct K as [[r [-> D]] [from [Hf Kf]]]. rewrite (rfc_step_slash _ _ _ _ Hp), Ek.
    destruct Kf as [[rf [-> Df]]| ->].
    + rewrite (from_toks_slash _ _ Hf), match_ptoks. exact (op_move_sim o st op rf r c Hr G Hf Df Hp D).
    + unfold from_toks, op_move. rewrite Hf. exists EInvalid. split; reflexivity.
  - (* copy *)
    destruct K as [[r [-> D]] [from [Hf Kf]]]. rewrite (rfc_step_slash _ _ _ _ Hp), Ek.
    unfold copy_fits, den_op in Fit. cbn [rkind rfrom] in Fit. rewrite Ek in Fit. cbn [ref_kind] in Fit.
    unfold from_toks. rewrite Hf in *. cbn [str_or_empty] in *.
    destruct (ptr_ok_tokens from Kf) as [ftoks Ht]. rewrite Ht in *.
    apply (op_copy_sim o st op from ftoks r c Hr G RO Hf Ht Kf Hp D).
    intros v Ev. rewrite Ev in Fit. apply N.leb_le. exact Fit.
  - (* test *)
    destruct K as [[r [-> D]]| ->].
    + rewrite (rfc_step_slash _ _ _ _ Hp), Ek. exact (op_test_sim o st op r c Hr G Hp D Vg).
    + unfold rfc_step. rewrite ref_value_den_op. unfold den_op. cbn [rpath rkind]. rewrite Hp, Ek.
      exact (op_test_root_sim o st op c Hr G Hp Vg).
Qed.

Theorem step_sim o st op :
  sgood st -> plain_opts o -> op_dom op ->
  copy_fits (dia o) (sval st) (den_op op) = true ->
  match rfc_step (dia o) (sval st) (den_op op) with
  | ROk j' => exists st', step o st op = Ok st' /\ sval st' = j' /\ sgood st'
  | RFail cz => exists e, step o st op = Err e /\ cause_rel cz e
  end.
Proof. intros G PO. exact (step_sim_reads o st op G (plain_reads_off o op PO)). Qed.

(* the complementary statement: a copy whose source (in the reference) nests deeper than the decoder's
   limit is an error of the model, never a success and never a panic: deepCopy's error, unless the
   destination parent is unreachable (that check comes first; the reference fails there too).
   No condition on the options: the depth check precedes the size limit. *)
Theorem step_copy_too_deep o st op :
  sgood st -> op_dom op ->
  copy_fits (dia o) (sval st) (den_op op) = false ->
  step o st op = Err EInvalid \/
  (step o st op = Err EMissing /\ rfc_step (dia o) (sval st) (den_op op) = RFail FUnreachable).
Proof.
  intros [c [Hr G]] Dop Fit.
  unfold copy_fits in Fit. unfold rfc_step, step. unfold den_op in *. cbn [rpath rkind rfrom] in *. rewrite (sval_con st c Hr) in *.
  destruct (op_kind op) eqn:Ek; cbn [ref_kind] in *; try discriminate.
  destruct (op_dom_from op Dop (or_intror Ek)) as (r & from & Hp & D & Hf & Kf). rewrite Hp, Hf in *. cbn [str_or_empty] in *.
  destruct (ptr_ok_tokens from Kf) as [ftoks Ht]. rewrite Ht in *. rewrite ptr_tokens_slash. fold (ptoks r).
  destruct (get_at (dia o) ftoks (cval c)) as [j|] eqn:Eg; [|discriminate]. apply N.leb_gt in Fit.
  rewrite (op_copy_too_deep o st op from ftoks r c j Hr G Hf Ht Kf Hp D Eg Fit).
  destruct (dest_reachable (dia o) (cval c) r) eqn:R; [left; reflexivity | right; split; [reflexivity|]].
  cbn [bind]. rewrite match_ptoks. apply dest_unreachable_ref; [|exact R].
  intros p t Cp. now apply leaf_noncontainer.
Qed.

(* in particular: where RFC 6902 succeeds and the copied value is too deep, the library reports
   deepCopy's error *)
Corollary step_copy_too_deep_ok o st op j' :
  sgood st -> op_dom op ->
  copy_fits (dia o) (sval st) (den_op op) = false ->
  rfc_step (dia o) (sval st) (den_op op) = ROk j' ->
  step o st op = Err EInvalid.
Proof.
  intros G D Fit R. destruct (step_copy_too_deep o st op G D Fit) as [E|[_ E]]; [exact E | congruence].
Qed.

Definition has_copy (p : list operation) : Prop := exists op, In op p /\ op_kind op = KCopy.

(* a reference for whole patches: a step function on decoded operations, a side condition on each step,
   and their folds over a patch (given by their equations, so that the folds Rfc6902.rfc_apply_from,
   Domain.copies_fit and their variants with options are instances as they stand) *)
Record ref_run := {
  rr_step : ojson -> operation -> Rfc6902.res ojson;
  rr_fit : ojson -> operation -> bool;
  rr_run : nat -> ojson -> list operation -> outcome;
  rr_fits : ojson -> list operation -> bool;
  rr_run_nil : forall i doc, rr_run i doc [] = Done doc;
  rr_run_cons : forall i doc op p,
    rr_run i doc (op :: p) = match rr_step doc op with ROk doc' => rr_run (S i) doc' p | RFail c => Failed i c end;
  rr_fits_cons : forall doc op p,
    rr_fits doc (op :: p) = rr_fit doc op && match rr_step doc op with ROk doc' => rr_fits doc' p | RFail _ => true end
}.

(* RFC 6902 itself, with the condition on copies *)
Definition plain_run (d : dialect) : ref_run :=
  Build_ref_run (fun doc op => rfc_step d doc (den_op op)) (fun doc op => copy_fits d doc (den_op op))
                (fun i doc p => rfc_apply_from d i doc (map den_op p)) (fun doc p => copies_fit d doc (map den_op p))
                (fun _ _ => eq_refl) (fun _ _ _ _ => eq_refl) (fun _ _ _ => eq_refl).

Section Run.
  Variables (R : ojson -> operation -> Rfc6902.res ojson) (F : ojson -> operation -> bool).
  Fixpoint run (i : nat) (doc : ojson) (p : list operation) : outcome :=
    match p with
    | [] => Done doc
    | op :: rest => match R doc op with ROk doc' => run (S i) doc' rest | RFail c => Failed i c end
    end.
  Fixpoint run_fits (doc : ojson) (p : list operation) : bool :=
    match p with
    | [] => true
    | op :: rest => F doc op && match R doc op with ROk doc' => run_fits doc' rest | RFail _ => true end
    end.
  Definition gen_run : ref_run :=
    Build_ref_run R F run run_fits (fun _ _ => eq_refl) (fun _ _ _ _ => eq_refl) (fun _ _ _ => eq_refl).
End Run.

Lemma rr_failed_nth rr : forall p i doc k cz, rr_run rr i doc p = Failed k cz ->
  (i <= k)%nat /\ exists op doc', nth_error p (k - i) = Some op /\ rr_step rr doc' op = RFail cz.
Proof.
  induction p as [|op p IH]; intros i doc k cz; [rewrite rr_run_nil; discriminate|]. rewrite rr_run_cons.
  destruct (rr_step rr doc op) as [doc1|c] eqn:E.
  - intro H. destruct (IH _ _ _ _ H) as [L [op' [doc' [H1 H2]]]]. split; [lia|]. exists op', doc'. split; [|exact H2].
    replace (k - i)%nat with (S (k - S i))%nat by lia. exact H1.
  - intro H; inversion H; subst. split; [lia|]. exists op, doc. rewrite Nat.sub_diag. auto.
Qed.

Lemma rr_failed_ge rr : forall p i doc k cz, rr_run rr i doc p = Failed k cz -> (i <= k)%nat.
Proof. intros p i doc k cz H. exact (proj1 (rr_failed_nth rr p i doc k cz H)). Qed.

(* ---- what a corresponding error says of the cause ---- *)
Lemma cause_rel_test_iff cz e : cause_rel cz e -> (e = ETestFailed <-> cz = FTest).
Proof.
  destruct cz; simpl; intro H; split; intro E; subst; try reflexivity; try discriminate;
    try (destruct H as [H|[H|H]]; discriminate).
Qed.

Lemma cause_rel_missing cz e : cause_rel cz e -> cz = FMissingMember \/ cz = FUnreachable -> e = EMissing.
Proof. intros H [-> | ->]; exact H. Qed.

Lemma cause_rel_not_limit cz e : cause_rel cz e -> is_copy_limit e = false.
Proof.
  destruct cz; simpl; intro H; subst; try reflexivity; try (apply plain_nocl; exact H).
  destruct H as [->|[->| ->]]; reflexivity.
Qed.

Lemma rr_run_app rr p1 : forall i doc p2,
  rr_run rr i doc (p1 ++ p2) =
  match rr_run rr i doc p1 with Done doc' => rr_run rr (i + length p1) doc' p2 | r => r end.
Proof.
  induction p1 as [|op p1 IH]; intros i doc p2; cbn [app length].
  - now rewrite rr_run_nil, Nat.add_0_r.
  - rewrite !rr_run_cons. destruct (rr_step rr doc op); [|reflexivity]. rewrite IH. now rewrite Nat.add_succ_r.
Qed.

(* One simulation argument for every whole-patch statement.  Each operation in the domain D, met in a state
   satisfying Inv under the side condition, either corresponds to the reference's step, or stops the patch
   with an error the reference does not know of (Stop: the copy-size limit, an error that is_copy_limit
   recognises).  Both runs are functions, so the theorem is stated from the model's outcome: it says what the
   reference run did; the statements that start from the reference's outcome follow by cases on the model's. *)
Section Fold.
  Variables (o : opts) (rr : ref_run) (Inv : state -> Prop).
  Variable Stop : state -> operation -> errclass -> Prop.

  (* operation k stopped the patch with e; the operations before it all corresponded *)
  Definition stopped_at (i : nat) (st : state) (p : list operation) (k : nat) (e : errclass) : Prop :=
    exists p1 op p2 st1, p = p1 ++ op :: p2 /\ k = (i + length p1)%nat /\ apply_from o i st p1 = AOk st1 /\ Inv st1 /\
      rr_run rr i (sval st) p1 = Done (sval st1) /\ Stop st1 op e.

  (* the reference run does not fail earlier; if it fails at that operation, then with its own cause there *)
  Lemma stopped_ref i st p k e : stopped_at i st p k e ->
    exists st1 op, nth_error p (k - i) = Some op /\ Stop st1 op e /\ (i <= k)%nat /\
      forall j cz, rr_run rr i (sval st) p = Failed j cz -> (k <= j)%nat /\ (j = k -> rr_step rr (sval st1) op = RFail cz).
  Proof.
    intros [p1 [op [p2 [st1 [-> [-> [L2 [L3 [L4 L5]]]]]]]]]. exists st1, op.
    split; [rewrite Nat.add_comm, Nat.add_sub; apply nth_error_mid|]. split; [exact L5|]. split; [apply Nat.le_add_r|].
    intros j cz. rewrite rr_run_app, L4, rr_run_cons. destruct (rr_step rr (sval st1) op) as [j'|c].
    - intro H. apply rr_failed_ge in H. split; [exact (Nat.lt_le_incl _ _ H)|]. intros ->. exact (False_ind _ (Nat.lt_irrefl _ H)).
    - intros [= <- <-]. auto.
  Qed.

  Variable D : operation -> Prop.
  Hypothesis step_ok : forall st op, Inv st -> D op -> rr_fit rr (sval st) op = true ->
    (exists e, step o st op = Err e /\ Stop st op e) \/
    match rr_step rr (sval st) op with
    | ROk j' => exists st', step o st op = Ok st' /\ sval st' = j' /\ Inv st'
    | RFail cz => exists e, step o st op = Err e /\ cause_rel cz e
    end.
  Hypothesis stop_limit : forall st op e, Stop st op e -> is_copy_limit e = true.

  Theorem apply_verdict : forall p i st, Inv st -> Forall D p -> rr_fits rr (sval st) p = true ->
    match apply_from o i st p with
    | AOk st' => rr_run rr i (sval st) p = Done (sval st') /\ Inv st'
    | AErr k e => if is_copy_limit e then stopped_at i st p k e
                  else exists cz, rr_run rr i (sval st) p = Failed k cz /\ cause_rel cz e
    | APanic _ => False
    end.
  Proof.
    induction p as [|op p IH]; intros i st G Dp Fp; cbn [apply_from].
    - rewrite rr_run_nil. auto.
    - inversion Dp as [|? ? Dop Dp']; subst. rewrite rr_fits_cons in Fp. apply andb_prop in Fp as [F1 F2].
      rewrite rr_run_cons. destruct (step_ok st op G Dop F1) as [[e [S1 S2]]|S].
      + rewrite S1, (stop_limit _ _ _ S2). exists [], op, p, st. rewrite rr_run_nil. cbn. auto 8.
      + destruct (rr_step rr (sval st) op) as [j'|cz] eqn:RS.
        * destruct S as [st' [S1 [S2 S3]]]. rewrite S1. rewrite <- S2 in *. specialize (IH (S i) st' S3 Dp' F2).
          destruct (apply_from o (S i) st' p) as [st2|k e|k]; [exact IH | | exact IH].
          destruct (is_copy_limit e); [|exact IH]. destruct IH as [p1 [op1 [p2 [st1 [-> [-> [L2 [L3 [L4 L5]]]]]]]]].
          exists (op :: p1), op1, p2, st1. cbn [app apply_from length]. rewrite S1, rr_run_cons, RS, Nat.add_succ_r.
          repeat split; auto.
        * destruct S as [e [S1 S2]]. rewrite S1, (cause_rel_not_limit cz e S2). eauto.
  Qed.
End Fold.

(* ... when no operation stops the patch, from the reference's outcome *)
Corollary apply_from_sim0 o rr (Inv : state -> Prop) (D : operation -> Prop) :
  (forall st op, Inv st -> D op -> rr_fit rr (sval st) op = true ->
     match rr_step rr (sval st) op with
     | ROk j' => exists st', step o st op = Ok st' /\ sval st' = j' /\ Inv st'
     | RFail cz => exists e, step o st op = Err e /\ cause_rel cz e
     end) ->
  forall p i st, Inv st -> Forall D p -> rr_fits rr (sval st) p = true ->
  match rr_run rr i (sval st) p with
  | Done doc => exists st', apply_from o i st p = AOk st' /\ sval st' = doc /\ Inv st'
  | Failed j cz => exists e, apply_from o i st p = AErr j e /\ cause_rel cz e
  end.
Proof.
  intros H p i st G Dp Fp.
  pose proof (apply_verdict o rr Inv (fun _ _ _ => False) D (fun st op G D F => or_intror (H st op G D F))
                (fun _ _ _ F => False_ind _ F) p i st G Dp Fp) as V.
  destruct (apply_from o i st p) as [st'|k e|k]; [destruct V as [-> V]; eauto | | destruct V].
  destruct (is_copy_limit e); [destruct V as [? [? [? [? [_ [_ [_ [_ [_ []]]]]]]]]] | destruct V as [cz [-> V]]; eauto].
Qed.

(* copies_fit (Domain.v): copy_fits at every operation the reference run reaches *)
Theorem apply_sim o : plain_opts o -> forall p i st,
  sgood st -> Forall op_dom p ->
  copies_fit (dia o) (sval st) (map den_op p) = true ->
  match rfc_apply_from (dia o) i (sval st) (map den_op p) with
  | Done doc => exists st', apply_from o i st p = AOk st' /\ sval st' = doc /\ sgood st'
  | Failed j cz => exists e, apply_from o i st p = AErr j e /\ cause_rel cz e
  end.
Proof. intro PO. exact (apply_from_sim0 o (plain_run (dia o)) sgood op_dom (fun st op G => step_sim o st op G PO)). Qed.

(* when the condition fails the patch is rejected: at the first copy that does not fit (deepCopy's
   error), or at that same operation for the reason the reference gives (its destination parent is
   unreachable); operations before it behave as in the reference *)
Theorem apply_copy_too_deep o : plain_opts o -> forall p i st,
  sgood st -> Forall op_dom p ->
  copies_fit (dia o) (sval st) (map den_op p) = false ->
  match rfc_apply_from (dia o) i (sval st) (map den_op p) with
  | Done _ => exists j, apply_from o i st p = AErr j EInvalid
  | Failed k cz => exists j e, apply_from o i st p = AErr j e /\ (e = EInvalid \/ (j = k /\ cause_rel cz e))
  end.
Proof.
  intros PO. induction p as [|op p IH]; intros i st G D F; cbn [map rfc_apply_from apply_from copies_fit] in *.
  - discriminate.
  - inversion D as [|? ? Dop Dp]; subst.
    destruct (copy_fits (dia o) (sval st) (den_op op)) eqn:F1; cbn [andb] in F.
    + pose proof (step_sim o st op G PO Dop F1) as S.
      destruct (rfc_step (dia o) (sval st) (den_op op)) as [j'|cz]; [|discriminate].
      destruct S as [st' [S1 [S2 S3]]]. rewrite S1. rewrite <- S2 in F.
      specialize (IH (S i) st' S3 Dp F). rewrite S2 in IH. exact IH.
    + destruct (step_copy_too_deep o st op G Dop F1) as [E|[E R]]; rewrite E.
      * destruct (rfc_step (dia o) (sval st) (den_op op)) as [j'|cz].
        -- destruct (rfc_apply_from (dia o) (S i) j' (map den_op p)); eauto.
        -- eauto.
      * rewrite R. exists i, EMissing. split; [reflexivity|]. right. split; reflexivity.
Qed.

Lemma parse_nil : parse [] = None.
Proof. reflexivity. Qed.

From JP Require Import ParseFacts.

Lemma load_doc_good o doc t :
  parse doc = Some t -> root_container t = true -> tnodup t = true ->
  exists c, load_doc o t = Ok (RCon c) /\ cgood c /\ cval c = den t.
Proof.
  intros P RC T. unfold load_doc. pose proof (parse_tlit _ _ P) as L.
  pose proof (root_value_sim t (NRaw t) T L (parse_tsb _ _ P)) as RV.
  destruct t; try discriminate.
  - destruct RV as [R1 R2]. eexists. split; [reflexivity|]. split; auto.
  - destruct (doc_of ms) as [k ob]. destruct RV as [R1 R2]. eexists. split; [reflexivity|]. split; auto.
Qed.

(* what Apply returns, given how the loop over the operations ended *)
Definition apply_end (o : opts) (indent : bytes) (a : applied) : apply_result :=
  match a with
  | AErr i e => RErr (Some i) e
  | APanic _ => RPanic
  | AOk st =>
      match marshal_root o (s_root st) with
      | Ok t => ROut (output o indent t)
      | Err e => RErr None e
      | Panic => RPanic
      end
  end.

Lemma api_apply_loop o indent p doc t :
  parse doc = Some t -> root_container t = true -> tnodup t = true ->
  exists c, load_doc o t = Ok (RCon c) /\ cgood c /\ cval c = den t /\
            api_apply o indent p doc = apply_end o indent (apply_from o 0 (mkState (RCon c) 0) p).
Proof.
  intros P RC T. destruct (load_doc_good o doc t P RC T) as [c [S1 [S2 S3]]]. exists c. split; [exact S1|]. split; [exact S2|]. split; [exact S3|].
  unfold api_apply. destruct doc as [|b doc]; [rewrite parse_nil in P; discriminate|].
  rewrite P. unfold apply_tree. rewrite S1. reflexivity.
Qed.

Lemma apply_end_err o indent a k e : apply_end o indent a = RErr (Some k) e <-> a = AErr k e.
Proof.
  destruct a as [st|j e'|j]; cbn [apply_end].
  - split; [|discriminate]. destruct (marshal_root o (s_root st)); discriminate.
  - split; intro H; inversion H; reflexivity.
  - split; discriminate.
Qed.

Lemma apply_end_ok o indent st : sgood st ->
  apply_end o indent (AOk st) = ROut (output o indent (render (o_esc o) (root_node (s_root st)))) /\
  aval (root_node (s_root st)) = sval st /\ ngood (root_node (s_root st)).
Proof.
  intros [c [Hr G]]. unfold sval. cbn [apply_end]. rewrite Hr. cbn [root_node].
  destruct c as [s k ob| |s ns]; [| exfalso; exact (proj2 G) |]; (split; [reflexivity | split; [reflexivity | exact (proj1 G)]]).
Qed.

Lemma apply_end_sim o indent a (out : outcome) :
  match out with
  | Done doc => exists st', a = AOk st' /\ sval st' = doc /\ sgood st'
  | Failed j cz => exists e, a = AErr j e /\ cause_rel cz e
  end ->
  match out with
  | Done j => exists n, apply_end o indent a = ROut (output o indent (render (o_esc o) n)) /\ aval n = j /\ ngood n
  | Failed i cz => exists e, apply_end o indent a = RErr (Some i) e /\ cause_rel cz e
  end.
Proof.
  destruct out as [j|i cz].
  - intros [st' [-> [<- G]]]. destruct (apply_end_ok o indent st' G) as [E [V N]]. eauto.
  - intros [e [-> C]]. exists e. auto.
Qed.

(* Apply on bytes: for a document whose root is an object or array (no duplicate names) and a
   patch in the stated domain, the model of Apply succeeds exactly when the ORDERED reference
   does, and then its output is the encoding of a node whose value IS the reference's result
   (member order and number literals included); when the reference fails, Apply fails at the same
   operation with an error of the corresponding class *)
Theorem api_apply_sim o indent p doc t :
  plain_opts o -> parse doc = Some t -> root_container t = true -> tnodup t = true ->
  Forall op_dom p ->
  copies_fit (dia o) (den t) (map den_op p) = true ->
  match rfc_apply (dia o) (den t) (map den_op p) with
  | Done j => exists n, api_apply o indent p doc = ROut (output o indent (render (o_esc o) n)) /\ aval n = j /\ ngood n
  | Failed i cz => exists e, api_apply o indent p doc = RErr (Some i) e /\ cause_rel cz e
  end.
Proof.
  intros PO P RC T D F. destruct (api_apply_loop o indent p doc t P RC T) as [c [_ [G [V ->]]]]. rewrite <- V in *.
  apply apply_end_sim. exact (apply_sim o PO p 0%nat (mkState (RCon c) 0) (sgood_con c _ G) D F).
Qed.

(* Apply on bytes when some copy the reference run reaches does not fit: an error at an operation *)
Theorem api_apply_copy_too_deep o indent p doc t :
  plain_opts o -> parse doc = Some t -> root_container t = true -> tnodup t = true ->
  Forall op_dom p ->
  copies_fit (dia o) (den t) (map den_op p) = false ->
  match rfc_apply (dia o) (den t) (map den_op p) with
  | Done _ => exists j, api_apply o indent p doc = RErr (Some j) EInvalid
  | Failed k cz => exists j e, api_apply o indent p doc = RErr (Some j) e /\ (e = EInvalid \/ (j = k /\ cause_rel cz e))
  end.
Proof.
  intros PO P RC T D F. destruct (api_apply_loop o indent p doc t P RC T) as [c [_ [G [V ->]]]]. rewrite <- V in *.
  pose proof (apply_copy_too_deep o PO p 0%nat (mkState (RCon c) 0) (sgood_con c _ G) D F) as AS.
  unfold rfc_apply. change (sval (mkState (RCon c) 0)) with (cval c) in AS.
  destruct (rfc_apply_from (dia o) 0 (cval c) (map den_op p)) as [j|k cz].
  - destruct AS as [j0 ->]. exists j0. reflexivity.
  - destruct AS as [j0 [e [-> A2]]]. exists j0, e. auto.
Qed.

(* the condition holds in particular for a patch without copy operations ... *)
Lemma den_op_not_copy op : op_kind op <> KCopy -> rkind (den_op op) <> OpCopy.
Proof. unfold den_op. cbn [rkind]. destruct (op_kind op); cbn [ref_kind]; congruence. Qed.

Lemma copies_fit_no_copy_ops d p doc : Forall (fun op => op_kind op <> KCopy) p -> copies_fit d doc (map den_op p) = true.
Proof.
  intro H. apply copies_fit_no_copy. rewrite Forall_map. revert H. apply Forall_impl. exact den_op_not_copy.
Qed.

(* ---- EnsurePathExistsOnAdd on a path whose parents all exist: nothing is created ---- *)
Lemma ensure_path_slash o c r : ensure_path o c (x2f :: r) = ensure o (split_slash r) c.
Proof.
  unfold ensure_path. change (split_slash (x2f :: r)) with ([] :: split_slash r).
  destruct (split_slash r) eqn:E; [exfalso; eapply split_slash_nonempty; eauto | reflexivity].
Qed.

Lemma ensure_unfold_existing o part nextp rest0 c n ch :
  con_get o c (decode_token part) = Ok n -> is_container (aval n) = true -> into_con n = Some ch ->
  ensure o (part :: nextp :: rest0) c =
  let (e, ch') := ensure o (nextp :: rest0) ch in (e, con_put o c (decode_token part) (node_of_con ch')).
Proof.
  intros Hg Cj Hic. rewrite ensure_step. unfold ensure_present. rewrite Hg.
  destruct n; [discriminate Cj | rewrite Hic; reflexivity ..].
Qed.

(* ensurePathExists at a parent that exists and is a container: it goes on inside (whatever it does there
   is put back at the token) *)
Lemma ensure_into o part nextp rest c j :
  cgood c -> tok_dom (decode_token part) ->
  child_at (dia o) (cval c) (decode_token part) = Some j -> is_container j = true ->
  exists ch, cgood ch /\ cval ch = j /\
    ensure o (part :: nextp :: rest) c =
      (let (e, ch') := ensure o (nextp :: rest) ch in (e, con_put o c (decode_token part) (node_of_con ch'))) /\
    forall ch', cgood ch' ->
      cval (con_put o c (decode_token part) (node_of_con ch')) = put_child (dia o) (cval c) (decode_token part) (cval ch') /\
      cgood (con_put o c (decode_token part) (node_of_con ch')).
Proof.
  intros G Dk Ech Cj. pose proof (con_get_sim o c _ G Dk) as CG. rewrite Ech in CG. destruct CG as [n [Hg [Ev Gn]]].
  pose proof (into_con_sim n Gn) as IC. rewrite Ev, Cj in IC. destruct IC as [ch [Hic [Evc Gch]]].
  exists ch. split; [exact Gch|]. split; [exact Evc|]. split.
  - apply (ensure_unfold_existing o part nextp rest c n ch Hg); [rewrite Ev; exact Cj | exact Hic].
  - intros ch' G'. exact (con_put_sim o c _ (node_of_con ch') n G Dk Hg (proj1 G')).
Qed.

Lemma ensure_existing o : forall parts c,
  cgood c -> Forall tok_dom (map decode_token parts) ->
  (exists p, descend (dia o) (map decode_token (removelast parts)) (cval c) = Some p /\ is_container p = true) ->
  exists c', ensure o parts c = (None, c') /\ cval c' = cval c /\ cgood c'.
Proof.
  induction parts as [|part parts IH]; intros c G D H.
  - exists c. auto.
  - destruct parts as [|nextp rest]; [exists c; auto|].
    inversion D as [|? ? Dk Dr]; subst.
    destruct H as [p [Hd Cp]]. change (removelast (part :: nextp :: rest)) with (part :: removelast (nextp :: rest)) in Hd.
    cbn [map descend] in Hd.
    destruct (child_at (dia o) (cval c) (decode_token part)) as [j|] eqn:Ech; [|discriminate].
    pose proof (descend_container _ _ j p Hd Cp) as Cj.
    destruct (ensure_into o part nextp rest c j G Dk Ech Cj) as [ch [Gch [Evc [-> Put]]]].
    destruct (IH ch Gch Dr) as [ch' [E1 [E2 E3]]]; [exists p; rewrite Evc; auto|].
    rewrite E1. eexists. split; [reflexivity|]. destruct (Put ch' E3) as [Q1 Q2]. split; [|exact Q2].
    rewrite Q1, E2, Evc. apply put_child_same. exact Ech.
Qed.

(* an add that succeeds without the option gives the same result with it *)
Theorem ensure_agrees o st op r c j' :
  s_root st = RCon c -> cgood c -> o_ensure o = true ->
  op_str op (B "path") = Ok (x2f :: r) -> Forall tok_dom (map decode_token (split_slash r)) -> val_good op ->
  at_parent (dia o) (ptoks r) (cval c) (add_leaf (dia o) (ref_value op)) = ROk j' ->
  exists st', op_add o st op = Ok st' /\ sval st' = j' /\ sgood st'.
Proof.
  intros Hr G En Hp D Vg AP.
  pose proof (at_parent_ok_parent _ _ _ _ _ _ (fun p t Cp => proj1 (leaf_noncontainer (dia o) p t Cp) _) AP) as Par.
  destruct (ensure_existing o (split_slash r) c G D Par) as [c1 [E1 [E2 E3]]]. rewrite <- ensure_path_slash in E1.
  pose proof (ensured_add_sim o st op r c c1 Hr En Hp E1 E3 D Vg) as AF. rewrite E2, AP in AF. exact AF.
Qed.
