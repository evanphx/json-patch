(* PrintParse.v — what the library writes, it reads back as the same tree:
     parse (print false t) = Some t            for every well-formed spelled tree t,
     parse (print true t)  = Some (escape_tree true t)   (same value: den is unchanged),
     parse (pp false ind 0 t) = Some t         for an indentation made of white space,
   and every tree the reader produces is well-formed (so the round trip applies to every document
   the library has read).  Well-formedness: string bodies / member names are what scan_string
   accepts (body_ok), number literals follow the RFC 8259 grammar (num_ok), nesting <= max_depth. *)
From Coq Require Import Lia.
From JP Require Import Bytes Json Text JsonFacts EqualFacts ParseFacts ReadInv ScannerGrammar.
From JP Require Import Strings Den ImplV5 Codec StrInv Depth.

Definition esc1 (e : byte) : bool :=
  match e with x62 | x66 | x6e | x72 | x74 | x5c | x2f | x22 => true | _ => false end.

Definition hex4b (a b c d : byte) : bool := is_hex a && is_hex b && is_hex c && is_hex d.

(* the bytes between the quotes of a JSON string: escapes, backslash-u with four hex digits, no raw
   quote, backslash or control byte *)
Inductive body_ok : bytes -> Prop :=
| BO_nil : body_ok []
| BO_esc e r : esc1 e = true -> body_ok r -> body_ok (x5c :: e :: r)
| BO_u a b c d r : hex4b a b c d = true -> body_ok r -> body_ok (x5c :: x75 :: a :: b :: c :: d :: r)
| BO_plain c r : Byte.eqb c x22 = false -> Byte.eqb c x5c = false -> (bn c <? 32) = false ->
                 body_ok r -> body_ok (c :: r).

Fixpoint body_okb (s : bytes) : bool :=
  match s with
  | [] => true
  | c :: r =>
      if Byte.eqb c x22 then false
      else if Byte.eqb c x5c then
        match r with
        | e :: r' =>
            if esc1 e then body_okb r'
            else if Byte.eqb e x75 then
              match r' with
              | h1 :: h2 :: h3 :: h4 :: r'' => hex4b h1 h2 h3 h4 && body_okb r''
              | _ => false
              end
            else false
        | [] => false
        end
      else negb (bn c <? 32) && body_okb r
  end.

Lemma body_okb_cons c r : body_okb (c :: r) =
  if Byte.eqb c x22 then false
  else if Byte.eqb c x5c then
    match r with
    | e :: r' =>
        if esc1 e then body_okb r'
        else if Byte.eqb e x75 then
          match r' with
          | h1 :: h2 :: h3 :: h4 :: r'' => hex4b h1 h2 h3 h4 && body_okb r''
          | _ => false
          end
        else false
    | [] => false
    end
  else negb (bn c <? 32) && body_okb r.
Proof. reflexivity. Qed.

Lemma esc1_not_u e : esc1 e = true -> Byte.eqb e x75 = false.
Proof. intro H. apply (JsonFacts.eqb_differ esc1). rewrite H. discriminate. Qed.

Lemma body_ok_okb b : body_ok b -> body_okb b = true.
Proof.
  induction 1 as [|e r He _ IH|a b c d r Hh _ IH|c r Q Bs Ct _ IH]; [reflexivity| | |].
  - rewrite body_okb_cons. change (Byte.eqb x5c x22) with false. change (Byte.eqb x5c x5c) with true. cbv iota.
    now rewrite He.
  - rewrite body_okb_cons. change (Byte.eqb x5c x22) with false. change (Byte.eqb x5c x5c) with true. cbv iota.
    change (esc1 x75) with false. change (Byte.eqb x75 x75) with true. cbv iota. now rewrite Hh, IH.
  - rewrite body_okb_cons, Q, Bs, Ct, IH. reflexivity.
Qed.

Lemma body_okb_ok : forall (n : nat) b, (length b <= n)%nat -> body_okb b = true -> body_ok b.
Proof.
  induction n as [|n IH]; intros b L H.
  - destruct b; [constructor | simpl in L; lia].
  - destruct b as [|c r]; [constructor|]. simpl in L. rewrite body_okb_cons in H.
    destruct (Byte.eqb c x22) eqn:Q; [discriminate|].
    destruct (Byte.eqb c x5c) eqn:Bs.
    + apply Byte.byte_dec_bl in Bs. subst c. destruct r as [|e r']; [discriminate|]. simpl in L.
      destruct (esc1 e) eqn:He.
      * apply BO_esc; [exact He|]. apply IH; [lia | exact H].
      * destruct (Byte.eqb e x75) eqn:U; [|discriminate]. apply Byte.byte_dec_bl in U. subst e.
        destruct r' as [|h1 [|h2 [|h3 [|h4 r'']]]]; try discriminate. simpl in L.
        apply andb_prop in H as [Hh Hr]. apply BO_u; [exact Hh|]. apply IH; [lia | exact Hr].
    + apply andb_prop in H as [Ct Hr]. apply BO_plain; try assumption.
      * now destruct (bn c <? 32).
      * apply IH; [lia | exact Hr].
Qed.

Theorem body_okb_iff b : body_okb b = true <-> body_ok b.
Proof. split; [apply (body_okb_ok (length b)), le_n | apply body_ok_okb]. Qed.

(* ---- body_ok is Codec.sbody: both describe what scan_string accepts ---- *)
Lemma high_plain c : (bn c <? 128) = false -> Byte.eqb c x22 = false /\ Byte.eqb c x5c = false /\ (bn c <? 32) = false.
Proof. intro H. apply high_byte in H. tauto. Qed.

Theorem body_ok_sbody b : body_ok b <-> sbody b.
Proof.
  split.
  - induction 1 as [|e r He _ IH|a b c d r Hh _ IH|c r Q Bs Ct _ IH].
    + apply SB_nil.
    + apply SB_esc; [exact He | exact IH].
    + apply SB_u; [exact Hh | exact IH].
    + destruct (bn c <? 128) eqn:A; [apply SB_ascii | apply SB_high]; assumption.
  - induction 1; [constructor | apply BO_esc; assumption | apply BO_u; assumption | apply BO_plain; assumption |].
    match goal with H : (bn ?c <? 128) = false |- _ => destruct (high_plain c H) as (A1 & A2 & A3) end.
    apply BO_plain; assumption.
Qed.

Lemma scan_string_bs e r : scan_string (x5c :: e :: r) =
  if esc1 e then match scan_string r with Some (b, rest) => Some (x5c :: e :: b, rest) | None => None end
  else if Byte.eqb e x75 then
    match r with
    | h1 :: h2 :: h3 :: h4 :: r'' =>
        if hex4b h1 h2 h3 h4 then
          match scan_string r'' with Some (b, rest) => Some (x5c :: e :: h1 :: h2 :: h3 :: h4 :: b, rest) | None => None end
        else None
    | _ => None
    end
  else None.
Proof. exact (scan_string_esc e r). Qed.

Theorem scan_string_body b rest : body_ok b -> scan_string (b ++ x22 :: rest) = Some (b, rest).
Proof.
  induction 1 as [|e r He _ IH|a b c d r Hh _ IH|c r Q Bs Ct _ IH]; [reflexivity| | |]; cbn [app].
  - rewrite scan_string_bs, He, IH. reflexivity.
  - rewrite scan_string_bs. change (esc1 x75) with false. change (Byte.eqb x75 x75) with true. cbv iota.
    rewrite Hh, IH. reflexivity.
  - rewrite scan_string_plain, Ct, IH by assumption. reflexivity.
Qed.

Theorem scan_string_inv s b rest : scan_string s = Some (b, rest) -> body_ok b /\ s = b ++ x22 :: rest.
Proof. intro H. apply scan_string_spec in H as [S E]. split; [apply body_ok_sbody, S | exact E]. Qed.

Definition digits (d : bytes) : bool := forallb is_digit d.
Definition digits1 (d : bytes) : bool := match d with [] => false | _ => digits d end.

Definition int_ok (i : bytes) : bool :=
  match i with
  | c :: d => if Byte.eqb c x30 then match d with [] => true | _ => false end else is_digit19 c && digits d
  | [] => false
  end.

Definition frac_ok (f : bytes) : bool :=
  match f with [] => true | c :: d => Byte.eqb c x2e && digits1 d end.

Definition exp_ok (e : bytes) : bool :=
  match e with
  | [] => true
  | c :: r => is_e c && match r with sg :: r' => if is_sign sg then digits1 r' else digits1 r | [] => false end
  end.

(* minus? int frac? exp? *)
Definition num_ok (lit : bytes) : Prop :=
  exists neg i f e, lit = neg ++ i ++ f ++ e /\ (neg = [] \/ neg = [x2d]) /\
                    int_ok i = true /\ frac_ok f = true /\ exp_ok e = true.

(* the same, decided by running the number reader on the literal alone *)
Definition num_okb (lit : bytes) : bool :=
  match scan_number lit with Some (_, []) => true | _ => false end.

(* a byte that cannot continue a number *)
Definition num_term (c : byte) : bool := nondigit c && notdot c && negb (is_e c).

Lemma hd_ok_app P (a b : bytes) :
  match a with c :: _ => P c = true | [] => hd_ok P b end -> hd_ok P (a ++ b).
Proof. destruct a; auto. Qed.

Lemma hd_ok_weaken (P Q : byte -> bool) s : (forall c, P c = true -> Q c = true) -> hd_ok P s -> hd_ok Q s.
Proof. destruct s; cbn; auto. Qed.

Lemma take_digits_app d rest : digits d = true -> hd_ok nondigit rest -> take_digits (d ++ rest) = (d, rest).
Proof.
  intros D H. induction d as [|c d IH]; cbn [app].
  - destruct rest as [|c r]; [reflexivity|]. rewrite take_digits_cons. cbn in H. unfold nondigit in H.
    destruct (is_digit c); [discriminate | reflexivity].
  - cbn in D. apply andb_prop in D as [Dc Dd]. rewrite take_digits_cons, Dc, (IH Dd). reflexivity.
Qed.

Lemma take_digits_inv s : digits (fst (take_digits s)) = true /\ s = fst (take_digits s) ++ snd (take_digits s).
Proof.
  induction s as [|c r [IH1 IH2]]; [split; reflexivity|]. rewrite take_digits_cons. destruct (is_digit c) eqn:D.
  - cbn [fst snd app digits forallb]. rewrite D. split; [exact IH1 | now rewrite <- IH2].
  - split; reflexivity.
Qed.

Lemma take_digits_inv' s d rest : take_digits s = (d, rest) -> digits d = true /\ s = d ++ rest.
Proof. intro H. pose proof (take_digits_inv s) as K. rewrite H in K. exact K. Qed.

Lemma scan_int_app i rest : int_ok i = true -> hd_ok nondigit rest -> scan_int (i ++ rest) = Some (i, rest).
Proof.
  intros I H. destruct i as [|c d]; [discriminate|]. cbn [int_ok] in I. cbn [app scan_int].
  destruct (Byte.eqb c x30).
  - destruct d; [reflexivity | discriminate].
  - apply andb_prop in I as [I1 I2]. rewrite I1, (take_digits_app d rest I2 H). reflexivity.
Qed.

Lemma scan_int_inv s i s2 : scan_int s = Some (i, s2) -> int_ok i = true /\ s = i ++ s2.
Proof.
  destruct s as [|c r]; [discriminate|]. cbn [scan_int]. destruct (Byte.eqb c x30) eqn:Z.
  - intro H. inversion H; subst. cbn [int_ok]. rewrite Z. split; reflexivity.
  - destruct (is_digit19 c) eqn:D; [|discriminate]. destruct (take_digits r) as [d rest] eqn:T.
    intro H. inversion H; subst. apply take_digits_inv' in T as [T1 T2]. cbn [int_ok]. rewrite Z, D, T1, T2. split; reflexivity.
Qed.

Lemma scan_frac_app f rest : frac_ok f = true -> hd_ok (fun c => nondigit c && notdot c) rest ->
  scan_frac (f ++ rest) = Some (f, rest).
Proof.
  intros F H. destruct f as [|c d]; cbn [app].
  - destruct rest as [|c r]; [reflexivity|]. rewrite scan_frac_cons. cbn in H. apply andb_prop in H as [_ H].
    unfold notdot in H. destruct (Byte.eqb c x2e); [discriminate | reflexivity].
  - cbn [frac_ok] in F. apply andb_prop in F as [F1 F2]. rewrite scan_frac_cons, F1. apply Byte.byte_dec_bl in F1. subst c.
    destruct d as [|d0 d]; [discriminate|]. cbn [digits1] in F2.
    rewrite (take_digits_app (d0 :: d) rest F2); [reflexivity|]. revert H. apply hd_ok_weaken. intros c Hc. now apply andb_prop in Hc.
Qed.

Lemma scan_frac_inv s f s3 : scan_frac s = Some (f, s3) -> frac_ok f = true /\ s = f ++ s3.
Proof.
  destruct s as [|c r]; [intro H; inversion H; split; reflexivity|]. rewrite scan_frac_cons.
  destruct (Byte.eqb c x2e) eqn:Dt.
  - apply Byte.byte_dec_bl in Dt. subst c. destruct (take_digits r) as [[|d0 d] rest] eqn:T; [discriminate|].
    intro H. inversion H; subst. apply take_digits_inv' in T as [T1 T2]. split; [exact T1 | now rewrite T2].
  - intro H. inversion H. split; reflexivity.
Qed.

Lemma scan_exp_app e rest : exp_ok e = true -> hd_ok (fun c => nondigit c && negb (is_e c)) rest ->
  scan_exp (e ++ rest) = Some (e, rest).
Proof.
  intros E H. assert (Hd : hd_ok nondigit rest). { revert H. apply hd_ok_weaken. intros c Hc. now apply andb_prop in Hc. }
  destruct e as [|c r]; cbn [app].
  - destruct rest as [|c r]; [reflexivity|]. rewrite scan_exp_cons. cbn in H. apply andb_prop in H as [_ H].
    destruct (is_e c); [discriminate | reflexivity].
  - cbn [exp_ok] in E. apply andb_prop in E as [E1 E2]. rewrite scan_exp_cons, E1. cbv zeta.
    destruct r as [|sg r']; [discriminate|]. cbn [app]. destruct (is_sign sg) eqn:Sg.
    + destruct r' as [|d0 d]; [discriminate|]. cbn [digits1] in E2. rewrite (take_digits_app (d0 :: d) rest E2 Hd). reflexivity.
    + cbn [digits1] in E2. change (sg :: r' ++ rest) with ((sg :: r') ++ rest). rewrite (take_digits_app (sg :: r') rest E2 Hd). reflexivity.
Qed.

Lemma scan_exp_inv s e s4 : scan_exp s = Some (e, s4) -> exp_ok e = true /\ s = e ++ s4.
Proof.
  destruct s as [|c r]; [intro H; inversion H; split; reflexivity|]. rewrite scan_exp_cons.
  destruct (is_e c) eqn:Ec; [|intro H; inversion H; split; reflexivity]. cbv zeta.
  destruct r as [|sg r''].
  - cbn. discriminate.
  - destruct (is_sign sg) eqn:Sg.
    + destruct (take_digits r'') as [[|d0 d] rest] eqn:T; [discriminate|]. intro H. inversion H; subst.
      apply take_digits_inv' in T as [T1 T2]. cbn [exp_ok app]. rewrite Ec, Sg. split; [exact T1 | now rewrite T2].
    + destruct (take_digits (sg :: r'')) as [[|d0 d] rest] eqn:T; [discriminate|]. intro H. inversion H; subst.
      apply take_digits_inv' in T as [T1 T2].
      assert (d0 = sg) as ->. { now inversion T2. }
      cbn [exp_ok]. rewrite Ec, Sg. split; [exact T1 | now rewrite T2].
Qed.

Lemma int_ok_first i : int_ok i = true -> exists c d, i = c :: d /\ is_digit c = true /\ Byte.eqb c x2d = false.
Proof.
  intro H. pose proof (scan_int_app i [] H I) as S. rewrite app_nil_r in S.
  destruct (scan_int_first _ _ _ S) as (c & d & -> & D). exists c, d. repeat split; [exact D|].
  destruct (Byte.eqb c x2d) eqn:E; [apply Byte.byte_dec_bl in E; subst c; discriminate D | reflexivity].
Qed.

(* the reader reads a literal of the grammar completely, when what follows cannot continue a number *)
Theorem scan_number_lit_app lit rest : num_ok lit -> hd_ok num_term rest -> scan_number (lit ++ rest) = Some (lit, rest).
Proof.
  intros (neg & i & f & e & -> & Hn & Hi & Hf & He) H.
  assert (H3 : hd_ok (fun c => nondigit c && negb (is_e c)) rest).
  { revert H. apply hd_ok_weaken. intros c Hc. unfold num_term in Hc. apply andb_prop in Hc as [Hc1 Hc3]. apply andb_prop in Hc1 as [Hc1 Hc2]. now rewrite Hc1, Hc3. }
  assert (H2 : hd_ok (fun c => nondigit c && notdot c) (e ++ rest)).
  { apply hd_ok_app. destruct e as [|c r].
    - revert H. apply hd_ok_weaken. intros c Hc. unfold num_term in Hc. now apply andb_prop in Hc as [Hc1 Hc3].
    - cbn [exp_ok] in He. apply andb_prop in He as [He _]. apply is_e_facts in He as (A & B & _). now rewrite A, B. }
  assert (H1 : hd_ok nondigit (f ++ e ++ rest)).
  { apply hd_ok_app. destruct f as [|c r].
    - revert H2. apply hd_ok_weaken. intros c Hc. now apply andb_prop in Hc.
    - cbn [frac_ok] in Hf. apply andb_prop in Hf as [Hf _]. apply Byte.byte_dec_bl in Hf. subst c. reflexivity. }
  assert (K : forall s, s = i ++ f ++ e ++ rest ->
     match scan_int s with None => None | Some (i0, s2) => match scan_frac s2 with None => None | Some (f0, s3) =>
       match scan_exp s3 with None => None | Some (e0, s4) => Some (neg ++ i0 ++ f0 ++ e0, s4) end end end
     = Some (neg ++ i ++ f ++ e, rest)).
  { intros s ->. rewrite (scan_int_app i _ Hi H1), (scan_frac_app f _ Hf H2), (scan_exp_app e _ He H3). reflexivity. }
  destruct Hn as [-> | ->].
  - rewrite !app_nil_l. destruct (int_ok_first i Hi) as (c & d & Ei & Dc & Mc). rewrite <- !app_assoc.
    rewrite Ei in *. cbn [app]. rewrite scan_number_cons, Mc. apply (K (c :: d ++ f ++ e ++ rest)). reflexivity.
  - rewrite <- !app_assoc. cbn [app]. rewrite scan_number_cons. change (Byte.eqb x2d x2d) with true. cbv iota.
    apply (K _ eq_refl).
Qed.

Theorem scan_number_inv s lit rest : scan_number s = Some (lit, rest) -> num_ok lit /\ s = lit ++ rest.
Proof.
  destruct s as [|c r]; [discriminate|]. rewrite scan_number_cons.
  destruct (scan_int _) as [[i s2]|] eqn:I; [|discriminate]. destruct (scan_frac s2) as [[f s3]|] eqn:F; [|discriminate].
  destruct (scan_exp s3) as [[e s4]|] eqn:E; [|discriminate]. intro H. inversion H; subst. clear H.
  apply scan_int_inv in I as [I1 I2]. apply scan_frac_inv in F as [F1 F2]. apply scan_exp_inv in E as [E1 E2]. subst s2 s3.
  split.
  - exists (if Byte.eqb c x2d then [x2d] else []), i, f, e. repeat split; try assumption. destruct (Byte.eqb c x2d); auto.
  - destruct (Byte.eqb c x2d) eqn:M.
    + apply Byte.byte_dec_bl in M. subst c. rewrite I2, <- !app_assoc. reflexivity.
    + rewrite I2, <- !app_assoc. reflexivity.
Qed.

Corollary scan_number_whole lit : num_ok lit -> scan_number lit = Some (lit, []).
Proof. intro H. pose proof (scan_number_lit_app lit [] H I) as S. now rewrite app_nil_r in S. Qed.

Theorem num_okb_iff lit : num_okb lit = true <-> num_ok lit.
Proof.
  unfold num_okb. split.
  - destruct (scan_number lit) as [[l [|? ?]]|] eqn:S; try discriminate. intros _.
    apply scan_number_inv in S as [S1 S2]. rewrite app_nil_r in S2. now subst l.
  - intro H. now rewrite (scan_number_whole lit H).
Qed.

Lemma num_ok_lit_ok lit : num_ok lit -> lit_ok lit = true.
Proof. intro H. apply (scan_number_lit lit lit []). now apply scan_number_whole. Qed.

(* the bytes that follow a value in a compact or indented text end a number *)
Lemma num_term_sep c : c = x2c \/ c = x5d \/ c = x7d \/ is_ws c = true -> num_term c = true.
Proof. intros [->|[->|[->|H]]]; try reflexivity. destruct c; try discriminate; reflexivity. Qed.

Fixpoint tok (t : tjson) : Prop :=
  match t with
  | TStr b => body_ok b
  | TNum lit => num_ok lit
  | TArr l => (fix all (l : list tjson) : Prop := match l with [] => True | x :: r => tok x /\ all r end) l
  | TObj ms => (fix all (m : list (bytes * tjson)) : Prop :=
                  match m with [] => True | kv :: r => (body_ok (fst kv) /\ tok (snd kv)) /\ all r end) ms
  | _ => True
  end.

Definition twf (t : tjson) : Prop := tok t /\ Json.tdepth t <= max_depth.

(* the depth of Json.v and the depth of Text.v (which the reader's limit counts) are the same function *)
Lemma tdepth_text t : Json.tdepth t = Text.tdepth t.
Proof. induction t using tjson_rect'; reflexivity. Qed.

Lemma tok_arr l : tok (TArr l) <-> Forall tok l.
Proof. exact (JsonFacts.all_fix_Forall tok l). Qed.

Lemma tok_obj ms : tok (TObj ms) <-> Forall (fun kv => body_ok (fst kv) /\ tok (snd kv)) ms.
Proof. exact (JsonFacts.all_fix_Forall (fun kv => body_ok (fst kv) /\ tok (snd kv)) ms). Qed.

Fixpoint tokb (t : tjson) : bool :=
  match t with
  | TStr b => body_okb b
  | TNum lit => num_okb lit
  | TArr l => forallb tokb l
  | TObj ms => forallb (fun kv => body_okb (fst kv) && tokb (snd kv)) ms
  | _ => true
  end.

Definition twfb (t : tjson) : bool := tokb t && (Json.tdepth t <=? max_depth).

Lemma tokb_iff t : tokb t = true <-> tok t.
Proof.
  induction t as [| | |lit|b|l IH|ms IH] using tjson_rect'; try (split; reflexivity || exact (fun _ => I)).
  - apply num_okb_iff.
  - apply body_okb_iff.
  - rewrite tok_arr. cbn [tokb]. rewrite forallb_forall, Forall_forall. rewrite Forall_forall in IH.
    split; intros H x Hx; apply (IH x Hx), H, Hx.
  - rewrite tok_obj. cbn [tokb]. rewrite forallb_forall, Forall_forall. rewrite Forall_forall in IH.
    split; intros H x Hx.
    + specialize (H x Hx). apply andb_prop in H as [H1 H2]. split; [now apply body_okb_iff | now apply (IH x Hx)].
    + destruct (H x Hx) as [H1 H2]. apply andb_true_intro. split; [now apply body_okb_iff | now apply (IH x Hx)].
Qed.

Theorem twfb_iff t : twfb t = true <-> twf t.
Proof.
  unfold twfb, twf. rewrite andb_true_iff, tokb_iff, N.leb_le. reflexivity.
Qed.

Lemma fold_max_le {A} (g : A -> N) l m :
  fold_right (fun x a => N.max (g x) a) 0 l <= m <-> Forall (fun x => g x <= m) l.
Proof.
  rewrite Forall_forall. split; [|apply maxd_bound].
  intros H x Hx. pose proof (maxd_le g l x Hx) as K. unfold maxd in K. lia.
Qed.

Lemma tdepth_arr_le l d : Json.tdepth (TArr l) <= d <-> (d =? 0) = false /\ Forall (fun v => Json.tdepth v <= d - 1) l.
Proof.
  cbn [Json.tdepth]. rewrite <- (fold_max_le Json.tdepth), N.eqb_neq. lia.
Qed.

Lemma tdepth_obj_le ms d : Json.tdepth (TObj ms) <= d <-> (d =? 0) = false /\ Forall (fun kv => Json.tdepth (snd kv) <= d - 1) ms.
Proof.
  cbn [Json.tdepth]. rewrite <- (fold_max_le (fun kv : bytes * tjson => Json.tdepth (snd kv))), N.eqb_neq. lia.
Qed.

(* a non-empty element list after the opening bracket *)
Lemma arr_open f d r l rest : (d =? 0) = false -> parse_elems f (d - 1) r = Some (l, rest) ->
  parse_value (S f) d (x5b :: r) = Some (TArr l, rest).
Proof.
  intros Z H. rewrite pv_arr, Z. destruct (next_is x5d r) as [r'|] eqn:N; [|now rewrite H].
  apply next_is_Some in N. destruct f; [discriminate|]. rewrite pe_S, (pv_close _ _ _ _ N) in H. discriminate.
Qed.

Lemma obj_open f d r ms rest : (d =? 0) = false -> parse_members f (d - 1) r = Some (ms, rest) ->
  parse_value (S f) d (x7b :: r) = Some (TObj ms, rest).
Proof.
  intros Z H. rewrite pv_obj, Z. destruct (next_is x7d r) as [r'|] eqn:N; [|now rewrite H].
  apply next_is_Some in N. destruct f; [discriminate|]. rewrite pm_S in H. unfold next_is in H. rewrite N in H. discriminate.
Qed.

Definition wsb (w : bytes) : bool := forallb is_ws w.

Lemma skip_ws_app w s : wsb w = true -> skip_ws (w ++ s) = skip_ws s.
Proof.
  induction w as [|c w IH]; [reflexivity|]. cbn [wsb forallb app skip_ws]. intro H. apply andb_prop in H as [H1 H2].
  rewrite H1. apply IH, H2.
Qed.

Lemma next_is_skip k w s : wsb w = true -> next_is k (w ++ s) = next_is k s.
Proof. intro W. unfold next_is. now rewrite skip_ws_app. Qed.

Lemma pv_skip f d w s : wsb w = true -> parse_value f d (w ++ s) = parse_value f d s.
Proof. intro W. rewrite (pv_ws f d (w ++ s)), (pv_ws f d s), skip_ws_app by assumption. reflexivity. Qed.

Lemma pe_skip f d w s : wsb w = true -> parse_elems f d (w ++ s) = parse_elems f d s.
Proof. intro W. destruct f; [reflexivity|]. now rewrite !pe_S, pv_skip. Qed.

Lemma pm_skip f d w s : wsb w = true -> parse_members f d (w ++ s) = parse_members f d s.
Proof. intro W. destruct f; [reflexivity|]. now rewrite !pm_S, next_is_skip. Qed.

Lemma hd_term_ws w c s : wsb w = true -> num_term c = true -> hd_ok num_term (w ++ c :: s).
Proof.
  intros W C. apply hd_ok_app. destruct w as [|a w]; [exact C|]. cbn [wsb forallb] in W. apply andb_prop in W as [W _].
  apply num_term_sep. auto.
Qed.

(* enough fuel to read a value / a list from s; Text.parse_fuel s meets both, and ScannerParse.struct_run is
   stated with the same two bounds *)
Definition fv (f : nat) (s : bytes) : Prop := (2 * length s + 1 <= f)%nat.
Definition fl (f : nat) (s : bytes) : Prop := (2 * length s + 2 <= f)%nat.

(* txt is read as the value v, whatever follows (as long as it does not continue a number) *)
Definition reads (txt : bytes) (v : tjson) : Prop :=
  forall f d rest, Json.tdepth v <= d -> hd_ok num_term rest -> fv f (txt ++ rest) ->
    parse_value f d (txt ++ rest) = Some (v, rest).

Ltac lens := unfold fv, fl in *; repeat (progress (rewrite ?app_length in *; cbn [length] in * )); lia.

Lemma sep_concat_cons2 sep (a b : bytes) m : sep_concat sep (a :: b :: m) = a ++ sep ++ sep_concat sep (b :: m).
Proof. reflexivity. Qed.

(* elements: texts separated by comma + white space, then white space and the closing bracket *)
Lemma elems_read (txt : tjson -> bytes) sepw endw : wsb sepw = true -> wsb endw = true ->
  forall l, l <> [] -> Forall (fun v => reads (txt v) v) l ->
  forall f d rest, Forall (fun v => Json.tdepth v <= d) l ->
    fl f (sep_concat (x2c :: sepw) (map txt l) ++ endw ++ x5d :: rest) ->
    parse_elems f d (sep_concat (x2c :: sepw) (map txt l) ++ endw ++ x5d :: rest) = Some (l, rest).
Proof.
  intros Ws We. induction l as [|v l IH]; [congruence|]. intros _ R f d rest D F.
  inversion R as [|? ? Rv Rl]; subst. inversion D as [|? ? Dv Dl]; subst.
  destruct f as [|f]; [unfold fl in F; lia|]. rewrite pe_S. destruct l as [|v2 l].
  - cbn [map sep_concat] in *. rewrite (Rv f d (endw ++ x5d :: rest) Dv).
    + rewrite next_is_skip by assumption. reflexivity.
    + apply hd_term_ws; [assumption | reflexivity].
    + unfold fv, fl in *. lia.
  - cbn [map] in *. rewrite sep_concat_cons2 in *. rewrite <- !app_assoc in *. cbn [app] in *.
    rewrite (Rv f d _ Dv).
    + change (next_is x5d (x2c :: ?x)) with (@None bytes). change (next_is x2c (x2c :: ?x)) with (Some x). cbv iota.
      rewrite pe_skip by assumption. rewrite (IH ltac:(congruence) Rl f d rest Dl); [reflexivity|].
      lens.
    + exact eq_refl.
    + unfold fv, fl in *. lia.
Qed.

Lemma pm_step f d k colw X : body_ok k -> wsb colw = true ->
  parse_members (S f) d (spell false k ++ x3a :: colw ++ X) =
  match parse_value f d X with
  | None => None
  | Some (v, rest') =>
      match next_is x7d rest' with
      | Some r'' => Some ([(k, v)], r'')
      | None =>
          match next_is x2c rest' with
          | Some r'' => match parse_members f d r'' with Some (ms, rest'') => Some ((k, v) :: ms, rest'') | None => None end
          | None => None
          end
      end
  end.
Proof.
  intros K W. unfold spell. cbn [app]. rewrite <- app_assoc. cbn [app]. rewrite pm_S.
  change (next_is x22 (x22 :: ?x)) with (Some x). cbv iota. rewrite (scan_string_body k _ K).
  change (next_is x3a (x3a :: ?x)) with (Some x). cbv iota. rewrite pv_skip by assumption. reflexivity.
Qed.

Definition member_text (txt : tjson -> bytes) (colw : bytes) (kv : bytes * tjson) : bytes :=
  spell false (fst kv) ++ x3a :: colw ++ txt (snd kv).

Lemma members_read (txt : tjson -> bytes) colw sepw endw : wsb colw = true -> wsb sepw = true -> wsb endw = true ->
  forall ms, ms <> [] -> Forall (fun kv => body_ok (fst kv) /\ reads (txt (snd kv)) (snd kv)) ms ->
  forall f d rest, Forall (fun kv => Json.tdepth (snd kv) <= d) ms ->
    fl f (sep_concat (x2c :: sepw) (map (member_text txt colw) ms) ++ endw ++ x7d :: rest) ->
    parse_members f d (sep_concat (x2c :: sepw) (map (member_text txt colw) ms) ++ endw ++ x7d :: rest) = Some (ms, rest).
Proof.
  intros Wc Ws We. induction ms as [|[k v] ms IH]; [congruence|]. intros _ R f d rest D F.
  inversion R as [|? ? [Kv Rv] Rl]; subst. inversion D as [|? ? Dv Dl]; subst. cbn [fst snd] in *.
  destruct f as [|f]; [unfold fl in F; lia|]. destruct ms as [|kv2 ms].
  - cbn [map sep_concat] in *. unfold member_text in *. cbn [fst snd] in *. rewrite <- !app_assoc in *. cbn [app] in *. rewrite <- !app_assoc in *.
    rewrite pm_step by assumption. rewrite (Rv f d (endw ++ x7d :: rest) Dv).
    + rewrite next_is_skip by assumption. reflexivity.
    + apply hd_term_ws; [assumption | reflexivity].
    + lens.
  - cbn [map] in *. rewrite sep_concat_cons2 in *. unfold member_text at 1. unfold member_text at 1 in F. cbn [fst snd] in *.
    rewrite <- !app_assoc in *. cbn [app] in *. rewrite <- !app_assoc in *.
    rewrite pm_step by assumption. rewrite (Rv f d _ Dv).
    + change (next_is x7d (x2c :: ?x)) with (@None bytes). change (next_is x2c (x2c :: ?x)) with (Some x). cbv iota.
      rewrite pm_skip by assumption. rewrite (IH ltac:(congruence) Rl f d rest Dl); [reflexivity|].
      lens.
    + exact eq_refl.
    + lens.
Qed.

Lemma fv_S f s : fv f s -> exists f', f = S f'.
Proof. unfold fv. destruct f; [lia | eauto]. Qed.

Lemma reads_null : reads (B "null") TNull.
Proof. intros f d rest _ _ F. apply fv_S in F as [f' ->]. reflexivity. Qed.
Lemma reads_true : reads (B "true") TTrue.
Proof. intros f d rest _ _ F. apply fv_S in F as [f' ->]. reflexivity. Qed.
Lemma reads_false : reads (B "false") TFalse.
Proof. intros f d rest _ _ F. apply fv_S in F as [f' ->]. reflexivity. Qed.

Lemma strip_prefix_app p rest : strip_prefix p (p ++ rest) = Some rest.
Proof.
  induction p as [|c p IH]; [destruct rest; reflexivity|]. cbn [app]. rewrite strip_prefix_cons.
  replace (Byte.eqb c c) with true; [exact IH|]. symmetry. apply Byte.byte_dec_lb. reflexivity.
Qed.

Lemma digit_not_special c : is_digit c = true \/ c = x2d -> special c = false.
Proof. intros [H| ->]; [|reflexivity]. destruct c; try discriminate; reflexivity. Qed.

Lemma reads_num lit : num_ok lit -> reads lit (TNum lit).
Proof.
  intros N f d rest _ H F. apply fv_S in F as [f' ->].
  pose proof (scan_number_lit_app lit rest N H) as S.
  destruct (lit_first lit (num_ok_lit_ok lit N)) as (c & r & -> & Hc). cbn [app] in *.
  rewrite pv_num, S; [reflexivity|]. apply digit_not_special. tauto.
Qed.

Lemma reads_str (esc : bool) b : body_ok (if esc then html_escape b else b) ->
  reads (spell esc b) (TStr (if esc then html_escape b else b)).
Proof.
  intros K f d rest _ _ F. apply fv_S in F as [f' ->]. unfold spell. cbn [app]. rewrite <- app_assoc. cbn [app].
  rewrite pv_str, (scan_string_body _ _ K). reflexivity.
Qed.

Lemma reads_empty_arr : reads (B "[]") (TArr []).
Proof.
  intros f d rest D _ F. apply fv_S in F as [f' ->]. apply tdepth_arr_le in D as [Z _].
  change (B "[]" ++ rest) with (x5b :: x5d :: rest). rewrite pv_arr, Z. reflexivity.
Qed.

Lemma reads_empty_obj : reads (B "{}") (TObj []).
Proof.
  intros f d rest D _ F. apply fv_S in F as [f' ->]. apply tdepth_obj_le in D as [Z _].
  change (B "{}" ++ rest) with (x7b :: x7d :: rest). rewrite pv_obj, Z. reflexivity.
Qed.

(* a non-empty array / object laid out with white space w1 after the opening bracket and after
   every comma, w2 before the closing bracket, colw after the colon *)
Lemma reads_arr (txt : tjson -> bytes) w1 w2 l : wsb w1 = true -> wsb w2 = true -> l <> [] ->
  Forall (fun v => reads (txt v) v) l ->
  reads (x5b :: w1 ++ sep_concat (x2c :: w1) (map txt l) ++ w2 ++ [x5d]) (TArr l).
Proof.
  intros W1 W2 Ne R f d rest D _ F. destruct (fv_S _ _ F) as [f' ->]. apply tdepth_arr_le in D as [Z D].
  cbn [app]. rewrite <- !app_assoc. cbn [app]. apply arr_open; [exact Z|]. rewrite pe_skip by assumption.
  apply elems_read; try assumption. clear - F. lens.
Qed.

Lemma reads_obj (txt : tjson -> bytes) colw w1 w2 ms : wsb colw = true -> wsb w1 = true -> wsb w2 = true -> ms <> [] ->
  Forall (fun kv => body_ok (fst kv) /\ reads (txt (snd kv)) (snd kv)) ms ->
  reads (x7b :: w1 ++ sep_concat (x2c :: w1) (map (member_text txt colw) ms) ++ w2 ++ [x7d]) (TObj ms).
Proof.
  intros Wc W1 W2 Ne R f d rest D _ F. destruct (fv_S _ _ F) as [f' ->]. apply tdepth_obj_le in D as [Z D].
  cbn [app]. rewrite <- !app_assoc. cbn [app]. apply obj_open; [exact Z|]. rewrite pm_skip by assumption.
  apply members_read; try assumption. clear - F. lens.
Qed.

Theorem print_reads t : tok t -> reads (print false t) t.
Proof.
  induction t as [| | |lit|b|l IH|ms IH] using tjson_rect'; intro T.
  - apply reads_null.
  - apply reads_true.
  - apply reads_false.
  - apply reads_num, T.
  - apply (reads_str false b), T.
  - destruct l as [|v l]; [apply reads_empty_arr|]. apply tok_arr in T.
    apply (reads_arr (print false) [] [] (v :: l)); try reflexivity; [congruence|].
    rewrite Forall_forall in *. intros x Hx. apply (IH x Hx), T, Hx.
  - destruct ms as [|kv ms]; [apply reads_empty_obj|]. apply tok_obj in T.
    apply (reads_obj (print false) [] [] [] (kv :: ms)); try reflexivity; [congruence|].
    rewrite Forall_forall in *. intros x Hx. destruct (T x Hx) as [T1 T2]. split; [exact T1 | apply (IH x Hx), T2].
Qed.

Lemma parse_of_reads txt t w1 w2 : reads txt t -> Json.tdepth t <= max_depth -> wsb w1 = true -> wsb w2 = true ->
  parse (w1 ++ txt ++ w2) = Some t.
Proof.
  intros R D W1 W2. unfold parse. rewrite pv_skip by assumption. rewrite (R _ max_depth w2 D).
  - pose proof (skip_ws_app w2 [] W2) as E. rewrite app_nil_r in E. rewrite E. reflexivity.
  - destruct w2 as [|c w]; [exact I|]. cbn [wsb forallb] in W2. apply andb_prop in W2 as [W2 _]. apply num_term_sep. auto.
  - unfold parse_fuel. lens.
Qed.

Theorem parse_print_ws t w1 w2 : twf t -> wsb w1 = true -> wsb w2 = true ->
  parse (w1 ++ print false t ++ w2) = Some t.
Proof. intros [T D]. apply parse_of_reads; [apply print_reads, T | exact D]. Qed.

Theorem parse_print t : twf t -> parse (print false t) = Some t.
Proof. intro H. pose proof (parse_print_ws t [] [] H eq_refl eq_refl) as P. now rewrite app_nil_r in P. Qed.

Theorem html_escape_body_ok b : body_ok b -> body_ok (html_escape b).
Proof. rewrite !body_ok_sbody. apply sbody_he. Qed.

Lemma print_true t : print true t = print false (escape_tree true t).
Proof.
  induction t as [| | |lit|b|l IH|ms IH] using tjson_rect'; try reflexivity.
  - rewrite escape_tree_true. cbn [print]. do 3 f_equal. rewrite map_map. apply map_ext_in. intros x Hx.
    rewrite Forall_forall in IH. apply (IH x Hx).
  - rewrite escape_tree_true. cbn [print]. do 3 f_equal. rewrite map_map. apply map_ext_in. intros x Hx.
    rewrite Forall_forall in IH. cbn [fst snd]. rewrite (IH x Hx). reflexivity.
Qed.

Lemma tok_escape t : tok t -> tok (escape_tree true t).
Proof.
  induction t as [| | |lit|b|l IH|ms IH] using tjson_rect'; intro T; try exact T.
  - apply html_escape_body_ok, T.
  - rewrite escape_tree_true. apply tok_arr in T. apply tok_arr. rewrite Forall_forall in *. intros y Hy.
    apply in_map_iff in Hy as (x & <- & Hx). apply (IH x Hx), T, Hx.
  - rewrite escape_tree_true. apply tok_obj in T. apply tok_obj. rewrite Forall_forall in *. intros y Hy.
    apply in_map_iff in Hy as (x & <- & Hx). destruct (T x Hx) as [T1 T2]. cbn [fst snd].
    split; [apply html_escape_body_ok, T1 | apply (IH x Hx), T2].
Qed.

Lemma tdepth_escape t : Json.tdepth (escape_tree true t) = Json.tdepth t.
Proof. rewrite !tdepth_text. apply escape_tree_depth. Qed.

Lemma twf_escape t : twf t -> twf (escape_tree true t).
Proof. intros [T D]. split; [apply tok_escape, T | now rewrite tdepth_escape]. Qed.

Theorem parse_print_esc t : twf t -> parse (print true t) = Some (escape_tree true t).
Proof. intro H. rewrite print_true. apply parse_print, twf_escape, H. Qed.

Theorem parse_print_any esc t : twf t -> parse (print esc t) = Some (escape_tree esc t).
Proof. destruct esc; [apply parse_print_esc | apply parse_print]. Qed.

Lemma tok_tsb t : tok t -> tsb t.
Proof.
  induction t as [| | |lit|b|l IH|ms IH] using tjson_rect'; intro T; try exact I.
  - apply body_ok_sbody, T.
  - apply tok_arr in T. apply tsb_arr. rewrite Forall_forall in *. intros x Hx. apply (IH x Hx), T, Hx.
  - apply tok_obj in T. apply tsb_obj. rewrite Forall_forall in *. intros x Hx. destruct (T x Hx) as [T1 T2].
    split; [apply body_ok_sbody, T1 | apply (IH x Hx), T2].
Qed.

Theorem parse_print_den esc t : twf t -> exists t', parse (print esc t) = Some t' /\ den t' = den t.
Proof.
  intro H. exists (escape_tree esc t). split; [apply parse_print_any, H|].
  destruct esc; [|reflexivity]. apply escape_tree_den, tok_tsb, H.
Qed.

Theorem scan_string_sbody s b rest : scan_string s = Some (b, rest) <-> sbody b /\ s = b ++ x22 :: rest.
Proof.
  split.
  - intro H. apply scan_string_inv in H as [H1 H2]. split; [now apply body_ok_sbody | exact H2].
  - intros [H1 ->]. apply scan_string_body, body_ok_sbody, H1.
Qed.

Lemma parse_value_wf :
  (forall d s t rest, reads_value d s t rest -> tok t /\ Json.tdepth t <= d) /\
  (forall d s l rest, reads_elems d s l rest -> Forall (fun t => tok t /\ Json.tdepth t <= d) l) /\
  (forall d s ms rest, reads_members d s ms rest ->
     Forall (fun kv => body_ok (fst kv) /\ tok (snd kv) /\ Json.tdepth (snd kv) <= d) ms).
Proof.
  destruct (reads_thread (fun _ => True) (fun d t => tok t /\ Json.tdepth t <= d) body_ok) as (A & B & C); try (intros; exact I).
  - intros r b rest Ss _. split; [exact (proj1 (scan_string_inv _ _ _ Ss)) | exact I].
  - intros d s lit rest Sn _. split; [split; [exact (proj1 (scan_number_inv _ _ _ Sn)) | apply N.le_0_l] | exact I].
  - intro d. repeat split; apply N.le_0_l.
  - intros d b H. split; [exact H | apply N.le_0_l].
  - intros d l Z H. split; [apply tok_arr | apply tdepth_arr_le; split; [exact Z|]]; revert H; apply Forall_impl; tauto.
  - intros d ms Z H. split; [apply tok_obj | apply tdepth_obj_le; split; [exact Z|]]; revert H; apply Forall_impl; tauto.
  - split; [|split]; intros d s x rest R; [exact (proj1 (A d s x rest R I)) | exact (proj1 (B d s x rest R I)) | exact (proj1 (C d s x rest R I))].
Qed.

Theorem parse_twf bs t : parse bs = Some t -> twf t.
Proof. intro H. apply parse_reads in H as (rest & R & _). exact (proj1 parse_value_wf _ _ _ _ R). Qed.

Lemma skip_ws_end s : exists w, s = w ++ skip_ws s.
Proof.
  induction s as [|c r [w IH]]; [now exists []|]. cbn [skip_ws]. destruct (is_ws c); [|now exists []].
  exists (c :: w). cbn [app]. now rewrite <- IH.
Qed.

Lemma reads_suffix :
  (forall d s t rest, reads_value d s t rest -> exists pre, s = pre ++ rest) /\
  (forall d s l rest, reads_elems d s l rest -> exists pre, s = pre ++ rest) /\
  (forall d s ms rest, reads_members d s ms rest -> exists pre, s = pre ++ rest).
Proof.
  (* threaded through the derivation: "is an end of big" *)
  assert (K : forall big : bytes, let E := fun a => exists p, big = p ++ a in
            (forall d s t rest, reads_value d s t rest -> E s -> True /\ E rest) /\
            (forall d s l rest, reads_elems d s l rest -> E s -> Forall (fun _ => True) l /\ E rest) /\
            (forall d s ms rest, reads_members d s ms rest -> E s -> Forall (fun _ => True /\ True) ms /\ E rest)).
  { intro big. apply (reads_thread _ (fun _ _ => True) (fun _ => True)); try (intros; exact I).
    - intros s c r W [p ->]. destruct (skip_ws_end s) as [w E]. rewrite W in E. exists (p ++ w). rewrite E at 1. apply app_assoc.
    - intros c r _ [p ->]. exists (p ++ [c]). now rewrite <- app_assoc.
    - intros r b rest Ss [p ->]. apply scan_string_inv in Ss as [_ ->]. split; [exact I|]. exists (p ++ b ++ [x22]). now rewrite <- !app_assoc.
    - intros d s lit rest Sn [p ->]. apply scan_number_inv in Sn as [_ ->]. split; [exact I|]. exists (p ++ lit). apply app_assoc.
    - intro d. repeat split. }
  split; [|split]; intros d s x rest R;
    [apply (proj1 (K s) d s x rest R) | apply (proj1 (proj2 (K s)) d s x rest R) | apply (proj2 (proj2 (K s)) d s x rest R)]; now exists [].
Qed.

Corollary parse_print_parse bs t : parse bs = Some t -> parse (print false t) = Some t.
Proof. intro H. apply parse_print, (parse_twf bs), H. Qed.

Corollary parse_print_parse_esc bs t : parse bs = Some t ->
  exists t', parse (print true t) = Some t' /\ den t' = den t.
Proof. intro H. apply parse_print_den, (parse_twf bs), H. Qed.

Lemma wsb_app a b : wsb (a ++ b) = wsb a && wsb b.
Proof. apply forallb_app. Qed.

Lemma wsb_rep ind k : wsb ind = true -> wsb (rep k ind) = true.
Proof. intro W. induction k as [|k IH]; [reflexivity|]. cbn [rep]. now rewrite wsb_app, W, IH. Qed.

Lemma wsb_nl ind k : wsb ind = true -> wsb (nl ind k) = true.
Proof. intro W. unfold nl. cbn [wsb forallb is_ws]. apply (wsb_rep ind k W). Qed.

Theorem pp_reads ind t : wsb ind = true -> forall k, tok t -> reads (pp false ind k t) t.
Proof.
  intro W. induction t as [| | |lit|b|l IH|ms IH] using tjson_rect'; intros k T.
  - apply reads_null.
  - apply reads_true.
  - apply reads_false.
  - apply reads_num, T.
  - apply (reads_str false b), T.
  - destruct l as [|v l]; [apply reads_empty_arr|]. apply tok_arr in T.
    apply (reads_arr (pp false ind (S k)) (nl ind (S k)) (nl ind k) (v :: l)); try (apply wsb_nl, W); [congruence|].
    rewrite Forall_forall in *. intros x Hx. apply (IH x Hx), T, Hx.
  - destruct ms as [|kv ms]; [apply reads_empty_obj|]. apply tok_obj in T.
    apply (reads_obj (pp false ind (S k)) [x20] (nl ind (S k)) (nl ind k) (kv :: ms)); try (apply wsb_nl, W); [reflexivity | congruence |].
    rewrite Forall_forall in *. intros x Hx. destruct (T x Hx) as [T1 T2]. split; [exact T1 | apply (IH x Hx), T2].
Qed.

Theorem parse_pp ind k t : wsb ind = true -> twf t -> parse (pp false ind k t) = Some t.
Proof.
  intros W [T D]. pose proof (parse_of_reads _ t [] [] (pp_reads ind t W k T) D eq_refl eq_refl) as P.
  now rewrite app_nil_r in P.
Qed.

Lemma pp_true ind t : forall k, pp true ind k t = pp false ind k (escape_tree true t).
Proof.
  induction t as [| | |lit|b|l IH|ms IH] using tjson_rect'; intro k; try reflexivity.
  - rewrite escape_tree_true.
    assert (E : map (pp true ind (S k)) l = map (pp false ind (S k)) (map (escape_tree true) l)).
    { rewrite map_map. apply map_ext_in. intros x Hx. rewrite Forall_forall in IH. apply (IH x Hx). }
    destruct l as [|v l]; [reflexivity|]. cbn [pp map] in E |- *. now rewrite E.
  - rewrite escape_tree_true.
    assert (E : map (fun kv => spell true (fst kv) ++ x3a :: x20 :: pp true ind (S k) (snd kv)) ms =
                map (fun kv => spell false (fst kv) ++ x3a :: x20 :: pp false ind (S k) (snd kv))
                    (map (fun kv => (html_escape (fst kv), escape_tree true (snd kv))) ms)).
    { rewrite map_map. apply map_ext_in. intros x Hx. rewrite Forall_forall in IH. cbn [fst snd]. now rewrite (IH x Hx). }
    destruct ms as [|kv ms]; [reflexivity|]. cbn [pp map] in E |- *. now rewrite E.
Qed.

Theorem parse_pp_esc ind k t : wsb ind = true -> twf t -> parse (pp true ind k t) = Some (escape_tree true t).
Proof. intros W H. rewrite pp_true. apply parse_pp; [exact W | apply twf_escape, H]. Qed.

Definition ex_tree : tjson :=
  TObj [(B "a", TArr [TNum (B "1"); TNum (B "-2.5e+10"); TNum (B "0.0E7"); TStr (B "x<y&z>"); TNull; TTrue; TFalse; TArr []; TObj []]);
        (B "k\n\\", TObj [(B "", TStr [x5c; x75; x32; x30; x32; x38; xe2; x80; xa8; xe2; x80; xe2; x80; xa9; xc3; xa9])]);
        (B "a", TNum (B "-0"))].

Example ex_tree_wf : twf ex_tree.
Proof. apply twfb_iff. vm_compute. reflexivity. Qed.

Example ex_tree_roundtrip : parse (print false ex_tree) = Some ex_tree.
Proof. vm_compute. reflexivity. Qed.

Example ex_tree_roundtrip_esc : parse (print true ex_tree) = Some (escape_tree true ex_tree).
Proof. vm_compute. reflexivity. Qed.

Example ex_tree_pp : parse (pp false (B "  ") 0 ex_tree) = Some ex_tree.
Proof. vm_compute. reflexivity. Qed.

Example ex_tree_pp_tab : parse (pp true [x09] 3 ex_tree) = Some (escape_tree true ex_tree).
Proof. vm_compute. reflexivity. Qed.

(* an indentation that is not white space is not read back *)
Example ex_pp_bad_indent : parse (pp false (B "x") 0 ex_tree) = None.
Proof. vm_compute. reflexivity. Qed.

Example ex_tree_esc_differs : print true ex_tree <> print false ex_tree.
Proof. vm_compute. discriminate. Qed.

(* the hypotheses are needed: ill-formed literals or bodies are not read back *)
Example ex_bad_num : parse (print false (TNum (B "01"))) = None.
Proof. vm_compute. reflexivity. Qed.
Example ex_bad_num2 : parse (print false (TNum (B "1 "))) = Some (TNum (B "1")).
Proof. vm_compute. reflexivity. Qed.
Example ex_bad_str : parse (print false (TStr [x22])) = None.
Proof. vm_compute. reflexivity. Qed.
Example ex_bad_str2 : parse (print false (TArr [TStr (B "a"",""b")])) = Some (TArr [TStr (B "a"); TStr (B "b")]).
Proof. vm_compute. reflexivity. Qed.

Print Assumptions parse_print.
Print Assumptions parse_print_ws.
Print Assumptions parse_print_esc.
Print Assumptions parse_print_den.
Print Assumptions parse_twf.
Print Assumptions parse_print_parse.
Print Assumptions parse_print_parse_esc.
Print Assumptions parse_pp.
Print Assumptions parse_pp_esc.
Print Assumptions body_ok_sbody.
Print Assumptions scan_string_sbody.
Print Assumptions num_okb_iff.
