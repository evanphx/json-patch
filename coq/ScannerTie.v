(* ScannerTie.v — the scanner translated from the CURRENT scanner.go is the reference automaton:
   for every state, every parse-state stack and every byte.  Any behavioural change of scanner.go
   breaks this theorem, and the failing case is a (state, stack top, byte) witness; a rewrite that
   preserves behaviour (inside the subset the translator understands) does not. *)
From JP Require Import Bytes.
From JP.gen Require Import ScannerGen.
From JP Require Import ScannerRef.

Theorem gen_eq_ref : forall s c, step_fn (step s) s c = ref_step s c.
Proof.
  intros [stp et stk er] c.
  destruct stp; destruct c; try reflexivity; destruct stk as [|[] [|q l]]; reflexivity.
Qed.

Theorem eof_eq_ref : forall s,
  negb (snd (scanner_eof s) =? scanError)%Z = ref_accepts_at_eof s.
Proof.
  intros [stp et stk er]. unfold scanner_eof, ref_accepts_at_eof. cbn [err endTop].
  destruct er; [reflexivity|]. destruct et; [reflexivity|].
  rewrite gen_eq_ref. cbn [step].
  destruct (endTop (fst (ref_step (mkScanner stp false stk false) x20))) eqn:E; cbn [snd]; [reflexivity|].
  destruct (negb (err (fst (ref_step (mkScanner stp false stk false) x20)))); reflexivity.
Qed.
