(* AllowEnsureFacts.v — the two options of the v5 model that forgive a missing path:
     AllowMissingPathOnRemove (C13): the skip case, for one operation and for whole patches;
     EnsurePathExistsOnAdd   (C14): the creation clauses (what ensurePathExists builds).
   Everything is stated on the VALUES the model states denote (Abs.aval / ApplySim.sval), against
   the ordered RFC 6902 reference (Rfc6902.v). *)
From Coq Require Import Lia.
From JP Require Import Bytes Json Text Strings Den Pointer Rfc6902 ImplV5 DecodeFacts JsonFacts Abs EqualFacts
                       ImplFacts RefFacts ApplyFacts Depth ApplySim Domain.

(* C13 — AllowMissingPathOnRemove *)

Lemma set_allow_self o : o_allow o = true -> set_allow o true = o.
Proof. destruct o; simpl; intros ->; reflexivity. Qed.

(* the class of the error is determined by the reference's cause *)
Lemma cause_rel_classes cz e : cause_rel cz e ->
  (e = ETestFailed <-> cz = FTest) /\ (cz = FMissingMember \/ cz = FUnreachable -> e = EMissing) /\
  is_copy_limit e = false.
Proof.
  intro H. split; [apply cause_rel_test_iff; exact H|]. split; [apply cause_rel_missing; exact H|].
  eapply cause_rel_not_limit; eauto.
Qed.

(* the token is an array index of the dialect: a canonical non-negative number, or, when negative
   indices are supported, a canonical negative one *)
Definition idx_like (d : dialect) (t : bytes) : bool :=
  match canonical_nat t with
  | Some _ => true
  | None => match canonical_neg t with Some _ => neg_idx d | None => false end
  end.

(* the reference's reasons for which a remove fails that the option forgives: the member is
   absent, an ancestor is absent or is no container, the index (an index of the dialect) is out of
   range.  NOT forgiven: a last token on an array that is no index of the dialect (a name, or a
   negative number while negative indices are off) *)
Definition skip_cause (d : dialect) (key : bytes) (cz : cause) : bool :=
  match cz with
  | FMissingMember | FUnreachable => true
  | FIndex => idx_like d key
  | _ => false
  end.

Lemma ary_remove_allow_none o (ns : list node) t :
  o_allow o = true -> tok_small t -> tok_canonical t ->
  idx_existing (dia o) (Rfc6902.zlen ns) t = None ->
  if idx_like (dia o) t then ary_remove o ns t = Ok ns else ary_remove o ns t = Err EInvalidIndex.
Proof.
  intros Al L Can. unfold idx_existing, idx_like, ary_remove, Rfc6902.zlen, ImplV5.zlen, dia. cbn [neg_idx]. rewrite Al.
  destruct (atoi_canonical t Can) as [[n [Hn [Hk [N0 At]]]]|[k [Hn [Hk [K0 At]]]]]; rewrite Hn, ?Hk.
  - pose proof (proj1 L _ Hn). rewrite At. destruct (Z.leb_spec n int64_max); [|lia].
    destruct (Z.ltb_spec n (Z.of_nat (length ns))); [discriminate|]. intros _.
    destruct (Z.leb_spec (Z.of_nat (length ns)) n); [reflexivity | lia].
  - pose proof (proj2 L _ Hk). destruct At as [At|[B _]]; [rewrite At | lia].
    destruct (Z.leb_spec (Z.of_nat (length ns)) (- k)), (Z.ltb_spec (- k) 0); try lia.
    destruct (o_neg o); cbn [andb negb]; [|reflexivity].
    destruct (Z.leb_spec k (Z.of_nat (length ns))); [discriminate|]. intros _.
    destruct (Z.ltb_spec (- k) (- Z.of_nat (length ns))); [reflexivity | lia].
Qed.

Lemma con_remove_allow_sim o cp key :
  o_allow o = true -> cgood cp -> tok_dom key ->
  match remove_leaf (dia o) (cval cp) key with
  | ROk j' => exists cp', con_remove o cp key = Ok cp' /\ cval cp' = j' /\ cgood cp'
  | RFail cz =>
      if skip_cause (dia o) key cz then con_remove o cp key = Ok cp
      else cz = FIndex /\ exists e, con_remove o cp key = Err e /\ (e = EInvalidIndex \/ e = EAtoi)
  end.
Proof.
  intros Al G D. pose proof (con_remove_sim o cp key G D) as S.
  destruct (remove_leaf (dia o) (cval cp) key) as [j'|cz] eqn:RL; [exact S|]. clear S.
  destruct (cgood_inv cp G) as [(self & keys & obj & -> & Ag & _) | (self & ns & -> & _)].
  - rewrite cval_doc in RL. cbn [remove_leaf] in RL.
    rewrite (amem_abs_members keys obj key Ag) in RL. destruct (amem key obj) eqn:M; [discriminate|]. inversion RL; subst cz.
    cbn [skip_cause con_remove]. rewrite M, Al. reflexivity.
  - rewrite cval_ary in RL. cbn [remove_leaf] in RL. unfold Rfc6902.zlen in RL. rewrite map_length in RL.
    destruct (idx_existing (dia o) (Z.of_nat (length ns)) key) as [i|] eqn:Ei; [discriminate|].
    inversion RL; subst cz. cbn [skip_cause con_remove].
    destruct (tok_dom_cases _ D) as [Can|[A1 [A2 A3]]].
    + pose proof (ary_remove_allow_none o ns key Al (tok_dom_small _ D) Can Ei) as R.
      destruct (idx_like (dia o) key); rewrite R; [reflexivity|]. split; auto. eauto.
    + unfold idx_like. rewrite A2, A3. unfold ary_remove. rewrite A1. split; auto. eauto.
Qed.

(* ---- one remove, option on, path not the empty pointer ---- *)
Theorem op_remove_allow_sim o st op r c :
  s_root st = RCon c -> cgood c -> o_allow o = true ->
  op_str op (B "path") = Ok (x2f :: r) -> Forall tok_dom (map decode_token (split_slash r)) ->
  match at_parent (dia o) (ptoks r) (cval c) (remove_leaf (dia o)) with
  | ROk j' => exists st', op_remove o st op = Ok st' /\ sval st' = j' /\ sgood st' /\ s_acc st' = s_acc st
  | RFail cz =>
      if skip_cause (dia o) (path_key r) cz
      then exists st', op_remove o st op = Ok st' /\ sval st' = sval st /\ sgood st' /\ s_acc st' = s_acc st
      else cz = FIndex /\ exists e, op_remove o st op = Err e /\ (e = EInvalidIndex \/ e = EAtoi)
  end.
Proof.
  intros Hr G Al Hp D.
  pose proof (sval_con st c Hr) as SV.
  pose proof (find_spec o c r (remove_fn o) G D) as FS.
  pose proof (proj2 (dom_split r D)) as Dk.
  rewrite (op_remove_eq o st op _ c Hp Hr), Al.
  unfold ptoks. rewrite at_parent_snoc.
  assert (Fin : forall c2 j, cgood c2 -> cval c2 = j ->
            exists st', Ok (mkState (RCon c2) (s_acc st)) = Ok st' /\ sval st' = j /\ sgood st' /\ s_acc st' = s_acc st).
  { intros c2 j G2 <-. eexists. split; [reflexivity|]. split; [reflexivity|]. split; [exists c2; auto | reflexivity]. }
  destruct (descend (dia o) (map decode_token (path_parts r)) (cval c)) as [p|] eqn:Ed.
  2: { destruct FS as [c' [F1 [F2 F3]]]. rewrite F1. apply Fin; congruence. }
  destruct (is_container p) eqn:Cp.
  2: { destruct FS as [c' [F1 [F2 F3]]]. rewrite F1, (proj1 (proj2 (leaf_noncontainer (dia o) p (path_key r) Cp))).
       apply Fin; congruence. }
  destruct FS as [cp [back [E1 [E2 [E3 E4]]]]]. rewrite E3.
  pose proof (con_remove_allow_sim o cp (path_key r) Al E2 Dk) as CR. rewrite E1 in CR.
  unfold remove_fn. destruct (remove_leaf (dia o) p (path_key r)) as [p'|cz]; cbn [bind].
  - destruct CR as [cp' [R1 [R2 R3]]]. rewrite R1. cbn [fst snd]. destruct (E4 cp' R3) as [F1 F2]. apply Fin; congruence.
  - destruct (skip_cause (dia o) (path_key r) cz).
    + rewrite CR. cbn [fst snd]. destruct (E4 cp E2) as [F1 F2]. apply Fin; [exact F2|].
      rewrite SV, F1, E1. apply rebuild_same. exact Ed.
    + destruct CR as [-> [e [R1 R2]]]. rewrite R1. cbn [fst snd finish]. split; auto. eauto.
Qed.

(* the skip case in plain words: the reference cannot remove (absent member, absent or
   non-container ancestor, index of the dialect out of range) — the operation succeeds, the document
   value and the accumulated copy size are what they were *)
Corollary remove_absent_skipped o st op r c cz :
  s_root st = RCon c -> cgood c -> o_allow o = true ->
  op_str op (B "path") = Ok (x2f :: r) -> Forall tok_dom (map decode_token (split_slash r)) ->
  at_parent (dia o) (ptoks r) (cval c) (remove_leaf (dia o)) = RFail cz ->
  skip_cause (dia o) (path_key r) cz = true ->
  exists st', op_remove o st op = Ok st' /\ sval st' = sval st /\ sgood st' /\ s_acc st' = s_acc st.
Proof.
  intros Hr G Al Hp D AP SC. pose proof (op_remove_allow_sim o st op r c Hr G Al Hp D) as S.
  rewrite AP, SC in S. exact S.
Qed.

(* what the option does not forgive: a last token on an array that is no index of the dialect *)
Corollary remove_bad_index_still_fails o st op r c cz :
  s_root st = RCon c -> cgood c -> o_allow o = true ->
  op_str op (B "path") = Ok (x2f :: r) -> Forall tok_dom (map decode_token (split_slash r)) ->
  at_parent (dia o) (ptoks r) (cval c) (remove_leaf (dia o)) = RFail cz ->
  skip_cause (dia o) (path_key r) cz = false ->
  cz = FIndex /\ exists e, op_remove o st op = Err e /\ (e = EInvalidIndex \/ e = EAtoi).
Proof.
  intros Hr G Al Hp D AP SC. pose proof (op_remove_allow_sim o st op r c Hr G Al Hp D) as S.
  rewrite AP, SC in S. exact S.
Qed.

Lemma leaf_key_slash r : leaf_key (x2f :: r) = path_key r.
Proof. unfold leaf_key. now rewrite split_path_slash. Qed.

(* the operation is a remove that the reference cannot perform, for a forgiven reason *)
Definition absent_remove (d : dialect) (doc : ojson) (op : operation) : bool :=
  match op_kind op with
  | KRemove =>
      match rfc_step d doc (den_op op) with
      | RFail cz => skip_cause d (leaf_key (str_or_empty (op_str op (B "path")))) cz
      | ROk _ => false
      end
  | _ => false
  end.

(* in the stated domain the option is consulted by remove only *)
Lemma step_allow_off_dom o st op :
  op_dom op -> op_kind op <> KRemove -> step (set_allow o false) st op = step o st op.
Proof.
  intros Dop NR. destruct (op_kind op) eqn:Ek; try congruence;
    try (apply step_opts; unfold same_reads, reads_alike; rewrite Ek; repeat split; fail).
  unfold step. rewrite Ek. destruct (op_dom_from op Dop (or_introl Ek)) as (_ & from & _ & _ & Hf & [[rf [-> Df]]| ->]).
  - apply op_move_allow. intros from' Hf'. rewrite Hf in Hf'. inversion Hf'; subst from'.
    rewrite leaf_key_slash. exact (proj1 (proj2 (dom_split rf Df))).
  - unfold op_move. rewrite Hf. reflexivity.
Qed.

Definition allow_opts (o : opts) : Prop := o_allow o = true /\ o_ensure o = false /\ o_limit o = 0%Z.

Lemma allow_opts_off o : allow_opts o -> plain_opts (set_allow o false).
Proof. intros [_ [E L]]. split; [reflexivity|]. split; [exact E | exact L]. Qed.

(* a skipped remove is no copy *)
Lemma absent_remove_fits d doc op : absent_remove d doc op = true -> copy_fits d doc (den_op op) = true.
Proof.
  unfold absent_remove. intro H. apply copy_fits_not_copy. unfold den_op. cbn [rkind].
  destruct (op_kind op); try discriminate H. discriminate.
Qed.

(* the reference with AllowMissingPathOnRemove: a remove that RFC 6902 cannot perform for a forgiven
   reason is skipped *)
Definition skip_step (allow : bool) (d : dialect) (doc : ojson) (op : operation) : Rfc6902.res ojson :=
  if allow && absent_remove d doc op then ROk doc else rfc_step d doc (den_op op).

(* one operation that is not an add with EnsurePathExistsOnAdd on, no limit, any setting of
   AllowMissingPathOnRemove (copy_fits: as in step_sim; the depth check of deepCopy does not consult the option) *)
Theorem step_skip_sim o st op :
  sgood st -> (op_kind op = KAdd -> o_ensure o = false) -> o_limit o = 0%Z -> op_dom op ->
  copy_fits (dia o) (sval st) (den_op op) = true ->
  sim_res (skip_step (o_allow o) (dia o) (sval st) op) (step o st op).
Proof.
  intros G En Lim Dop Fit. unfold skip_step, absent_remove.
  destruct (o_allow o) eqn:Al; cbn [andb];
    [destruct (op_kind op) eqn:Ek|];
    try (apply step_sim_reads; auto; unfold reads_off; destruct (op_kind op); auto; discriminate).
  destruct G as [c [Hr G]]. destruct (op_dom_remove op Dop Ek) as (r & Hp & D).
  pose proof (sval_con st c Hr) as SV.
  pose proof (op_remove_allow_sim o st op r c Hr G Al Hp D) as S.
  rewrite Hp. cbn [str_or_empty]. rewrite leaf_key_slash.
  rewrite (rfc_step_slash _ _ _ _ Hp), Ek, SV. unfold step. rewrite Ek.
  destruct (at_parent (dia o) (ptoks r) (cval c) (remove_leaf (dia o))) as [j'|cz].
  - destruct S as [st' [S1 [S2 [S3 _]]]]. exists st'. auto.
  - destruct (skip_cause (dia o) (path_key r) cz).
    + destruct S as [st' [S1 [S2 [S3 _]]]]. exists st'. rewrite <- SV. auto.
    + destruct S as [-> [e [S1 S2]]]. exists e. split; auto. destruct S2 as [-> | ->]; simpl; auto.
Qed.

Theorem step_allow_sim o st op :
  sgood st -> allow_opts o -> op_dom op ->
  copy_fits (dia o) (sval st) (den_op op) = true ->
  if absent_remove (dia o) (sval st) op
  then exists st', step o st op = Ok st' /\ sval st' = sval st /\ sgood st' /\ s_acc st' = s_acc st
  else match rfc_step (dia o) (sval st) (den_op op) with
       | ROk j' => exists st', step o st op = Ok st' /\ sval st' = j' /\ sgood st'
       | RFail cz => exists e, step o st op = Err e /\ cause_rel cz e
       end.
Proof.
  intros G [Al [En Li]] Dop Fit. pose proof (step_skip_sim o st op G (fun _ => En) Li Dop Fit) as S.
  unfold skip_step in S. rewrite Al in S. cbn [andb] in S.
  destruct (absent_remove (dia o) (sval st) op) eqn:AR; [|exact S].
  destruct S as [st' [S1 [S2 S3]]]. exists st'. repeat split; auto.
  apply (step_acc_noncopy o st op st'); [|exact S1]. unfold absent_remove in AR. destruct (op_kind op); discriminate.
Qed.

(* ---- whole patches: the patch with exactly the skipped removes deleted ---- *)
(* strip follows the run of the REFERENCE and deletes the removes whose target does not resolve at
   that moment; everything else stays (after the first failing operation nothing matters) *)
Fixpoint strip (d : dialect) (doc : ojson) (p : list operation) : list operation :=
  match p with
  | [] => []
  | op :: rest =>
      if absent_remove d doc op then strip d doc rest
      else op :: match rfc_step d doc (den_op op) with
                 | ROk doc' => strip d doc' rest
                 | RFail _ => rest
                 end
  end.

Lemma strip_incl d : forall p doc op, In op (strip d doc p) -> In op p.
Proof.
  induction p as [|op0 p IH]; intros doc op; cbn [strip]; auto.
  destruct (absent_remove d doc op0).
  - intro H. right. eapply IH; eauto.
  - intros [H|H]; [now left|]. right. destruct (rfc_step d doc (den_op op0)); [eapply IH; eauto | exact H].
Qed.

Lemma strip_dom d doc p : Forall op_dom p -> Forall op_dom (strip d doc p).
Proof. rewrite !Forall_forall. intros H op Hin. apply H. eapply strip_incl; eauto. Qed.

Lemma strip_has_copy d doc p : has_copy (strip d doc p) -> has_copy p.
Proof. intros [op [Hin K]]. exists op. split; auto. eapply strip_incl; eauto. Qed.

(* only removes are deleted, and only those the reference cannot perform *)
Lemma strip_keeps d : forall p doc, (forall op, In op p -> absent_remove d doc op = false) ->
  (forall op, In op p -> op_kind op <> KRemove) -> strip d doc p = p.
Proof.
  induction p as [|op p IH]; intros doc H NR; cbn [strip]; auto.
  assert (A : absent_remove d doc op = false).
  { unfold absent_remove. pose proof (NR op (or_introl eq_refl)). destruct (op_kind op); congruence. }
  rewrite A. f_equal. destruct (rfc_step d doc (den_op op)); auto. apply IH.
  - intros op' Hin. unfold absent_remove. pose proof (NR op' (or_intror Hin)). destruct (op_kind op'); congruence.
  - intros op' Hin. apply NR. now right.
Qed.

(* the run that skips, against the run of the stripped patch (strp: strip, given by its equations, so that the
   variant with a switch is an instance): same outcome, at the operation that has the same place in the
   patch (a skipped remove shifts the index); and the side condition on copies carries over *)
Section RunStrip.
  Variables (b : bool) (d : dialect) (strp : ojson -> list operation -> list operation).
  Hypothesis strp_nil : forall doc, strp doc [] = [].
  Hypothesis strp_cons : forall doc op p,
    strp doc (op :: p) = if b && absent_remove d doc op then strp doc p
                      else op :: match rfc_step d doc (den_op op) with ROk doc' => strp doc' p | RFail _ => p end.

  Lemma run_strip : forall p i i' doc,
    match rfc_apply_from d i' doc (map den_op (strp doc p)) with
    | Done doc' => run (skip_step b d) i doc p = Done doc'
    | Failed k cz => exists k1, run (skip_step b d) i doc p = Failed k1 cz /\ (i <= k1)%nat /\ (i' <= k)%nat /\
                       nth_error p (k1 - i) = nth_error (strp doc p) (k - i')
    end.
  Proof.
    induction p as [|op p IH]; intros i i' doc; [rewrite strp_nil; reflexivity|]. rewrite strp_cons. cbn [run].
    change (skip_step b d doc op) with (if b && absent_remove d doc op then ROk doc else rfc_step d doc (den_op op)).
    destruct (b && absent_remove d doc op).
    - specialize (IH (S i) i' doc). destruct (rfc_apply_from d i' doc (map den_op (strp doc p))) as [doc'|k cz]; [exact IH|].
      destruct IH as [k1 [I1 [I2 [I3 I4]]]]. exists k1. split; [exact I1|]. split; [lia|]. split; [exact I3|].
      replace (k1 - i)%nat with (S (k1 - S i))%nat by lia. exact I4.
    - cbn [map rfc_apply_from]. destruct (rfc_step d doc (den_op op)) as [j'|cz].
      + specialize (IH (S i) (S i') j').
        destruct (rfc_apply_from d (S i') j' (map den_op (strp j' p))) as [doc'|k cz]; [exact IH|].
        destruct IH as [k1 [I1 [I2 [I3 I4]]]]. exists k1. split; [exact I1|]. split; [lia|]. split; [lia|].
        replace (k1 - i)%nat with (S (k1 - S i))%nat by lia.
        replace (k - i')%nat with (S (k - S i'))%nat by lia. exact I4.
      + exists i. rewrite !Nat.sub_diag. auto.
  Qed.

  Lemma fits_strip : forall p doc,
    copies_fit d doc (map den_op (strp doc p)) = true ->
    run_fits (skip_step b d) (fun doc op => copy_fits d doc (den_op op)) doc p = true.
  Proof.
    induction p as [|op p IH]; intros doc; [reflexivity|]. rewrite strp_cons. cbn [run_fits].
    change (skip_step b d doc op) with (if b && absent_remove d doc op then ROk doc else rfc_step d doc (den_op op)).
    destruct (b && absent_remove d doc op) eqn:A.
    - intro F. apply andb_prop in A as [_ A]. rewrite (absent_remove_fits d doc op A). exact (IH doc F).
    - cbn [map copies_fit]. intro F. apply andb_prop in F as [F1 F2]. rewrite F1.
      destruct (rfc_step d doc (den_op op)); [exact (IH _ F2) | reflexivity].
  Qed.
End RunStrip.

(* the run with the option on, against the reference run of the stripped patch.
   The depth condition copies_fit is stated on THAT run (the reference run of the stripped patch):
   a skipped remove leaves the document value unchanged, so the run with the option on meets every
   copy at the same document value as the reference run of the stripped patch does *)
Theorem allow_strip_ref o : allow_opts o -> forall p i i' st,
  sgood st -> Forall op_dom p ->
  copies_fit (dia o) (sval st) (map den_op (strip (dia o) (sval st) p)) = true ->
  match rfc_apply_from (dia o) i' (sval st) (map den_op (strip (dia o) (sval st) p)) with
  | Done doc => exists st', apply_from o i st p = AOk st' /\ sval st' = doc /\ sgood st'
  | Failed k cz => exists k1 e, apply_from o i st p = AErr k1 e /\ cause_rel cz e /\
                     (i <= k1)%nat /\ (i' <= k)%nat /\
                     nth_error p (k1 - i) = nth_error (strip (dia o) (sval st) p) (k - i')
  end.
Proof.
  intros [Al [En Lim]] p i i' st G D F.
  pose proof (fun st op G => step_skip_sim o st op G (fun _ => En) Lim) as SS. rewrite Al in SS.
  pose proof (apply_from_sim0 o (gen_run (skip_step true (dia o)) (fun doc op => copy_fits (dia o) doc (den_op op)))
                sgood op_dom SS p i st G D
                (fits_strip true _ (strip (dia o)) (fun _ _ _ => eq_refl) _ _ F)) as S. cbn [rr_run gen_run] in S.
  pose proof (run_strip true (dia o) (strip (dia o)) (fun _ => eq_refl) (fun _ _ _ => eq_refl) p i i' (sval st)) as RS.
  destruct (rfc_apply_from (dia o) i' (sval st) (map den_op (strip (dia o) (sval st) p))) as [doc|k cz].
  - rewrite RS in S. exact S.
  - destruct RS as [k1 [R1 R2]]. rewrite R1 in S. destruct S as [e [S1 S2]]. exists k1, e. auto.
Qed.

(* C13, whole patches: applying P with the option on has the outcome of applying, with the option
   off, P with exactly the skipped removes deleted: both succeed with the same document value, or
   both fail, at the same operation, for the same reference cause *)
Theorem allow_equals_stripped o p i st :
  allow_opts o -> sgood st -> Forall op_dom p ->
  let p' := strip (dia o) (sval st) p in
  copies_fit (dia o) (sval st) (map den_op p') = true ->
  match apply_from (set_allow o false) i st p' with
  | AOk st2 => exists st1, apply_from o i st p = AOk st1 /\ sval st1 = sval st2 /\ sgood st1 /\ sgood st2
  | AErr k e2 => exists k1 e1 cz, apply_from o i st p = AErr k1 e1 /\ cause_rel cz e1 /\ cause_rel cz e2 /\
                   (i <= k1)%nat /\ (i <= k)%nat /\ nth_error p (k1 - i) = nth_error p' (k - i)
  | APanic _ => False
  end.
Proof.
  intros AO G D p' F.
  pose proof (allow_strip_ref o AO p i i st G D F) as A. fold p' in A.
  pose proof (apply_sim (set_allow o false) (allow_opts_off o AO) p' i st G (strip_dom _ _ _ D) F) as B.
  change (dia (set_allow o false)) with (dia o) in B.
  destruct (rfc_apply_from (dia o) i (sval st) (map den_op p')) as [doc|k cz].
  - destruct B as [st2 [B1 [B2 B3]]]. rewrite B1. destruct A as [st1 [A1 [A2 A3]]].
    exists st1. split; auto. split; [congruence|]. auto.
  - destruct B as [e2 [B1 B2]]. rewrite B1. destruct A as [k1 [e1 [A1 [A2 [A3 [A4 A5]]]]]].
    exists k1, e1, cz. auto 10.
Qed.

(* in particular the failed-test sentinel is reported by one run exactly when by the other *)
Corollary allow_equals_stripped_test o p i st k e2 :
  allow_opts o -> sgood st -> Forall op_dom p ->
  copies_fit (dia o) (sval st) (map den_op (strip (dia o) (sval st) p)) = true ->
  apply_from (set_allow o false) i st (strip (dia o) (sval st) p) = AErr k e2 ->
  exists k1 e1, apply_from o i st p = AErr k1 e1 /\ (e1 = ETestFailed <-> e2 = ETestFailed).
Proof.
  intros AO G D F H. pose proof (allow_equals_stripped o p i st AO G D) as T. cbv zeta in T. specialize (T F). rewrite H in T.
  destruct T as [k1 [e1 [cz [T1 [T2 [T3 _]]]]]]. exists k1, e1. split; auto.
  rewrite (cause_rel_test_iff cz e1 T2), (cause_rel_test_iff cz e2 T3). reflexivity.
Qed.

(* the two observations that go with the value-level statement: (1) the walk of a skipped remove
   parses the containers it passes, so a member name spelled with an escape is re-spelled in the
   output (same value, other bytes); (2) with a copy-size limit the re-spelling changes the size a
   later copy is counted with, so the limit error is NOT invariant under stripping (limit settings
   are outside the configurations C13 names; allow_equals_stripped assumes the limit is off) *)
Example skip_respells_bytes :
  match api_decode (B "[{""op"":""remove"",""path"":""/a/zz""}]") with
  | Some p =>
      api_apply (mkOpts false 0 true false false [] None) [] p (B "{""a"":{""x\/y"":1}}") = ROut (B "{""a"":{""x/y"":1}}") /\
      api_apply (mkOpts false 0 false false false [] None) [] [] (B "{""a"":{""x\/y"":1}}") = ROut (B "{""a"":{""x\/y"":1}}")
  | None => False
  end.
Proof. vm_compute. split; reflexivity. Qed.

Example skip_changes_copy_size :
  match api_decode (B "[{""op"":""remove"",""path"":""/a/zz""},{""op"":""copy"",""from"":""/a"",""path"":""/b""}]"),
        api_decode (B "[{""op"":""copy"",""from"":""/a"",""path"":""/b""}]") with
  | Some p, Some p' =>
      api_apply (mkOpts false 9 true false false [] None) [] p (B "{""a"":{""x\/y"":1}}")
        = ROut (B "{""a"":{""x/y"":1},""b"":{""x/y"":1}}") /\
      api_apply (mkOpts false 9 false false false [] None) [] p' (B "{""a"":{""x\/y"":1}}")
        = RErr (Some 0%nat) (ECopyLimit 9 10)
  | _, _ => False
  end.
Proof. vm_compute. split; reflexivity. Qed.

(* C14 — EnsurePathExistsOnAdd *)

Lemma atoi_nondigit c r : is_digit c = false -> c <> x2d -> c <> x2b -> atoi (c :: r) = None.
Proof. intros H1 H2 H3. destruct c; try congruence; try discriminate; reflexivity. Qed.

Lemma pad_nulls_ary o s : forall count ns, (Z.of_nat (length ns + count) <= int64_max)%Z ->
  pad_nulls o (KAry s ns) (length ns) count = KAry s (ns ++ repeat (NRaw TNull) count).
Proof.
  induction count as [|k IH]; intros ns H; cbn [pad_nulls repeat].
  - now rewrite app_nil_r.
  - cbn [con_add]. rewrite ary_add_append by lia.
    replace (S (length ns)) with (length (ns ++ [NRaw TNull])) by (rewrite app_length; simpl; lia).
    rewrite IH by (rewrite app_length; simpl; lia). rewrite <- app_assoc. reflexivity.
Qed.

Lemma ngood_rawnull : ngood (NRaw TNull).
Proof. repeat split. Qed.

(* ---- the reference: what ensurePathExists builds, on values ---- *)
(* the path domain of C14, per decoded token: a member name or a canonical non-negative index
   that fits 64 bits (the token "-" counts as a name here; where it may stand is said below) *)
Definition ctok (t : bytes) : Prop := tok_dom t /\ canonical_neg t = None.

(* the container created for a missing parent: an array when the NEXT token is an index or "-"
   (padded with nulls up to that index), an object otherwise *)
Definition fresh_for (next : bytes) : ojson :=
  if bseq next [x2d] then OArr []
  else match canonical_nat next with
       | Some k => OArr (repeat ONull (Z.to_nat k))
       | None => OObj []
       end.

(* an existing array is padded with nulls up to the index at which the missing parent goes *)
Definition pad_to (j : ojson) (t : bytes) : ojson :=
  match j, canonical_nat t with
  | OArr l, Some n => OArr (l ++ repeat ONull (Z.to_nat n - length l))
  | _, _ => j
  end.

(* creation of the missing parents of the location toks (its last token is left to the add) *)
Fixpoint ens (d : dialect) (toks : list bytes) (j : ojson) {struct toks} : option ojson :=
  match toks with
  | [] => Some j
  | [_] => Some j
  | t :: ((next :: _) as rest) =>
      match child_at d j t with
      | Some c => if is_container c then option_map (put_child d j t) (ens d rest c) else None
      | None =>
          match ens d rest (fresh_for next) with
          | Some c' => match add_leaf d c' (pad_to j t) t with ROk j' => Some j' | RFail _ => None end
          | None => None
          end
      end
  end.

Lemma ens_unfold d t next rest0 j :
  ens d (t :: next :: rest0) j =
  match child_at d j t with
  | Some c => if is_container c then option_map (put_child d j t) (ens d (next :: rest0) c) else None
  | None =>
      match ens d (next :: rest0) (fresh_for next) with
      | Some c' => match add_leaf d c' (pad_to j t) t with ROk j' => Some j' | RFail _ => None end
      | None => None
      end
  end.
Proof. reflexivity. Qed.

(* ---- the model's pieces (ApplyFacts.ensure_step) against the reference's ---- *)
Lemma ctok_cases t : ctok t ->
  (exists n, canonical_nat t = Some n /\ (0 <= n <= int64_max)%Z /\ atoi t = Some n /\ bseq t [x2d] = false) \/
  (atoi t = None /\ canonical_nat t = None).
Proof.
  intros [D Ng]. destruct (tok_dom_cases t D) as [[[n Hn]|[k Hk]]|[A [C1 C2]]].
  - left. exists n. pose proof (proj1 (tok_dom_small t D) n Hn) as Sm.
    pose proof (canonical_nat_digits _ _ Hn) as [_ [N0 _]].
    split; auto. split; [lia|]. split; [apply atoi_canonical_nat; auto | eapply canonical_not_dash; eauto].
  - congruence.
  - right. auto.
Qed.

Lemma pad_model_sim o part c : cgood c -> ctok (decode_token part) ->
  cval (ensure_pad o part c) = pad_to (cval c) (decode_token part) /\ cgood (ensure_pad o part c).
Proof.
  intros G D. unfold ensure_pad. rewrite <- atoi_decode. set (key := decode_token part) in *.
  destruct (ctok_cases key D) as [[n [Hn [Rn [An _]]]]|[An Cn]]; rewrite An.
  2: { split; [|exact G]. unfold pad_to. rewrite Cn. destruct (cval c); reflexivity. }
  destruct (cgood_inv c G) as [(s & ks & ob & -> & _) | (s & ns & -> & Gn)].
  - split; [|exact G]. rewrite cval_doc. reflexivity.
  - rewrite (cval_ary s ns). cbn [pad_to]. rewrite Hn, map_length. unfold ImplV5.zlen.
    destruct (Z.of_nat (length ns) + 1 <=? n)%Z eqn:E.
    + apply Z.leb_le in E. rewrite pad_nulls_ary by lia. rewrite cval_ary, map_app, map_repeat'.
      replace (Z.to_nat n - length ns)%nat with (Z.to_nat (n - Z.of_nat (length ns))) by lia.
      split; [reflexivity|]. apply cgood_ary, Forall_app. split; [exact Gn|]. apply Forall_repeat, ngood_rawnull.
    + apply Z.leb_gt in E. replace (Z.to_nat n - length ns)%nat with 0%nat by lia. cbn [repeat].
      rewrite app_nil_r. split; [apply cval_ary | exact G].
Qed.

Lemma fresh_then_sim o nextp : ctok (decode_token nextp) ->
  exists ch, ensure_fresh o nextp = Some ch /\ cgood ch /\ cval ch = fresh_for (decode_token nextp).
Proof.
  intro D. unfold ensure_fresh, fresh_for. rewrite <- (atoi_decode nextp), <- (dash_decode nextp).
  set (nkey := decode_token nextp) in *.
  destruct (ctok_cases nkey D) as [[n [Hn [Rn [An Bn]]]]|[An Cn]]; rewrite An.
  - rewrite Bn, Hn. cbv zeta.
    replace (n <? 0)%Z with false by (symmetry; apply Z.ltb_ge; lia).
    replace (n <? -1)%Z with false by (symmetry; apply Z.ltb_ge; lia). cbn [andb].
    pose proof (pad_nulls_ary o NNil (Z.to_nat n) []) as P. cbn [length app] in P. rewrite P by (simpl; lia).
    eexists. split; [reflexivity|]. split.
    + apply cgood_ary, Forall_repeat, ngood_rawnull.
    + rewrite cval_ary, map_repeat'. reflexivity.
  - rewrite Cn. destruct (bseq nkey [x2d]).
    + cbv zeta. cbn. exists (KAry NNil []). split; [reflexivity|]. split; [|reflexivity]. apply cgood_ary. constructor.
    + exists (KDoc NNil [] []). split; [reflexivity|]. split; [|reflexivity].
      apply cgood_doc. split; [|split; constructor].
      split; [constructor|]. split; [constructor|]. intro k. reflexivity.
Qed.

(* what is built, in closed form (reference level) *)

(* the container j with x attached at the missing token t: an object gets a new last member; an
   array is padded with nulls up to the index and x appended ("-": appended) *)
Definition grow (j : ojson) (t : bytes) (x : ojson) : ojson :=
  match j with
  | OObj ms => OObj (aset t x ms)
  | OArr l =>
      if bseq t [x2d] then OArr (l ++ [x]) else
      match canonical_nat t with
      | Some n => OArr (l ++ repeat ONull (Z.to_nat n - length l) ++ [x])
      | None => j
      end
  | _ => j
  end.

(* the value built for the missing part toks of a path, holding v at its end: nothing but the path
   and the padding *)
Fixpoint chain (toks : list bytes) (v : ojson) : ojson :=
  match toks with
  | [] => v
  | t :: rest => grow (fresh_for t) t (chain rest v)
  end.

(* t is missing in the container j and can be created there *)
Definition growable (d : dialect) (j : ojson) (t : bytes) : Prop :=
  child_at d j t = None /\
  match j with
  | OObj _ => True
  | OArr _ => t = [x2d] \/ exists n, canonical_nat t = Some n
  | _ => False
  end.

Lemma growable_container d j t : growable d j t -> is_container j = true.
Proof. intros [_ H]. destruct j; try contradiction; reflexivity. Qed.

Lemma aset_aset {A} k (x y : A) m : aset k y (aset k x m) = aset k y m.
Proof.
  induction m as [|[k' v'] m IH]; simpl.
  - now rewrite bseq_refl.
  - destruct (bseq k k') eqn:E; simpl; rewrite E; [reflexivity | now rewrite IH].
Qed.

Lemma grow_arr d l t n : canonical_nat t = Some n -> idx_existing d (Rfc6902.zlen l) t = None ->
  exists l', (forall x, grow (OArr l) t x = OArr (l' ++ [x])) /\
             pad_to (OArr l) t = OArr l' /\ length l' = Z.to_nat n /\ (0 <= n)%Z.
Proof.
  intros Hn Hi. pose proof (canonical_nat_digits _ _ Hn) as [_ [N0 _]].
  unfold idx_existing in Hi. rewrite Hn in Hi. destruct (n <? Rfc6902.zlen l)%Z eqn:E; [discriminate|].
  apply Z.ltb_ge in E. unfold Rfc6902.zlen in E.
  exists (l ++ repeat ONull (Z.to_nat n - length l)). split; [|split; [|split]]; auto.
  - intro x. cbn [grow]. rewrite (canonical_not_dash _ _ Hn), Hn. now rewrite app_assoc.
  - cbn [pad_to]. now rewrite Hn.
  - rewrite app_length, repeat_length. lia.
Qed.

Lemma idx_existing_end d (l' : list ojson) x t n :
  canonical_nat t = Some n -> length l' = Z.to_nat n -> (0 <= n)%Z ->
  idx_existing d (Rfc6902.zlen (l' ++ [x])) t = Some (length l').
Proof.
  intros Hn L N0. unfold idx_existing, Rfc6902.zlen. rewrite Hn, app_length. cbn [length].
  replace (n <? Z.of_nat (length l' + 1))%Z with true by (symmetry; apply Z.ltb_lt; lia). now rewrite L.
Qed.

Lemma attach_grow d j t x : growable d j t -> add_leaf d x (pad_to j t) t = ROk (grow j t x).
Proof.
  intros [Hc Sh]. destruct j as [| | | |l|ms]; try contradiction.
  - destruct Sh as [->|[n Hn]].
    + change (pad_to (OArr l) [x2d]) with (OArr l). change (grow (OArr l) [x2d] x) with (OArr (l ++ [x])).
      cbn [add_leaf]. change (idx_insert d (Rfc6902.zlen l) [x2d]) with (Some (Z.to_nat (Rfc6902.zlen l))). cbv iota.
      unfold Rfc6902.zlen. rewrite Nat2Z.id. now rewrite insert_at_end.
    + cbn [child_at] in Hc. destruct (idx_existing d (Rfc6902.zlen l) t) eqn:Ei; [discriminate|].
      destruct (grow_arr d l t n Hn Ei) as [l' [G1 [G2 [G3 G4]]]]. rewrite G1, G2. cbn [add_leaf].
      unfold idx_insert. rewrite (canonical_not_dash _ _ Hn), Hn. unfold Rfc6902.zlen.
      replace (n <=? Z.of_nat (length l'))%Z with true by (symmetry; apply Z.leb_le; lia).
      now rewrite insert_at_end.
  - reflexivity.
Qed.

Lemma grow_child d j t x : growable d j t -> t <> [x2d] -> child_at d (grow j t x) t = Some x.
Proof.
  intros [Hc Sh] ND. destruct j as [| | | |l|ms]; try contradiction.
  - destruct Sh as [->|[n Hn]]; [congruence|].
    cbn [child_at] in Hc. destruct (idx_existing d (Rfc6902.zlen l) t) eqn:Ei; [discriminate|].
    destruct (grow_arr d l t n Hn Ei) as [l' [G1 [G2 [G3 G4]]]]. rewrite G1. cbn [child_at].
    rewrite (idx_existing_end d l' x t n Hn G3 G4). now rewrite nth_middle.
  - cbn. now rewrite aget_aset_same.
Qed.

Lemma grow_put d j t x y : growable d j t -> t <> [x2d] -> put_child d (grow j t x) t y = grow j t y.
Proof.
  intros [Hc Sh] ND. destruct j as [| | | |l|ms]; try contradiction.
  - destruct Sh as [->|[n Hn]]; [congruence|].
    cbn [child_at] in Hc. destruct (idx_existing d (Rfc6902.zlen l) t) eqn:Ei; [discriminate|].
    destruct (grow_arr d l t n Hn Ei) as [l' [G1 [G2 [G3 G4]]]]. rewrite !G1. cbn [put_child].
    rewrite (idx_existing_end d l' x t n Hn G3 G4). now rewrite set_at_end.
  - cbn. now rewrite aset_aset.
Qed.

Lemma fresh_growable d t : growable d (fresh_for t) t.
Proof.
  unfold fresh_for. destruct (bseq t [x2d]) eqn:B.
  - apply bseq_eq in B. subst t. split; [reflexivity | now left].
  - destruct (canonical_nat t) as [n|] eqn:Hn.
    + pose proof (canonical_nat_digits _ _ Hn) as [_ [N0 _]]. split; [|right; eauto].
      cbn [child_at]. unfold idx_existing, Rfc6902.zlen. rewrite Hn, repeat_length.
      replace (n <? Z.of_nat (Z.to_nat n))%Z with false by (symmetry; apply Z.ltb_ge; lia). reflexivity.
    + split; [reflexivity | exact I].
Qed.

Lemma pad_to_fresh t : pad_to (fresh_for t) t = fresh_for t.
Proof.
  unfold fresh_for. destruct (bseq t [x2d]) eqn:B.
  - apply bseq_eq in B. subst t. reflexivity.
  - destruct (canonical_nat t) as [n|] eqn:Hn; [|reflexivity].
    cbn [pad_to]. rewrite Hn, repeat_length, Nat.sub_diag. cbn [repeat]. now rewrite app_nil_r.
Qed.

(* inside a container created for the path everything is missing and can be created *)
Lemma ens_fresh_some d : forall rest, exists x, ens d rest (fresh_for (hd [] rest)) = Some x.
Proof.
  induction rest as [|t rest IH]; [eexists; reflexivity|].
  destruct rest as [|next rest0]; [eexists; reflexivity|].
  cbn [hd] in *. destruct IH as [c' E]. rewrite ens_unfold.
  rewrite (proj1 (fresh_growable d t)), E, (attach_grow d (fresh_for t) t c' (fresh_growable d t)).
  eexists; reflexivity.
Qed.

Definition nodash (t : bytes) : Prop := t <> [x2d].

(* one missing level, given what the levels below build *)
Lemma step_create d v t rest j c' x :
  rest <> [] -> nodash t -> growable d j t ->
  ens d rest (fresh_for (hd [] rest)) = Some c' -> at_parent d rest c' (add_leaf d v) = ROk x ->
  ens d (t :: rest) j = Some (grow j t c') /\
  at_parent d (t :: rest) (grow j t c') (add_leaf d v) = ROk (grow j t x).
Proof.
  intros NE ND Gr H1 H2. destruct rest as [|next rest0]; [congruence|]. cbn [hd] in H1.
  split.
  - rewrite ens_unfold, (proj1 Gr), H1, (attach_grow d j t c' Gr). reflexivity.
  - rewrite at_parent_cons, (grow_child d j t c' Gr ND), H2. cbn [bind]. now rewrite (grow_put d j t c' x Gr ND).
Qed.

(* a chain of missing levels inside a container created for them *)
Lemma fresh_chain d v : forall rest, rest <> [] -> Forall nodash (removelast rest) ->
  exists c', ens d rest (fresh_for (hd [] rest)) = Some c' /\ at_parent d rest c' (add_leaf d v) = ROk (chain rest v).
Proof.
  induction rest as [|t rest IH]; intros NE ND; [congruence|].
  destruct rest as [|next rest0].
  - exists (fresh_for t). split; [reflexivity|]. cbn [at_parent chain hd].
    rewrite <- (pad_to_fresh t) at 1. apply attach_grow. apply fresh_growable.
  - change (removelast (t :: next :: rest0)) with (t :: removelast (next :: rest0)) in ND.
    inversion ND as [|? ? Nt Nr]; subst.
    destruct (IH ltac:(discriminate) Nr) as [c' [E1 E2]].
    destruct (step_create d v t (next :: rest0) (fresh_for t) c' (chain (next :: rest0) v)
                ltac:(discriminate) Nt (fresh_growable d t) E1 E2) as [S1 S2].
    exists (grow (fresh_for t) t c'). split; [exact S1 | exact S2].
Qed.

Lemma create_here d v t rest j :
  rest <> [] -> Forall nodash (t :: removelast rest) -> growable d j t ->
  exists c', ens d (t :: rest) j = Some (grow j t c') /\
             at_parent d (t :: rest) (grow j t c') (add_leaf d v) = ROk (grow j t (chain rest v)).
Proof.
  intros NE ND Gr. inversion ND as [|? ? Nt Nr]; subst.
  destruct (fresh_chain d v rest NE Nr) as [c' [E1 E2]]. exists c'.
  apply step_create; auto.
Qed.

Lemma child_put_same d j t c x : child_at d j t = Some c -> child_at d (put_child d j t x) t = Some x.
Proof.
  destruct j; try discriminate; cbn [child_at put_child].
  - destruct (idx_existing d (Rfc6902.zlen l) t) as [i|] eqn:E; [|discriminate]. intros _.
    pose proof (idx_existing_lt d l t i E) as L. cbn [child_at].
    unfold Rfc6902.zlen in *. rewrite set_at_length by exact L. rewrite E. now rewrite nth_set_at.
  - intros _. now rewrite aget_aset_same.
Qed.

Lemma put_put d j t c x y : child_at d j t = Some c -> put_child d (put_child d j t x) t y = put_child d j t y.
Proof.
  destruct j; try discriminate; cbn [child_at put_child].
  - destruct (idx_existing d (Rfc6902.zlen l) t) as [i|] eqn:E; [|discriminate]. intros _.
    pose proof (idx_existing_lt d l t i E) as L. cbn [put_child].
    unfold Rfc6902.zlen in *. rewrite set_at_length by exact L. rewrite E. now rewrite set_at_set_at.
  - intros _. now rewrite aset_aset.
Qed.

Lemma descend_rebuild d : forall ps j p x, descend d ps j = Some p -> descend d ps (rebuild d ps j x) = Some x.
Proof.
  induction ps as [|t ps IH]; intros j p x H; cbn [descend rebuild] in *; [reflexivity|].
  destruct (child_at d j t) as [c|] eqn:E; [|discriminate].
  rewrite (child_put_same d j t c _ E). eapply IH; eauto.
Qed.

Lemma rebuild_rebuild d : forall ps j p x y, descend d ps j = Some p ->
  rebuild d ps (rebuild d ps j x) y = rebuild d ps j y.
Proof.
  induction ps as [|t ps IH]; intros j p x y H; cbn [descend rebuild] in *; [reflexivity|].
  destruct (child_at d j t) as [c|] eqn:E; [|discriminate].
  rewrite (child_put_same d j t c _ E), (put_put d j t c _ _ E). f_equal. eapply IH; eauto.
Qed.

Lemma ens_prefix d : forall ps j p t next rest0,
  descend d ps j = Some p -> is_container p = true ->
  ens d (ps ++ t :: next :: rest0) j = option_map (rebuild d ps j) (ens d (t :: next :: rest0) p).
Proof.
  induction ps as [|t0 ps IH]; intros j p t next rest0 H Cp.
  - cbn [descend] in H. inversion H; subst. cbn [app rebuild]. destruct (ens d (t :: next :: rest0) p); reflexivity.
  - cbn [descend] in H. destruct (child_at d j t0) as [c|] eqn:E; [|discriminate].
    pose proof (descend_container d ps c p H Cp) as Cc.
    change ((t0 :: ps) ++ t :: next :: rest0) with (t0 :: (ps ++ t :: next :: rest0)).
    destruct (ps ++ t :: next :: rest0) as [|n1 r1] eqn:Ea; [destruct ps; discriminate|].
    rewrite ens_unfold, E, Cc, <- Ea, (IH c p t next rest0 H Cp). cbn [rebuild]. rewrite E.
    destruct (ens d (t :: next :: rest0) p); reflexivity.
Qed.

(* C14, the creation clauses in closed form: the parents ps exist and lead to the container p, the
   next token t is missing there, rest (not empty) are the tokens after it.  ensurePathExists
   followed by the add yields the document in which p has grown by the chain built for rest *)
Theorem ensure_add_closed d v ps t rest j p :
  descend d ps j = Some p -> growable d p t -> rest <> [] -> Forall nodash (t :: removelast rest) ->
  exists j1, ens d (ps ++ t :: rest) j = Some j1 /\
             at_parent d (ps ++ t :: rest) j1 (add_leaf d v) = ROk (rebuild d ps j (grow p t (chain rest v))).
Proof.
  intros Hd Gr NE ND. destruct (create_here d v t rest p NE ND Gr) as [c' [E1 E2]].
  exists (rebuild d ps j (grow p t c')). split.
  - destruct rest as [|next rest0]; [congruence|].
    rewrite (ens_prefix d ps j p t next rest0 Hd (growable_container d p t Gr)), E1. reflexivity.
  - rewrite at_parent_prefix by discriminate. rewrite (descend_rebuild d ps j p _ Hd), E2. cbn [bind].
    now rewrite (rebuild_rebuild d ps j p _ _ Hd).
Qed.

(* ---- ensurePathExists on the path domain of C14: it reports no error and leaves a good container; where the
   missing parents can be created it has built exactly ens ---- *)
(* no null stands where the walk along toks needs a parent container *)
Definition nullfree (d : dialect) (toks : list bytes) (j : ojson) : Prop :=
  forall ps t rest, toks = ps ++ t :: rest -> rest <> [] -> descend d (ps ++ [t]) j <> Some ONull.

Lemma nullfree_child d t rest j c : child_at d j t = Some c -> nullfree d (t :: rest) j -> nullfree d rest c.
Proof.
  intros E N ps t' rest' -> NE H. apply (N (t :: ps) t' rest' eq_refl NE). cbn [app descend]. rewrite E. exact H.
Qed.

(* where ens is undefined nothing is created and the value stays, unless the walk meets a null: whether the model
   then creates a container in its place depends on how the null is represented (a nil node or a stored raw
   null), which the value does not show *)
Theorem ensure_spec o : forall parts c,
  cgood c -> Forall ctok (map decode_token parts) ->
  exists c1, ensure o parts c = (None, c1) /\ cgood c1 /\
    match ens (dia o) (map decode_token parts) (cval c) with
    | Some j1 => cval c1 = j1
    | None => nullfree (dia o) (map decode_token parts) (cval c) -> cval c1 = cval c
    end.
Proof.
  induction parts as [|part parts IH]; intros c G D; [exists c; cbn; auto|].
  destruct parts as [|nextp rest]; [exists c; cbn; auto|].
  inversion D as [|? ? Dk Dr]; subst. pose proof Dr as Dr'. inversion Dr' as [|? ? Dn _]; subst.
  cbn [map]. rewrite ens_unfold. change (decode_token nextp :: map decode_token rest) with (map decode_token (nextp :: rest)).
  set (toks := map decode_token (nextp :: rest)) in *.
  destruct (ens_fresh_some (dia o) toks) as [x Ex]. change (hd [] toks) with (decode_token nextp) in Ex. rewrite Ex.
  (* the parent is missing (or a null the decoder read): pad, create, recurse into the new container, add it *)
  assert (Create : ensure_present o c (decode_token part) = None ->
            exists c1, ensure o (part :: nextp :: rest) c = (None, c1) /\ cgood c1 /\
              (child_at (dia o) (cval c) (decode_token part) = None ->
               match add_leaf (dia o) x (pad_to (cval c) (decode_token part)) (decode_token part) with
               | ROk j' => cval c1 = j'
               | RFail _ => cval c1 = cval c
               end)).
  { intro EP. rewrite ensure_step, EP.
    destruct (pad_model_sim o part c G Dk) as [P1 P2]. destruct (fresh_then_sim o nextp Dn) as [ch [-> [F1 F2]]].
    destruct (IH ch F1 Dr) as [ch' [E1 [E3 V]]]. rewrite E1. fold toks in V. rewrite F2, Ex in V. subst x.
    pose proof (con_add_sim o (ensure_pad o part c) (decode_token part) (node_of_con ch') P2 (proj1 Dk) (proj1 E3)) as CA.
    fold (cval ch') in CA. rewrite P1 in CA.
    destruct (add_leaf (dia o) (cval ch') (pad_to (cval c) (decode_token part)) (decode_token part)) as [j'|cz] eqn:AL.
    - destruct CA as [cp' [C1 [C2 C3]]]. rewrite C1. exists cp'. auto.
    - destruct CA as [_ [e [C1 _]]]. rewrite C1. exists (ensure_pad o part c). split; [reflexivity|]. split; [exact P2|].
      (* the padding did nothing: otherwise the token were an index and the attachment had succeeded *)
      intro Ech. rewrite P1. unfold pad_to. destruct (canonical_nat (decode_token part)) as [n|] eqn:Cn; [|destruct (cval c); reflexivity].
      destruct (cval c) as [| | | |l|ms] eqn:Ec; try reflexivity. exfalso.
      assert (Gr : growable (dia o) (OArr l) (decode_token part)) by (split; [exact Ech | right; eauto]).
      rewrite (attach_grow (dia o) (OArr l) (decode_token part) _ Gr) in AL. discriminate AL. }
  pose proof (con_get_sim o c (decode_token part) G (proj1 Dk)) as CG.
  destruct (child_at (dia o) (cval c) (decode_token part)) as [j|] eqn:Ech.
  - destruct CG as [n [Hg [Ev Gn]]]. destruct (is_container j) eqn:Cj.
    + (* the parent exists: walk into it *)
      destruct (ensure_into o part nextp rest c j G (proj1 Dk) Ech Cj) as [ch [Gch [Evc [-> Put]]]].
      destruct (IH ch Gch Dr) as [ch' [E1 [E3 V]]]. rewrite E1. eexists. split; [reflexivity|].
      destruct (Put ch' E3) as [Q1 Q2]. split; [exact Q2|]. fold toks in V. rewrite Evc in V. rewrite Q1.
      destruct (ens (dia o) toks j) as [y|]; cbn [option_map]; [now rewrite V|].
      intro N. rewrite (V (nullfree_child _ _ _ _ _ Ech N)). apply put_child_same. exact Ech.
    + (* an existing value that is no container: a nil node is replaced, anything else stops the creation *)
      destruct n as [|tt|ks ob|ns].
      * destruct Create as [c1 [C1 [C2 _]]]; [unfold ensure_present; now rewrite Hg|]. exists c1. split; [exact C1|]. split; [exact C2|].
        intro N. destruct (N [] (decode_token part) toks eq_refl ltac:(discriminate)). cbn. rewrite Ech, <- Ev. reflexivity.
      * rewrite ensure_step. unfold ensure_present. rewrite Hg.
        destruct tt; try (rewrite <- Ev in Cj; discriminate Cj); (exists c; split; [reflexivity | split; [exact G | reflexivity]]).
      * rewrite <- Ev, aval_doc in Cj. discriminate Cj.
      * rewrite <- Ev in Cj. discriminate Cj.
  - destruct CG as [e [Hg _]]. destruct Create as [c1 [C1 [C2 C3]]]; [unfold ensure_present; now rewrite Hg|].
    exists c1. split; [exact C1|]. split; [exact C2|]. specialize (C3 eq_refl).
    destruct (add_leaf (dia o) x _ _); auto.
Qed.

Theorem ensure_sim o : forall parts c j1,
  cgood c -> Forall ctok (map decode_token parts) ->
  ens (dia o) (map decode_token parts) (cval c) = Some j1 ->
  exists c1, ensure o parts c = (None, c1) /\ cval c1 = j1 /\ cgood c1.
Proof. intros parts c j1 G D H. destruct (ensure_spec o parts c G D) as [c1 [E [G1 V]]]. rewrite H in V. eauto. Qed.

Lemma ctok_dom l : Forall ctok l -> Forall tok_dom l.
Proof. intro H. eapply Forall_impl; [|exact H]. intros a [Ha _]. exact Ha. Qed.

(* ---- one add with EnsurePathExistsOnAdd: the reference's add on the document ens built ---- *)
(* an add does not touch the copy-size total *)
Lemma add_sim_acc o st op r :
  sim_res r (op_add o st op) ->
  match r with
  | ROk j' => exists st', op_add o st op = Ok st' /\ sval st' = j' /\ sgood st' /\ s_acc st' = s_acc st
  | RFail cz => exists e, op_add o st op = Err e /\ cause_rel cz e
  end.
Proof.
  destruct r; [|auto]. intros [st' [S1 [S2 S3]]]. exists st'. repeat split; auto. exact (op_add_acc o st op st' S1).
Qed.

Theorem ensure_add_sim o st op r c j1 :
  s_root st = RCon c -> cgood c -> o_ensure o = true ->
  op_str op (B "path") = Ok (x2f :: r) -> Forall ctok (map decode_token (split_slash r)) -> val_good op ->
  ens (dia o) (ptoks r) (cval c) = Some j1 ->
  match at_parent (dia o) (ptoks r) j1 (add_leaf (dia o) (ref_value op)) with
  | ROk j' => exists st', op_add o st op = Ok st' /\ sval st' = j' /\ sgood st' /\ s_acc st' = s_acc st
  | RFail cz => exists e, op_add o st op = Err e /\ cause_rel cz e
  end.
Proof.
  intros Hr G En Hp D Vg H. rewrite ptoks_eq in H.
  destruct (ensure_sim o (split_slash r) c j1 G D H) as [c1 [E1 [E2 E3]]]. rewrite <- ensure_path_slash in E1.
  apply add_sim_acc. rewrite <- E2. exact (ensured_add_sim o st op r c c1 Hr En Hp E1 E3 (ctok_dom _ D) Vg).
Qed.

(* ---- the model: an add with the option on whose parents are missing from some point on ---- *)
Theorem ensure_creates o st op r c ps t rest p :
  s_root st = RCon c -> cgood c -> o_ensure o = true ->
  op_str op (B "path") = Ok (x2f :: r) -> Forall ctok (map decode_token (split_slash r)) -> val_good op ->
  map decode_token (split_slash r) = ps ++ t :: rest ->
  descend (dia o) ps (cval c) = Some p -> growable (dia o) p t -> rest <> [] -> Forall nodash (t :: removelast rest) ->
  exists st', op_add o st op = Ok st' /\
              sval st' = rebuild (dia o) ps (cval c) (grow p t (chain rest (ref_value op))) /\
              sgood st' /\ s_acc st' = s_acc st.
Proof.
  intros Hr G En Hp D Vg Tk Hd Gr NE ND.
  destruct (ensure_add_closed (dia o) (ref_value op) ps t rest (cval c) p Hd Gr NE ND) as [j1 [E1 E2]].
  rewrite <- Tk, <- ptoks_eq in E1, E2.
  pose proof (ensure_add_sim o st op r c j1 Hr G En Hp D Vg E1) as S. rewrite E2 in S. exact S.
Qed.

Definition is_name (t : bytes) : Prop := t <> [x2d] /\ canonical_nat t = None.

Lemma grow_obj_missing ms t x : aget t ms = None -> grow (OObj ms) t x = OObj (ms ++ [(t, x)]).
Proof. intro H. cbn [grow]. f_equal. apply aset_notin. now apply aget_None_notin. Qed.

Lemma grow_arr_index l t n x : canonical_nat t = Some n ->
  grow (OArr l) t x = OArr (l ++ repeat ONull (Z.to_nat n - length l) ++ [x]).
Proof. intro H. cbn [grow]. now rewrite (canonical_not_dash _ _ H), H. Qed.

Lemma chain_name t rest v : is_name t -> chain (t :: rest) v = OObj [(t, chain rest v)].
Proof.
  intros [ND Cn]. cbn [chain]. unfold fresh_for.
  replace (bseq t [x2d]) with false by (symmetry; apply bseq_neq; exact ND). rewrite Cn. reflexivity.
Qed.

Lemma chain_index t n rest v : canonical_nat t = Some n ->
  chain (t :: rest) v = OArr (repeat ONull (Z.to_nat n) ++ [chain rest v]).
Proof.
  intro Hn. cbn [chain]. unfold fresh_for. rewrite (canonical_not_dash _ _ Hn), Hn.
  rewrite (grow_arr_index _ t n _ Hn), repeat_length, Nat.sub_diag. reflexivity.
Qed.

Lemma chain_dash rest v : chain ([x2d] :: rest) v = OArr [chain rest v].
Proof. reflexivity. Qed.

(* a chain of member names builds nested one-member objects *)
Fixpoint obj_chain (toks : list bytes) (v : ojson) : ojson :=
  match toks with
  | [] => v
  | t :: rest => OObj [(t, obj_chain rest v)]
  end.

Lemma chain_names toks v : Forall is_name toks -> chain toks v = obj_chain toks v.
Proof.
  induction toks as [|t toks IH]; intro H; [reflexivity|]. inversion H as [|? ? Ht Hr]; subst.
  rewrite (chain_name t toks v Ht). cbn [obj_chain]. now rewrite IH.
Qed.

Lemma is_name_nodash l : Forall is_name l -> Forall nodash l.
Proof. intro H. eapply Forall_impl; [|exact H]. intros a [Ha _]. exact Ha. Qed.

(* afterwards the added value is found at the path *)

Lemma get_at_child d t rest j c : child_at d j t = Some c -> get_at d (t :: rest) j = get_at d rest c.
Proof.
  destruct j; try discriminate; cbn [child_at get_at].
  - destruct (idx_existing d (Rfc6902.zlen l) t); [|discriminate]. intro H; inversion H; reflexivity.
  - destruct (aget t ms); [|discriminate]. intro H; inversion H; reflexivity.
Qed.

Definition nonneg (t : bytes) : Prop := canonical_neg t = None.

(* the reference's add, then the reference's get: for a last token that is a member name or a
   non-negative index (for "-" the value is the last element of the array instead) *)
Theorem add_then_get d v : forall toks j j2,
  at_parent d toks j (add_leaf d v) = ROk j2 -> nodash (last toks []) -> nonneg (last toks []) ->
  get_at d toks j2 = ROk v.
Proof.
  intros toks j j2 H ND NN. assert (NE : toks <> []) by (intros ->; discriminate H).
  destruct (exists_last NE) as [ps [t ->]]. rewrite last_last in ND, NN.
  rewrite at_parent_snoc in H. rewrite get_at_snoc.
  destruct (descend d ps j) as [p|] eqn:Hd; [|discriminate H].
  destruct (add_leaf d v p t) as [p'|] eqn:AL; [|discriminate H]. injection H as <-.
  rewrite (descend_rebuild d ps j p p' Hd).
  destruct p; try discriminate AL; cbn [add_leaf] in AL.
  - unfold idx_insert in AL. replace (bseq t [x2d]) with false in AL by (symmetry; apply bseq_neq; exact ND).
    unfold nonneg in NN. rewrite NN in AL. destruct (canonical_nat t) as [n|] eqn:Hn; [|discriminate AL].
    pose proof (canonical_nat_digits _ _ Hn) as [_ [N0 _]].
    destruct (n <=? Rfc6902.zlen l)%Z eqn:E; [|discriminate AL]. apply Z.leb_le in E. unfold Rfc6902.zlen in E.
    injection AL as <-. cbn [get_leaf]. unfold idx_existing, Rfc6902.zlen. rewrite Hn.
    rewrite insert_at_length by lia.
    replace (n <? Z.of_nat (S (length l)))%Z with true by (symmetry; apply Z.ltb_lt; lia).
    rewrite nth_insert_at by lia. reflexivity.
  - injection AL as <-. cbn [get_leaf]. now rewrite aget_aset_same.
Qed.

(* the model: after an add with the option on, the reference's lookup of the path in the
   resulting document value yields the added value *)
Theorem ensure_add_found o st op r c j1 st' :
  s_root st = RCon c -> cgood c -> o_ensure o = true ->
  op_str op (B "path") = Ok (x2f :: r) -> Forall ctok (map decode_token (split_slash r)) -> val_good op ->
  ens (dia o) (ptoks r) (cval c) = Some j1 -> nodash (path_key r) ->
  op_add o st op = Ok st' ->
  get_at (dia o) (ptoks r) (sval st') = ROk (ref_value op).
Proof.
  intros Hr G En Hp D Vg H ND Hs.
  pose proof (ensure_add_sim o st op r c j1 Hr G En Hp D Vg H) as S.
  assert (LK : last (ptoks r) [] = path_key r) by (unfold ptoks; apply last_last).
  assert (NN : nonneg (path_key r)).
  { pose proof D as D'. rewrite <- ptoks_eq in D'. unfold ptoks in D'. apply Forall_app in D' as [_ D'].
    inversion D' as [|? ? [_ Ng] _]. exact Ng. }
  destruct (at_parent (dia o) (ptoks r) j1 (add_leaf (dia o) (ref_value op))) as [j'|cz] eqn:AP.
  - destruct S as [st2 [S1 [S2 _]]]. rewrite Hs in S1. inversion S1; subst st2. rewrite S2.
    apply (add_then_get (dia o) (ref_value op) (ptoks r) j1 j' AP); rewrite LK; assumption.
  - destruct S as [e [S1 _]]. rewrite Hs in S1. discriminate.
Qed.

(* when every parent exists nothing is created (the reference-level form of ensure_existing) *)
Lemma ens_all_exist d : forall toks j p,
  descend d (removelast toks) j = Some p -> is_container p = true -> ens d toks j = Some j.
Proof.
  induction toks as [|t toks IH]; intros j p H Cp; [reflexivity|].
  destruct toks as [|next rest0]; [reflexivity|].
  change (removelast (t :: next :: rest0)) with (t :: removelast (next :: rest0)) in H.
  cbn [descend] in H. destruct (child_at d j t) as [c|] eqn:E; [|discriminate].
  pose proof (descend_container d _ c p H Cp) as Cc.
  rewrite ens_unfold, E, Cc, (IH c p H Cp). cbn [option_map]. f_equal. apply put_child_same. exact E.
Qed.

(* frame: what existed before and is not on the path keeps its value *)

Definition is_prefix (q toks : list bytes) : Prop := exists s, toks = q ++ s.

Lemma get_at_ok_child d a q' j x :
  get_at d (a :: q') j = ROk x -> exists ca, child_at d j a = Some ca /\ get_at d q' ca = ROk x.
Proof.
  destruct j; try discriminate; cbn [get_at child_at].
  - destruct (idx_existing d (Rfc6902.zlen l) a); [eauto | destruct q'; discriminate].
  - destruct (aget a ms); [eauto | destruct q'; discriminate].
Qed.

Lemma idx_existing_nonneg d len a ia : nonneg a -> idx_existing d len a = Some ia ->
  exists na, canonical_nat a = Some na /\ (0 <= na < len)%Z /\ ia = Z.to_nat na.
Proof.
  unfold nonneg, idx_existing. intros Ng H. rewrite Ng in H.
  destruct (canonical_nat a) as [na|] eqn:Hn; [|discriminate].
  pose proof (canonical_nat_digits _ _ Hn) as [_ [N0 _]].
  destruct (na <? len)%Z eqn:E; [|discriminate]. apply Z.ltb_lt in E. inversion H. exists na. auto.
Qed.

Lemma child_put_other d j t y a : a <> t -> nonneg a -> nonneg t ->
  child_at d (put_child d j t y) a = child_at d j a.
Proof.
  intros Neq Na Nt. destruct j; try reflexivity; cbn [put_child].
  - destruct (idx_existing d (Rfc6902.zlen l) t) as [i|] eqn:Ei; [|reflexivity].
    pose proof (idx_existing_lt d l t i Ei) as L. cbn [child_at].
    unfold Rfc6902.zlen in *. rewrite set_at_length by exact L.
    destruct (idx_existing d (Z.of_nat (length l)) a) as [ia|] eqn:Ea; [|reflexivity].
    rewrite nth_set_at_other; auto. intro E. subst ia.
    destruct (idx_existing_nonneg _ _ _ _ Na Ea) as [na [Ha [Ra Ia]]].
    destruct (idx_existing_nonneg _ _ _ _ Nt Ei) as [nt [Ht [Rt It]]].
    assert (na = nt) by lia. subst nt. apply Neq. eapply canonical_nat_inj; eauto.
  - cbn [child_at]. apply aget_aset_other. apply bseq_neq. exact Neq.
Qed.

Lemma grow_child_other d j t y a ca :
  growable d j t -> child_at d j a = Some ca -> nonneg a -> child_at d (grow j t y) a = Some ca.
Proof.
  intros [Hc Sh] Ca Na. destruct j as [| | | |l|ms]; try contradiction; cbn [child_at] in *.
  - destruct (idx_existing d (Rfc6902.zlen l) a) as [ia|] eqn:Ea; [|discriminate]. inversion Ca; subst ca.
    destruct (idx_existing_nonneg _ _ _ _ Na Ea) as [na [Ha [Ra Ia]]]. unfold Rfc6902.zlen in Ra.
    assert (G : exists ext, grow (OArr l) t y = OArr (l ++ ext)).
    { cbn [grow]. destruct (bseq t [x2d]) eqn:B; [eauto|]. destruct Sh as [->|[n Hn]]; [discriminate B|]. rewrite Hn. eauto. }
    destruct G as [ext ->]. cbn [child_at]. unfold idx_existing, Rfc6902.zlen. rewrite Ha, app_length.
    replace (na <? Z.of_nat (length l + length ext))%Z with true by (symmetry; apply Z.ltb_lt; lia).
    rewrite <- Ia. rewrite app_nth1 by lia. reflexivity.
  - cbn [grow child_at]. rewrite aget_aset_other; [exact Ca|]. apply bseq_neq. intro E. subst a. congruence.
Qed.

Lemma attach_ok_growable d j t x j1 :
  child_at d j t = None -> nonneg t -> add_leaf d x (pad_to j t) t = ROk j1 -> growable d j t.
Proof.
  intros Hc Nt H. split; [exact Hc|]. destruct j as [| | | |l|ms]; try discriminate; [|exact I].
  destruct (canonical_nat t) as [n|] eqn:Hn; [right; eauto|].
  cbn [pad_to] in H. rewrite Hn in H. cbn [add_leaf] in H. unfold idx_insert in H.
  destruct (bseq t [x2d]) eqn:B; [left; apply bseq_eq; exact B|].
  unfold nonneg in Nt. rewrite Hn, Nt in H. discriminate.
Qed.

(* C14, the frame clause: an add with the option on that had to create at least one parent leaves
   every location q that existed before, and is not a prefix of the path, with its value *)
Theorem creation_frame d v : forall toks j j1 j2,
  Forall nonneg toks -> Forall nodash (removelast toks) ->
  ens d toks j = Some j1 -> at_parent d toks j1 (add_leaf d v) = ROk j2 ->
  descend d (removelast toks) j = None ->
  forall q x, Forall nonneg q -> get_at d q j = ROk x -> ~ is_prefix q toks -> get_at d q j2 = ROk x.
Proof.
  induction toks as [|t toks IH]; intros j j1 j2 NN ND He Ha Hm q x NQ Hq NP.
  - cbn in Hm. discriminate.
  - destruct toks as [|next rest0]; [cbn in Hm; discriminate|].
    change (removelast (t :: next :: rest0)) with (t :: removelast (next :: rest0)) in *.
    inversion NN as [|? ? Nt NN']; subst. inversion ND as [|? ? Dt ND']; subst.
    destruct q as [|a q']; [exfalso; apply NP; exists (t :: next :: rest0); reflexivity|].
    inversion NQ as [|? ? Na NQ']; subst.
    destruct (get_at_ok_child d a q' j x Hq) as [ca [Ca Gq]].
    rewrite ens_unfold in He. cbn [descend] in Hm.
    destruct (child_at d j t) as [c|] eqn:Ec.
    + destruct (is_container c); [|discriminate].
      destruct (ens d (next :: rest0) c) as [c1|] eqn:E1; [|discriminate].
      cbn [option_map] in He. inversion He; subst j1.
      rewrite at_parent_cons, (child_put_same d j t c c1 Ec) in Ha.
      destruct (at_parent d (next :: rest0) c1 (add_leaf d v)) as [c2|] eqn:E2; [|discriminate].
      cbn [bind] in Ha. inversion Ha; subst j2. rewrite (put_put d j t c c1 c2 Ec).
      destruct (bseq a t) eqn:B.
      * apply bseq_eq in B. subst a. rewrite Ec in Ca. inversion Ca; subst ca.
        rewrite (get_at_child d t q' _ c2 (child_put_same d j t c c2 Ec)).
        apply (IH c c1 c2 NN' ND' E1 E2 Hm q' x NQ' Gq). intros [s Hs]. apply NP. exists s. cbn [app]. now rewrite Hs.
      * apply bseq_neq in B. rewrite (get_at_child d a q' _ ca); [exact Gq|]. rewrite child_put_other; auto.
    + destruct (ens d (next :: rest0) (fresh_for next)) as [c'|] eqn:E1; [|discriminate].
      destruct (add_leaf d c' (pad_to j t) t) as [jj|] eqn:E3; [|discriminate]. inversion He; subst jj.
      pose proof (attach_ok_growable d j t c' j1 Ec Nt E3) as Gr.
      rewrite (attach_grow d j t c' Gr) in E3. inversion E3; subst j1.
      rewrite at_parent_cons, (grow_child d j t c' Gr Dt) in Ha.
      destruct (at_parent d (next :: rest0) c' (add_leaf d v)) as [c2|] eqn:E2; [|discriminate].
      cbn [bind] in Ha. inversion Ha; subst j2. rewrite (grow_put d j t c' c2 Gr Dt).
      rewrite (get_at_child d a q' _ ca); [exact Gq|]. apply grow_child_other; auto.
Qed.

(* the model: frame clause for an add with the option on that created at least one parent *)
Theorem ensure_add_frame o st op r c j1 st' :
  s_root st = RCon c -> cgood c -> o_ensure o = true ->
  op_str op (B "path") = Ok (x2f :: r) -> Forall ctok (map decode_token (split_slash r)) -> val_good op ->
  ens (dia o) (ptoks r) (cval c) = Some j1 ->
  Forall nodash (map decode_token (path_parts r)) ->
  descend (dia o) (map decode_token (path_parts r)) (cval c) = None ->
  op_add o st op = Ok st' ->
  forall q x, Forall nonneg q -> get_at (dia o) q (sval st) = ROk x -> ~ is_prefix q (ptoks r) ->
              get_at (dia o) q (sval st') = ROk x.
Proof.
  intros Hr G En Hp D Vg H ND Hm Hs q x NQ Hq NP.
  pose proof (ensure_add_sim o st op r c j1 Hr G En Hp D Vg H) as S.
  pose proof (sval_con st c Hr) as SV. rewrite SV in Hq.
  assert (RL : removelast (ptoks r) = map decode_token (path_parts r)) by (unfold ptoks; apply removelast_last).
  assert (NN : Forall nonneg (ptoks r)).
  { rewrite ptoks_eq. eapply Forall_impl; [|exact D]. intros a [_ Ha]. exact Ha. }
  destruct (at_parent (dia o) (ptoks r) j1 (add_leaf (dia o) (ref_value op))) as [j'|cz] eqn:AP.
  - destruct S as [st2 [S1 [S2 _]]]. rewrite Hs in S1. inversion S1; subst st2. rewrite S2.
    apply (creation_frame (dia o) (ref_value op) (ptoks r) (cval c) j1 j'); auto; rewrite RL; assumption.
  - destruct S as [e [S1 _]]. rewrite Hs in S1. discriminate.
Qed.

(* a concrete instance of the closed form, computed by the model and by the formula *)
Example ensure_closed_form_instance :
  match api_decode (B "[{""op"":""add"",""path"":""/k/3/x~1y/-"",""value"":7}]") with
  | Some p =>
      api_apply (mkOpts false 0 false true false [] None) [] p (B "{""k"":[9],""z"":0}")
        = ROut (B "{""k"":[9,null,null,{""x/y"":[7]}],""z"":0}") /\
      rebuild (mkDialect false) [B "k"] (OObj [(B "k", OArr [ONum (B "9")]); (B "z", ONum (B "0"))])
              (grow (OArr [ONum (B "9")]) (B "3") (chain [B "x/y"; B "-"] (ONum (B "7"))))
        = OObj [(B "k", OArr [ONum (B "9"); ONull; ONull; OObj [(B "x/y", OArr [ONum (B "7")])]]); (B "z", ONum (B "0"))]
  | None => False
  end.
Proof. vm_compute. split; reflexivity. Qed.
