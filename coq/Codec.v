(* Codec.v — the string codec of the embedded encoding/json fork, on the model (Strings.v):
   UTF-8 validity, the decoder as the iteration of one step (ustep; unquoteBytes runs the same step under a
   guard, dstep), the one-step equations of the encoder and of HTML escaping, and the round trips
     unquote (quote esc s) = s            for valid UTF-8 s   (decode after encode is the identity)
     unquote (html_escape b) = unquote b  for string bodies the scanner accepts (escaping never
                                          changes the value)
   and their lift to trees (den/escape_tree); StrInv.v builds the round trip of deepCopy on them. *)
From Coq Require Import Lia.
From JP Require Import Bytes Json Text Strings Den DecodeFacts JsonFacts.
From JP.gen Require Import TablesGen.

Lemma skipn_length_le {A} n (l : list A) : (length (skipn n l) <= length l)%nat.
Proof. rewrite skipn_length. lia. Qed.

Lemma firstn_app_exact {A} n (l Q : list A) : length l = n -> firstn n (l ++ Q) = l /\ skipn n (l ++ Q) = Q.
Proof.
  intro L. subst n. split.
  - rewrite firstn_app, Nat.sub_diag, firstn_all. simpl. apply app_nil_r.
  - rewrite skipn_app, Nat.sub_diag, skipn_all. reflexivity.
Qed.

Lemma cont_high c : cont c = true -> (bn c <? 128) = false.
Proof. unfold cont, in_range. intro H. apply andb_prop in H as [A _]. apply N.leb_le in A. apply N.ltb_ge. lia. Qed.

Lemma in_range_cont lo hi c : (128 <= lo)%N -> (hi <= 191)%N -> in_range lo hi c = true -> cont c = true.
Proof.
  unfold cont, in_range. intros L Hh H. apply andb_prop in H as [A B]. apply N.leb_le in A, B.
  apply andb_true_intro. split; apply N.leb_le; lia.
Qed.

(* a well-formed sequence of n+1 bytes: n continuation bytes follow the first, and the length found
   depends on these n+1 bytes only *)
Lemma utf8_len_S c r n : (bn c <? 128) = false -> utf8_len (c :: r) = S n ->
  length (firstn n r) = n /\ Forall (fun x => cont x = true) (firstn n r) /\
  forall Q, utf8_len (c :: firstn n r ++ Q) = S n.
Proof.
  intros H E. unfold utf8_len in *. rewrite H in *.
  destruct (bn c <? 194); [discriminate|].
  destruct (bn c <? 224).
  { destruct r as [|c1 r]; [discriminate|]. destruct (cont c1) eqn:C; [|discriminate].
    injection E as <-. cbn [firstn app]. rewrite C. repeat constructor. exact C. }
  destruct (bn c <? 240).
  { destruct r as [|c1 [|c2 r]]; try discriminate. destruct (in_range _ _ c1 && cont c2) eqn:C; [|discriminate].
    injection E as <-. cbn [firstn app]. rewrite C. apply andb_prop in C as [C1 C2].
    apply in_range_cont in C1; [|destruct (bn c =? 224); lia | destruct (bn c =? 237); lia]. repeat constructor; assumption. }
  destruct (bn c <? 245); [|discriminate].
  destruct r as [|c1 [|c2 [|c3 r]]]; try discriminate.
  destruct (in_range _ _ c1 && cont c2 && cont c3) eqn:C; [|discriminate].
  injection E as <-. cbn [firstn app]. rewrite C. apply andb_prop in C as [C C3]. apply andb_prop in C as [C1 C2].
  apply in_range_cont in C1; [|destruct (bn c =? 240); lia | destruct (bn c =? 244); lia]. repeat constructor; assumption.
Qed.

Lemma utf8_len_le s : (utf8_len s <= length s)%nat.
Proof.
  destruct s as [|c r]; [apply le_n|]. destruct (bn c <? 128) eqn:H; [unfold utf8_len; rewrite H; simpl; lia|].
  destruct (utf8_len (c :: r)) as [|n] eqn:E; [lia|].
  destruct (utf8_len_S c r n H E) as [L _]. rewrite firstn_length in L. simpl. lia.
Qed.

Lemma utf8_len_prefix c r n Q :
  (bn c <? 128) = false -> utf8_len (c :: r) = S n -> utf8_len (firstn (S n) (c :: r) ++ Q) = S n.
Proof. intros H E. apply (utf8_len_S c r n H E). Qed.

Lemma getu4_hex a b c d r : is_hex a && is_hex b && is_hex c && is_hex d = true ->
  getu4 (x5c :: x75 :: a :: b :: c :: d :: r) = Some (hex4 a b c d).
Proof. intro H. unfold getu4. now rewrite H. Qed.

Lemma getu4_not_backslash c r : Byte.eqb c x5c = false -> getu4 (c :: r) = None.
Proof. intro H. unfold getu4. destruct c; try reflexivity; discriminate. Qed.

Lemma getu4_not_u e r : Byte.eqb e x75 = false -> getu4 (x5c :: e :: r) = None.
Proof. intro H. unfold getu4. destruct e; try reflexivity; discriminate. Qed.

Lemma getu4_some_inv r v : getu4 r = Some v ->
  exists a b c d r2, r = x5c :: x75 :: a :: b :: c :: d :: r2 /\
    is_hex a && is_hex b && is_hex c && is_hex d = true /\ v = hex4 a b c d.
Proof.
  destruct r as [|c0 r]; [discriminate|].
  destruct (Byte.eqb c0 x5c) eqn:E0; [|rewrite getu4_not_backslash by exact E0; discriminate].
  destruct r as [|c1 r]; [apply Byte.byte_dec_bl in E0; subst c0; discriminate|].
  destruct (Byte.eqb c1 x75) eqn:E1; apply Byte.byte_dec_bl in E0; subst c0; [|rewrite getu4_not_u by exact E1; discriminate].
  apply Byte.byte_dec_bl in E1. subst c1. destruct r as [|a [|b [|c [|d r2]]]]; try discriminate. unfold getu4.
  destruct (is_hex a && is_hex b && is_hex c && is_hex d) eqn:H; [|discriminate].
  intro E. injection E as <-. exists a, b, c, d, r2. auto.
Qed.

Lemma getu4_short l : (length l < 6)%nat -> getu4 l = None.
Proof.
  intro H. destruct (getu4 l) eqn:G; [|reflexivity]. apply getu4_some_inv in G as (a & b & c & d & r2 & -> & _).
  simpl in H. lia.
Qed.

(* what encodeState.string writes for one ASCII byte *)
Definition qchar (esc : bool) (c : byte) : bytes :=
  if tbl htmlSafeSet c || (negb esc && tbl safeSet c) then [c]
  else match c with
       | x5c | x22 => [x5c; c]
       | x0a => [x5c; x6e]
       | x0d => [x5c; x72]
       | x09 => [x5c; x74]
       | _ => B "\u00" ++ [hexdigit (bn c / 16); hexdigit (bn c mod 16)]
       end.

(* U+2028 / U+2029 at the head: the last digit of the escape, and the rest *)
Definition is_ls (s : bytes) : option (byte * bytes) :=
  match s with
  | xe2 :: x80 :: xa8 :: r' => Some (x38, r')
  | xe2 :: x80 :: xa9 :: r' => Some (x39, r')
  | _ => None
  end.

(* the same match as quote_go and html_escape have it, over what the branches return *)
Definition ls_match {T} (s : bytes) (f : byte -> bytes -> T) (d : T) : T :=
  match s with xe2 :: x80 :: xa8 :: r' => f x38 r' | xe2 :: x80 :: xa9 :: r' => f x39 r' | _ => d end.

Lemma match_ls {T} (s : bytes) (f : byte -> bytes -> T) (d : T) :
  ls_match s f d = match is_ls s with Some (x, r') => f x r' | None => d end.
Proof.
  unfold ls_match.
  destruct s as [|c r]; [reflexivity|]. destruct c; try reflexivity.
  destruct r as [|c r]; [reflexivity|]. destruct c; try reflexivity.
  destruct r as [|c r]; [reflexivity|]. destruct c; reflexivity.
Qed.

Lemma is_ls_inv s d r' : is_ls s = Some (d, r') ->
  (s = xe2 :: x80 :: xa8 :: r' /\ d = x38) \/ (s = xe2 :: x80 :: xa9 :: r' /\ d = x39).
Proof.
  destruct s as [|a s]; [discriminate|]. destruct a; try discriminate.
  destruct s as [|a s]; [discriminate|]. destruct a; try discriminate.
  destruct s as [|a s]; [discriminate|]. destruct a; try discriminate; intro H; injection H as <- <-; auto.
Qed.

Lemma is_ls_head c r x : is_ls (c :: r) = Some x -> c = xe2.
Proof. destruct x as [d r']. intro L. apply is_ls_inv in L as [[L _]|[L _]]; now injection L. Qed.

Lemma is_ls_shorter s d r' : is_ls s = Some (d, r') -> (length r' < length s)%nat.
Proof. intro L. apply is_ls_inv in L as [[-> _]|[-> _]]; simpl; lia. Qed.

Lemma is_ls_valid c r x : is_ls (c :: r) = Some x -> utf8_len (c :: r) = 3%nat.
Proof. destruct x as [d r']. intro H. apply is_ls_inv in H as [[-> _]|[-> _]]; reflexivity. Qed.

Lemma is_ls_invalid c r : utf8_len (c :: r) = 0%nat -> is_ls (c :: r) = None.
Proof. intro E. destruct (is_ls (c :: r)) eqn:L; [|reflexivity]. apply is_ls_valid in L. congruence. Qed.

(* the escapes of an ASCII byte as quote_go matches them, over what the branches return *)
Definition qesc_match {T} (f h : byte -> T) (n r t : T) (c : byte) : T :=
  match c with x5c | x22 => f c | x0a => n | x0d => r | x09 => t | _ => h c end.

Lemma match_qesc {T} (f h : byte -> T) (n r t : T) c :
  qesc_match f h n r t c =
  if Byte.eqb c x5c || Byte.eqb c x22 then f c
  else if Byte.eqb c x0a then n else if Byte.eqb c x0d then r else if Byte.eqb c x09 then t else h c.
Proof. unfold qesc_match. destruct c; reflexivity. Qed.

Lemma qchar_if esc c :
  qchar esc c =
  if tbl htmlSafeSet c || (negb esc && tbl safeSet c) then [c]
  else if Byte.eqb c x5c || Byte.eqb c x22 then [x5c; c]
  else if Byte.eqb c x0a then [x5c; x6e]
  else if Byte.eqb c x0d then [x5c; x72]
  else if Byte.eqb c x09 then [x5c; x74]
  else [x5c; x75; x30; x30; hexdigit (bn c / 16); hexdigit (bn c mod 16)].
Proof.
  apply (f_equal (fun x => if tbl htmlSafeSet c || (negb esc && tbl safeSet c) then [c] else x)).
  exact (match_qesc (fun c => [x5c; c]) (fun c => B "\u00" ++ [hexdigit (bn c / 16); hexdigit (bn c mod 16)]) _ _ _ c).
Qed.
Arguments qchar : simpl never.

(* The body of Strings.quote_go over an arbitrary continuation k, and the loop written over it.  The loop
   is the model's up to conversion, checked by comparing the two fixpoints once; a step of it unfolds to
   an application of quote_body, whereas a step of quote_go unfolds to a thousand branches that each
   hold the whole fixpoint. *)
Definition quote_body (k : bool -> bytes -> bytes) (esc : bool) (s : bytes) : bytes :=
  match s with
  | [] => []
  | c :: r =>
      if bn c <? 128 then
        if tbl htmlSafeSet c || (negb esc && tbl safeSet c) then c :: k esc r
        else qesc_match (fun c => x5c :: c :: k esc r)
                        (fun c => [x5c; x75; x30; x30; hexdigit (bn c / 16); hexdigit (bn c mod 16)] ++ k esc r)
                        (x5c :: x6e :: k esc r) (x5c :: x72 :: k esc r) (x5c :: x74 :: k esc r) c
      else
        match utf8_len s with
        | O => [x5c; x75; x66; x66; x66; x64] ++ k esc r
        | S n => ls_match s (fun d r' => [x5c; x75; x32; x30; x32; d] ++ k esc r') (firstn (S n) s ++ k esc (skipn (S n) s))
        end
  end.

Fixpoint quote_iter (fuel : nat) (esc : bool) (s : bytes) {struct fuel} : bytes :=
  match fuel with O => [] | S f => quote_body (quote_iter f) esc s end.

Lemma quote_go_iter : quote_go = quote_iter.
Proof. reflexivity. Qed.

Lemma quote_go_S f esc c r :
  quote_go (S f) esc (c :: r) =
  if bn c <? 128 then qchar esc c ++ quote_go f esc r
  else match utf8_len (c :: r) with
       | O => [x5c; x75; x66; x66; x66; x64] ++ quote_go f esc r
       | S n => match is_ls (c :: r) with
                | Some (d, r') => [x5c; x75; x32; x30; x32; d] ++ quote_go f esc r'
                | None => firstn (S n) (c :: r) ++ quote_go f esc (skipn (S n) (c :: r))
                end
       end.
Proof.
  rewrite quote_go_iter. cbn [quote_iter quote_body]. rewrite qchar_if, match_qesc. destruct (bn c <? 128).
  - destruct (tbl htmlSafeSet c || _); [reflexivity|]. destruct (_ || _); [reflexivity|].
    repeat (destruct (Byte.eqb c _); [reflexivity|]). reflexivity.
  - destruct (utf8_len (c :: r)); [reflexivity|]. apply match_ls.
Qed.
Arguments quote_go : simpl never.

Lemma quote_go_fuel : forall f esc s, (length s <= f)%nat -> quote_go f esc s = quote_go (length s) esc s.
Proof.
  intros f esc. revert f.
  assert (F : forall f1 f2 s, (length s <= f1)%nat -> (length s <= f2)%nat -> quote_go f1 esc s = quote_go f2 esc s).
  { induction f1 as [|f1 IH]; intros [|f2] [|c r] L1 L2; try reflexivity; try (simpl in L1, L2; lia).
    assert (R : forall t, (length t <= length r)%nat -> quote_go f1 esc t = quote_go f2 esc t)
      by (intros t Lt; simpl in L1, L2; apply IH; lia).
    rewrite !quote_go_S. destruct (bn c <? 128); [rewrite R by lia; reflexivity|].
    destruct (utf8_len (c :: r)) as [|n]; [rewrite R by lia; reflexivity|].
    destruct (is_ls (c :: r)) as [[d r']|] eqn:L; (rewrite R; [reflexivity|]).
    - apply is_ls_shorter in L. simpl in L. lia.
    - apply (skipn_length_le n). }
  intros f s L. apply F; [exact L | apply le_n].
Qed.

Lemma quote_cons esc c r :
  quote esc (c :: r) =
  if bn c <? 128 then qchar esc c ++ quote esc r
  else match utf8_len (c :: r) with
       | O => [x5c; x75; x66; x66; x66; x64] ++ quote esc r
       | S n => match is_ls (c :: r) with
                | Some (d, r') => [x5c; x75; x32; x30; x32; d] ++ quote esc r'
                | None => firstn (S n) (c :: r) ++ quote esc (skipn (S n) (c :: r))
                end
       end.
Proof.
  unfold quote at 1. cbn [length]. rewrite quote_go_S.
  destruct (bn c <? 128); [reflexivity|]. destruct (utf8_len (c :: r)) as [|n]; [reflexivity|].
  destruct (is_ls (c :: r)) as [[d r']|] eqn:L; (rewrite (quote_go_fuel (length r)); [reflexivity|]).
  - apply is_ls_shorter in L. simpl in L. lia.
  - apply (skipn_length_le n).
Qed.

Lemma quote_ascii esc c r : (bn c <? 128) = true -> quote esc (c :: r) = qchar esc c ++ quote esc r.
Proof. intro H. now rewrite quote_cons, H. Qed.

Lemma quote_invalid esc c r : (bn c <? 128) = false -> utf8_len (c :: r) = 0%nat ->
  quote esc (c :: r) = [x5c; x75; x66; x66; x66; x64] ++ quote esc r.
Proof. intros H E. now rewrite quote_cons, H, E. Qed.

Lemma quote_multi esc c r n :
  (bn c <? 128) = false -> utf8_len (c :: r) = S n ->
  quote esc (c :: r) =
  match is_ls (c :: r) with
  | Some (d, r') => [x5c; x75; x32; x30; x32; d] ++ quote esc r'
  | None => firstn (S n) (c :: r) ++ quote esc (skipn (S n) (c :: r))
  end.
Proof. intros H E. now rewrite quote_cons, H, E. Qed.

(* ---- valid UTF-8, as the walk of DecodeRune ---- *)
Inductive utf8 : bytes -> Prop :=
| U_nil : utf8 []
| U_ascii c r : (bn c <? 128) = true -> utf8 r -> utf8 (c :: r)
| U_multi c r n : (bn c <? 128) = false -> utf8_len (c :: r) = S n -> utf8 (skipn (S n) (c :: r)) -> utf8 (c :: r).

Lemma utf8_tail c r : (bn c <? 128) = true -> utf8 (c :: r) -> utf8 r.
Proof. intros H U. inversion U; subst; [assumption | congruence]. Qed.

(* what holds of the empty text and is kept by every chunk the encoder writes holds of all it writes *)
Lemma quote_chunks esc (P : bytes -> Prop) :
  P [] ->
  (forall c Q, (bn c <? 128) = true -> P Q -> P (qchar esc c ++ Q)) ->
  (forall Q, P Q -> P ([x5c; x75; x66; x66; x66; x64] ++ Q)) ->
  (forall d Q, d = x38 \/ d = x39 -> P Q -> P ([x5c; x75; x32; x30; x32; d] ++ Q)) ->
  (forall c r n Q, (bn c <? 128) = false -> utf8_len (c :: r) = S n -> is_ls (c :: r) = None -> P Q ->
     P (firstn (S n) (c :: r) ++ Q)) ->
  forall s, P (quote esc s).
Proof.
  intros P0 Pa Pi Pl Pm s. remember (length s) as k eqn:L. assert (Le : (length s <= k)%nat) by lia. clear L.
  revert s Le. induction k as [|k IH]; intros [|c r] Le; try exact P0; [simpl in Le; lia|]. simpl in Le.
  rewrite quote_cons. destruct (bn c <? 128) eqn:H; [apply Pa; [exact H | apply IH; lia]|].
  destruct (utf8_len (c :: r)) as [|n] eqn:E; [apply Pi; apply IH; lia|].
  destruct (is_ls (c :: r)) as [[d r']|] eqn:Ls.
  - apply is_ls_inv in Ls as [[Ls ->]|[Ls ->]]; injection Ls as -> ->; (apply Pl; [auto | apply IH; simpl in Le; lia]).
  - apply (Pm c r n _ H E Ls). apply IH. pose proof (skipn_length_le n r). simpl. lia.
Qed.

(* ---- valid UTF-8: what EncodeRune writes, the replacement character, a copied sequence ---- *)
Lemma utf8_chunk c r n Q : (bn c <? 128) = false -> utf8_len (c :: r) = S n -> utf8 Q ->
  utf8 (firstn (S n) (c :: r) ++ Q).
Proof.
  intros H E U. destruct (utf8_len_S c r n H E) as (L & _ & P). cbn [firstn app].
  apply (U_multi c _ n H (P Q)). cbn [skipn]. now rewrite (proj2 (firstn_app_exact n _ Q L)).
Qed.

Lemma replacement_utf8 rest : utf8 rest -> utf8 (replacement ++ rest).
Proof. intro U. apply (U_multi xef (xbf :: xbd :: rest) 2%nat); [reflexivity | reflexivity | exact U]. Qed.

From Coq Require Import ZifyN ZifyBool.

Lemma utf8_nb2 a b rest : 194 <= a < 224 -> 128 <= b <= 191 -> utf8 rest -> utf8 (nb a :: nb b :: rest).
Proof.
  intros A B U. apply (U_multi _ _ 1%nat); [rewrite bn_nb; lia | | exact U].
  unfold utf8_len, cont, in_range. rewrite !bn_nb by lia.
  replace (a <? 128) with false by lia. replace (a <? 194) with false by lia. replace (a <? 224) with true by lia.
  replace ((128 <=? b) && (b <=? 191)) with true by lia. reflexivity.
Qed.

Lemma utf8_nb3 a b c rest :
  224 <= a < 240 -> 128 <= b <= 191 -> (a = 224 -> 160 <= b) -> (a = 237 -> b <= 159) -> 128 <= c <= 191 ->
  utf8 rest -> utf8 (nb a :: nb b :: nb c :: rest).
Proof.
  intros A B Lo Hi C U. apply (U_multi _ _ 2%nat); [rewrite bn_nb; lia | | exact U].
  unfold utf8_len, cont, in_range. rewrite !bn_nb by lia.
  replace (a <? 128) with false by lia. replace (a <? 194) with false by lia. replace (a <? 224) with false by lia.
  replace (a <? 240) with true by lia. replace ((128 <=? c) && (c <=? 191)) with true by lia.
  replace ((_ <=? b) && (b <=? _)) with true by (destruct (a =? 224) eqn:?; destruct (a =? 237) eqn:?; lia). reflexivity.
Qed.

Lemma utf8_nb4 a b c d rest :
  240 <= a < 245 -> 128 <= b <= 191 -> (a = 240 -> 144 <= b) -> (a = 244 -> b <= 143) -> 128 <= c <= 191 ->
  128 <= d <= 191 -> utf8 rest -> utf8 (nb a :: nb b :: nb c :: nb d :: rest).
Proof.
  intros A B Lo Hi C D U. apply (U_multi _ _ 3%nat); [rewrite bn_nb; lia | | exact U].
  unfold utf8_len, cont, in_range. rewrite !bn_nb by lia.
  replace (a <? 128) with false by lia. replace (a <? 194) with false by lia. replace (a <? 224) with false by lia.
  replace (a <? 240) with false by lia. replace (a <? 245) with true by lia.
  replace ((128 <=? c) && (c <=? 191)) with true by lia. replace ((128 <=? d) && (d <=? 191)) with true by lia.
  replace ((_ <=? b) && (b <=? _)) with true by (destruct (a =? 240) eqn:?; destruct (a =? 244) eqn:?; lia). reflexivity.
Qed.

Lemma encode_rune_utf8 v rest :
  (v < 1114112)%N -> is_surrogate v = false -> utf8 rest -> utf8 (encode_rune v ++ rest).
Proof.
  intros Hv Hs U. unfold encode_rune, is_surrogate in *.
  destruct (v <? 128) eqn:E1; [apply U_ascii; [rewrite bn_nb by lia; exact E1 | exact U]|].
  destruct (v <? 2048) eqn:E2; [|destruct (v <? 65536) eqn:E3]; cbn [app].
  - apply utf8_nb2; try exact U; zify; Z.div_mod_to_equations; lia.
  - apply utf8_nb3; try exact U; zify; Z.div_mod_to_equations; lia.
  - apply utf8_nb4; try exact U; zify; Z.div_mod_to_equations; lia.
Qed.

Lemma hexval_lt a : is_hex a = true -> (hexval a < 16)%N.
Proof.
  unfold is_hex, hexval. intro H. destruct (is_digit a) eqn:D; [unfold is_digit in D; lia|].
  destruct ((97 <=? bn a) && (bn a <=? 102)) eqn:L; lia.
Qed.

Lemma hex4_lt a b c d : is_hex a && is_hex b && is_hex c && is_hex d = true -> (hex4 a b c d < 65536)%N.
Proof.
  intro H. apply andb_prop in H as [H Hd]. apply andb_prop in H as [H Hc]. apply andb_prop in H as [Ha Hb].
  apply hexval_lt in Ha, Hb, Hc, Hd. unfold hex4. lia.
Qed.

Lemma surrogate_pair_scalar v v1 : (v <? 56320) && (56320 <=? v1) && (v1 <? 57344) = true -> is_surrogate v = true ->
  ((65536 + (v - 55296) * 1024 + (v1 - 56320) < 1114112)%N) /\
  is_surrogate (65536 + (v - 55296) * 1024 + (v1 - 56320)) = false.
Proof.
  unfold is_surrogate. intros P S.
  apply andb_prop in P as [P P3]. apply andb_prop in P as [P1 P2]. apply andb_prop in S as [S1 S2].
  apply N.ltb_lt in P1, P3, S2. apply N.leb_le in P2, S1. split; [lia|].
  apply andb_false_iff. right. apply N.ltb_ge. lia.
Qed.

Definition unesc (e : byte) : byte :=
  match e with x62 => x08 | x66 => x0c | x6e => x0a | x72 => x0d | x74 => x09 | _ => e end.

Definition pair_ok (v v1 : N) : bool := ((v <? 56320) && (56320 <=? v1) && (v1 <? 57344))%N.

(* a \u escape at the head: bytes consumed (12 for a surrogate pair, else 6) and bytes written *)
Definition uesc (s : bytes) : option (nat * bytes) :=
  match getu4 s with
  | None => None
  | Some v =>
      if is_surrogate v then
        match getu4 (skipn 6 s) with
        | Some v1 =>
            if pair_ok v v1 then Some (12%nat, encode_rune (65536 + (v - 55296) * 1024 + (v1 - 56320))%N)
            else Some (6%nat, replacement)
        | None => Some (6%nat, replacement)
        end
      else Some (6%nat, encode_rune v)
  end.

(* one step of Strings.unquote_go on a non-empty input: Some (k, e): k bytes are consumed and e is written;
   None: the model stops here (a backslash at the end, an ill-formed \u) *)
Definition ustep (s : bytes) : option (nat * bytes) :=
  match s with
  | [] => None
  | c :: r =>
      if Byte.eqb c x5c then
        match r with
        | [] => None
        | e :: _ => if Byte.eqb e x75 then uesc s else Some (2%nat, [unesc e])
        end
      else if bn c <? 128 then Some (1%nat, [c])
      else match utf8_len s with
           | O => Some (1%nat, replacement)
           | S n => Some (S n, firstn (S n) s)
           end
  end.

Lemma match_esc {T} (e : byte) (f : byte -> T) (u : T) :
  match e with
  | x62 => f x08 | x66 => f x0c | x6e => f x0a | x72 => f x0d | x74 => f x09 | x75 => u | _ => f e
  end = if Byte.eqb e x75 then u else f (unesc e).
Proof. destruct e; reflexivity. Qed.

Lemma unquote_go_S f s :
  unquote_go (S f) s = match ustep s with Some (k, e) => e ++ unquote_go f (skipn k s) | None => [] end.
Proof.
  destruct s as [|c r]; [reflexivity|]. cbn [unquote_go ustep]. destruct (Byte.eqb c x5c).
  - destruct r as [|e r']; [reflexivity|]. rewrite (match_esc e (fun o => o :: unquote_go f r')).
    destruct (Byte.eqb e x75); [|reflexivity].
    unfold uesc. destruct (getu4 (c :: e :: r')) as [v|] eqn:G; [|reflexivity]. cbv zeta.
    destruct (is_surrogate v); [|reflexivity].
    apply getu4_some_inv in G as (a & b & c' & d & r2 & -> & _). cbn [skipn].
    destruct (getu4 r2) as [v1|] eqn:G1; [|reflexivity]. fold (pair_ok v v1). destruct (pair_ok v v1); [|reflexivity].
    apply getu4_some_inv in G1 as (a1 & b1 & c1 & d1 & r3 & -> & _). reflexivity.
  - destruct (bn c <? 128); [reflexivity|]. destruct (utf8_len (c :: r)); reflexivity.
Qed.
Arguments unquote_go : simpl never.

Lemma encode_rune_length v : (1 <= length (encode_rune v) <= 4)%nat.
Proof.
  unfold encode_rune. destruct (_ <? 128)%N; [cbn; lia|]. destruct (_ <? 2048)%N; [cbn; lia|].
  destruct (_ <? 65536)%N; cbn; lia.
Qed.

Lemma utf8_len_le4 s : (utf8_len s <= 4)%nat.
Proof.
  unfold utf8_len. destruct s as [|c r]; [lia|]. cbv zeta.
  destruct (bn c <? 128); [lia|]. destruct (bn c <? 194); [lia|].
  destruct (bn c <? 224); [destruct r as [|c1 r]; [lia|]; destruct (cont c1); lia|].
  destruct (bn c <? 240); [destruct r as [|c1 [|c2 r]]; try lia; destruct (_ && _); lia|].
  destruct (bn c <? 245); [|lia]. destruct r as [|c1 [|c2 [|c3 r]]]; try lia. destruct (_ && _); lia.
Qed.

Lemma unesc_ascii e : (bn e <? 128) = true -> (bn (unesc e) <? 128) = true.
Proof. destruct e; intro H; try discriminate H; reflexivity. Qed.

(* what a step consumes and writes: at least one byte of the input, at most four bytes, and (unless a byte from 0x80
   on follows a backslash) valid UTF-8 *)
Lemma ustep_out s k e : ustep s = Some (k, e) ->
  (1 <= k <= length s)%nat /\ (length e <= 4)%nat /\
  ((forall x r, s = x5c :: x :: r -> (bn x <? 128) = true) -> forall Q, utf8 Q -> utf8 (e ++ Q)).
Proof.
  (* read off each branch; an equation between large code point terms is never inverted *)
  enough (B : match ustep s with
              | Some (k, e) => (1 <= k <= length s)%nat /\ (length e <= 4)%nat /\
                               ((forall x r, s = x5c :: x :: r -> (bn x <? 128) = true) -> forall Q, utf8 Q -> utf8 (e ++ Q))
              | None => True
              end) by (intro E; rewrite E in B; exact B).
  assert (R : forall P : Prop, (length replacement <= 4)%nat /\ (P -> forall Q, utf8 Q -> utf8 (replacement ++ Q)))
    by (split; [cbn; lia | intros _; exact replacement_utf8]).
  destruct s as [|c r]; [exact I|]. unfold ustep.
  destruct (Byte.eqb c x5c) eqn:Ec.
  - destruct r as [|x r']; [exact I|]. apply Byte.byte_dec_bl in Ec. subst c. destruct (Byte.eqb x x75).
    + unfold uesc. destruct (getu4 _) as [v|] eqn:G; [|exact I].
      apply getu4_some_inv in G as (a & b & c' & d & r2 & G & Hh & ->). rewrite G.
      change (skipn 6 (x5c :: x75 :: a :: b :: c' :: d :: r2)) with r2. pose proof (hex4_lt _ _ _ _ Hh) as Lt.
      destruct (is_surrogate _) eqn:Su.
      * destruct (getu4 r2) as [v1|] eqn:G1; [|split; [cbn [length]; clear; lia | apply R]].
        apply getu4_some_inv in G1 as (a1 & b1 & c1 & d1 & r3 & -> & _ & _).
        destruct (pair_ok _ v1) eqn:P; (split; [cbn [length]; clear; lia|]); [|apply R].
        destruct (surrogate_pair_scalar _ _ P Su) as [C1 C2]. split; [apply encode_rune_length|].
        intros _ Q. now apply encode_rune_utf8.
      * split; [cbn [length]; clear; lia|]. split; [apply encode_rune_length|].
        intros _ Q. apply encode_rune_utf8; [lia | exact Su].
    + split; [cbn [length]; clear; lia|]. split; [cbn; lia|]. intros A Q. apply U_ascii, unesc_ascii, (A x r' eq_refl).
  - destruct (bn c <? 128) eqn:Hc.
    { split; [cbn [length]; clear; lia|]. split; [cbn; lia|]. intros _ Q. now apply U_ascii. }
    destruct (utf8_len (c :: r)) as [|n] eqn:E.
    + split; [cbn [length]; clear; lia | apply R].
    + pose proof (utf8_len_le (c :: r)) as Le. rewrite E in Le. split; [lia|].
      destruct (utf8_len_S c r n Hc E) as (Ln & _ & _). split.
      * pose proof (utf8_len_le4 (c :: r)) as L4. rewrite E in L4. cbn [firstn length]. rewrite Ln. exact L4.
      * intros _ Q. now apply utf8_chunk.
Qed.

Lemma unquote_go_fuel : forall f s, (length s <= f)%nat -> unquote_go f s = unquote_go (length s) s.
Proof.
  enough (F : forall f1 f2 s, (length s <= f1)%nat -> (length s <= f2)%nat -> unquote_go f1 s = unquote_go f2 s)
    by (intros f s L; apply F; [exact L | apply le_n]).
  induction f1 as [|f1 IH]; intros [|f2] [|c r] L1 L2; try reflexivity; try (simpl in L1, L2; lia).
  rewrite !unquote_go_S. destruct (ustep (c :: r)) as [[k e]|] eqn:M; [|reflexivity].
  destruct (ustep_out _ _ _ M) as (K & _). f_equal. apply IH; rewrite skipn_length; lia.
Qed.

Theorem unquote_step s :
  unquote s = match ustep s with Some (k, e) => e ++ unquote (skipn k s) | None => [] end.
Proof.
  destruct s as [|c r]; [reflexivity|]. unfold unquote at 1. cbn [length]. rewrite unquote_go_S.
  destruct (ustep (c :: r)) as [[k e]|] eqn:M; [|reflexivity]. destruct (ustep_out _ _ _ M) as (K & _).
  f_equal. apply unquote_go_fuel. rewrite skipn_length. cbn [length] in *. lia.
Qed.

Lemma high_byte c : (bn c <? 128) = false -> Byte.eqb c x5c = false /\ Byte.eqb c x22 = false /\ (bn c <? 32) = false.
Proof.
  intro H. repeat split; try (apply (eqb_differ (fun c => bn c <? 128)); rewrite H; discriminate). lia.
Qed.

Lemma unquote_plain c r : Byte.eqb c x5c = false -> (bn c <? 128) = true -> unquote (c :: r) = c :: unquote r.
Proof. intros H1 H2. rewrite unquote_step. cbn [ustep]. now rewrite H1, H2. Qed.

Lemma unquote_multi c r n :
  (bn c <? 128) = false -> utf8_len (c :: r) = S n ->
  unquote (c :: r) = firstn (S n) (c :: r) ++ unquote (skipn (S n) (c :: r)).
Proof. intros H E. rewrite unquote_step. cbn [ustep]. now rewrite (proj1 (high_byte c H)), H, E. Qed.

Lemma unquote_invalid c r :
  (bn c <? 128) = false -> utf8_len (c :: r) = O -> unquote (c :: r) = replacement ++ unquote r.
Proof. intros H E. rewrite unquote_step. cbn [ustep]. now rewrite (proj1 (high_byte c H)), H, E. Qed.

Lemma unquote_esc e r : Byte.eqb e x75 = false -> unquote (x5c :: e :: r) = unesc e :: unquote r.
Proof. intro H. rewrite unquote_step. cbn [ustep]. change (Byte.eqb x5c x5c) with true. cbv iota. now rewrite H. Qed.

Lemma unquote_u a b c d r :
  is_hex a && is_hex b && is_hex c && is_hex d = true ->
  unquote (x5c :: x75 :: a :: b :: c :: d :: r) =
  let rr := hex4 a b c d in
  if is_surrogate rr then
    match getu4 r with
    | Some rr1 =>
        if (rr <? 56320) && (56320 <=? rr1) && (rr1 <? 57344)
        then encode_rune (65536 + (rr - 55296) * 1024 + (rr1 - 56320)) ++ unquote (skipn 6 r)
        else replacement ++ unquote r
    | None => replacement ++ unquote r
    end
  else encode_rune rr ++ unquote r.
Proof.
  intro H. rewrite unquote_step. cbn [ustep]. change (Byte.eqb x5c x5c) with true. change (Byte.eqb x75 x75) with true.
  cbv iota. unfold uesc. rewrite (getu4_hex a b c d r H). cbv zeta. cbn [skipn].
  destruct (is_surrogate _); [|reflexivity]. destruct (getu4 r) as [v1|] eqn:G1; [|reflexivity].
  fold (pair_ok (hex4 a b c d) v1). destruct (pair_ok _ v1); [|reflexivity].
  apply getu4_some_inv in G1 as (a1 & b1 & c1 & d1 & r3 & -> & _). reflexivity.
Qed.

Lemma unquote_u4 a b c d r :
  is_hex a && is_hex b && is_hex c && is_hex d = true -> is_surrogate (hex4 a b c d) = false ->
  unquote (x5c :: x75 :: a :: b :: c :: d :: r) = encode_rune (hex4 a b c d) ++ unquote r.
Proof. intros H S. rewrite (unquote_u a b c d r H). cbv zeta. now rewrite S. Qed.

Lemma safe_facts c : tbl htmlSafeSet c || tbl safeSet c = true ->
  (bn c <? 128) = true /\ (bn c <? 32) = false /\ Byte.eqb c x22 = false /\ Byte.eqb c x5c = false.
Proof. destruct c; vm_compute; intro H; try discriminate; repeat split; reflexivity. Qed.

Lemma hexdigit_val d : d < 16 -> is_hex (hexdigit d) = true /\ hexval (hexdigit d) = d.
Proof. intro H. do 16 (destruct d as [|d _] using N.peano_ind; [split; reflexivity|]). lia. Qed.

Lemma hexenc_facts c : (bn c <? 128) = true ->
  is_hex x30 && is_hex x30 && is_hex (hexdigit (bn c / 16)) && is_hex (hexdigit (bn c mod 16)) = true /\
  hex4 x30 x30 (hexdigit (bn c / 16)) (hexdigit (bn c mod 16)) = bn c.
Proof.
  intro H. destruct (hexdigit_val (bn c / 16)) as [A1 A2]; [apply N.div_lt_upper_bound; lia|].
  destruct (hexdigit_val (bn c mod 16)) as [B1 B2]; [apply N.mod_lt; lia|].
  unfold hex4. rewrite A1, B1, A2, B2. split; [reflexivity|]. pose proof (N.div_mod (bn c) 16). change (hexval x30) with 0. lia.
Qed.

Lemma encode_rune_ascii c : (bn c <? 128) = true -> encode_rune (bn c) = [c].
Proof. intro H. unfold encode_rune. rewrite H. now rewrite nb_bn. Qed.

Lemma not_surrogate_small n : (n <? 128) = true -> is_surrogate n = false.
Proof. intro H. apply N.ltb_lt in H. unfold is_surrogate. apply andb_false_iff. left. apply N.leb_gt. lia. Qed.

Lemma unquote_u00 c Q : (bn c <? 128) = true ->
  unquote ([x5c; x75; x30; x30; hexdigit (bn c / 16); hexdigit (bn c mod 16)] ++ Q) = c :: unquote Q.
Proof.
  intro H. destruct (hexenc_facts c H) as [F1 F2]. cbn [app].
  rewrite unquote_u4 by (try exact F1; rewrite F2; apply not_surrogate_small; exact H).
  rewrite F2, (encode_rune_ascii c H). reflexivity.
Qed.

Lemma qchar_roundtrip esc c Q : (bn c <? 128) = true -> unquote (qchar esc c ++ Q) = c :: unquote Q.
Proof.
  intro H. rewrite qchar_if.
  destruct (tbl htmlSafeSet c || (negb esc && tbl safeSet c)) eqn:S.
  { assert (S' : tbl htmlSafeSet c || tbl safeSet c = true).
    { apply orb_true_iff in S as [S|S]; [now rewrite S|]. apply andb_prop in S as [_ S]. rewrite S. apply orb_true_r. }
    destruct (safe_facts c S') as (_ & _ & _ & F). apply unquote_plain; assumption. }
  destruct (Byte.eqb c x5c) eqn:E1; [apply Byte.byte_dec_bl in E1; subst c; exact (unquote_esc x5c Q eq_refl)|].
  destruct (Byte.eqb c x22) eqn:E2; [apply Byte.byte_dec_bl in E2; subst c; exact (unquote_esc x22 Q eq_refl)|].
  destruct (Byte.eqb c x0a) eqn:E3; [apply Byte.byte_dec_bl in E3; subst c; exact (unquote_esc x6e Q eq_refl)|].
  destruct (Byte.eqb c x0d) eqn:E4; [apply Byte.byte_dec_bl in E4; subst c; exact (unquote_esc x72 Q eq_refl)|].
  destruct (Byte.eqb c x09) eqn:E5; [apply Byte.byte_dec_bl in E5; subst c; exact (unquote_esc x74 Q eq_refl)|].
  apply unquote_u00. exact H.
Qed.

Lemma unquote_multi_app c r n Q : (bn c <? 128) = false -> utf8_len (c :: r) = S n ->
  unquote (firstn (S n) (c :: r) ++ Q) = firstn (S n) (c :: r) ++ unquote Q.
Proof.
  intros H E. destruct (utf8_len_S c r n H E) as (FL & _ & P). cbn [firstn app].
  rewrite (unquote_multi c _ n H (P Q)). cbn [firstn skipn].
  destruct (firstn_app_exact n (firstn n r) Q FL) as [-> ->]. reflexivity.
Qed.

Theorem unquote_quote esc s : utf8 s -> unquote (quote esc s) = s.
Proof.
  induction 1 as [|c r H U IH|c r n H E U IH].
  - reflexivity.
  - rewrite quote_ascii, qchar_roundtrip, IH by exact H. reflexivity.
  - rewrite (quote_multi esc c r n H E).
    destruct (is_ls (c :: r)) as [[d r']|] eqn:L.
    + (* U+2028 / U+2029 are written as escapes *)
      rewrite (is_ls_valid c r _ L) in E. injection E as <-.
      apply is_ls_inv in L as [[L ->]|[L ->]]; injection L as -> ->; cbn [skipn] in IH;
        cbn [app]; rewrite unquote_u4 by reflexivity; rewrite IH; reflexivity.
    + rewrite (unquote_multi_app c r n _ H E), IH. apply firstn_skipn.
Qed.

(* ---- HTML escaping of a compacted text never changes what its strings denote ---- *)
Definition he_special (c : byte) : bool := match c with x3c | x3e | x26 | xe2 => true | _ => false end.
Definition html_char (c : byte) : bool := match c with x3c | x3e | x26 => true | _ => false end.

Lemma html_char_eqb c : html_char c = Byte.eqb c x3c || Byte.eqb c x3e || Byte.eqb c x26.
Proof. destruct c; reflexivity. Qed.

(* html_escape over an arbitrary continuation, as quote_body is quote_go *)
Definition he_body (k : bytes -> bytes) (s : bytes) : bytes :=
  match s with
  | [] => []
  | c :: r =>
      match c with
      | x3c => B "\u003c" ++ k r
      | x3e => B "\u003e" ++ k r
      | x26 => B "\u0026" ++ k r
      | xe2 => ls_match (xe2 :: r) (fun d r' => [x5c; x75; x32; x30; x32; d] ++ k r') (c :: k r)
      | _ => c :: k r
      end
  end.

Fixpoint he_iter (s : bytes) : bytes := he_body he_iter s.

Lemma html_escape_iter : html_escape = he_iter.
Proof. reflexivity. Qed.

Lemma match_he {T} c r (h : byte -> T) (d : T) (f : byte -> bytes -> T) :
  match c with x3c => h x3c | x3e => h x3e | x26 => h x26 | xe2 => ls_match (xe2 :: r) f d | _ => d end =
  match is_ls (c :: r) with
  | Some (x, r') => f x r'
  | None => if html_char c then h c else d
  end.
Proof. destruct c; try reflexivity. apply match_ls. Qed.

Lemma he_cons c r :
  html_escape (c :: r) =
  match is_ls (c :: r) with
  | Some (d, r') => [x5c; x75; x32; x30; x32; d] ++ html_escape r'
  | None => if html_char c then [x5c; x75; x30; x30; hexdigit (bn c / 16); hexdigit (bn c mod 16)] ++ html_escape r
            else c :: html_escape r
  end.
Proof.
  rewrite html_escape_iter.
  exact (match_he c r (fun c => [x5c; x75; x30; x30; hexdigit (bn c / 16); hexdigit (bn c mod 16)] ++ he_iter r) _ _).
Qed.

Lemma he_special_eq c : he_special c = html_char c || Byte.eqb c xe2.
Proof. destruct c; reflexivity. Qed.

Lemma html_char_inv c : html_char c = true -> c = x3c \/ c = x3e \/ c = x26.
Proof.
  rewrite html_char_eqb. intro H. apply orb_prop in H as [H|H]; [apply orb_prop in H as [H|H]|];
    apply Byte.byte_dec_bl in H; auto.
Qed.

Lemma html_char_ascii c : html_char c = true -> (bn c <? 128) = true.
Proof. intro H. apply html_char_inv in H as [->|[->| ->]]; reflexivity. Qed.

Lemma he_plain c r : he_special c = false -> html_escape (c :: r) = c :: html_escape r.
Proof.
  rewrite he_special_eq. intro H. apply orb_false_iff in H as [H1 H2]. rewrite he_cons, H1.
  destruct (is_ls (c :: r)) eqn:L; [|reflexivity]. apply is_ls_head in L. subst c. discriminate H2.
Qed.

Lemma he_lead c r : (bn c <? 128) = false -> is_ls (c :: r) = None -> html_escape (c :: r) = c :: html_escape r.
Proof.
  intros H L. rewrite he_cons, L. destruct (html_char c) eqn:Hc; [|reflexivity].
  apply html_char_ascii in Hc. congruence.
Qed.

Lemma he_cont c r : cont c = true -> html_escape (c :: r) = c :: html_escape r.
Proof.
  intro C. apply he_lead; [apply cont_high; exact C|].
  destruct (is_ls (c :: r)) eqn:L; [|reflexivity]. apply is_ls_head in L. subst c. discriminate C.
Qed.

Lemma he_app_cont t Q : Forall (fun x => cont x = true) t -> html_escape (t ++ Q) = t ++ html_escape Q.
Proof. induction 1 as [|x t Hx _ IH]; [reflexivity|]. cbn [app]. now rewrite (he_cont x _ Hx), IH. Qed.

Lemma he_chunk c r n :
  (bn c <? 128) = false -> utf8_len (c :: r) = S n -> is_ls (c :: r) = None ->
  html_escape (c :: r) = firstn (S n) (c :: r) ++ html_escape (skipn (S n) (c :: r)).
Proof.
  intros H E L. rewrite (he_lead c r H L). destruct (utf8_len_S c r n H E) as (_ & C & _).
  cbn [firstn skipn app]. rewrite <- (he_app_cont _ _ C), firstn_skipn. reflexivity.
Qed.

Lemma is_hex_not_special a : is_hex a = true -> he_special a = false.
Proof.
  intro H. rewrite he_special_eq, html_char_eqb, !(eqb_differ is_hex a) by (rewrite H; discriminate). reflexivity.
Qed.

Lemma he_u4 a b c d r :
  is_hex a && is_hex b && is_hex c && is_hex d = true ->
  html_escape (x5c :: x75 :: a :: b :: c :: d :: r) = x5c :: x75 :: a :: b :: c :: d :: html_escape r.
Proof.
  intro H. apply andb_prop in H as [H Hd]. apply andb_prop in H as [H Hc]. apply andb_prop in H as [Ha Hb].
  rewrite (he_plain x5c), (he_plain x75), (he_plain a), (he_plain b), (he_plain c), (he_plain d)
    by (try reflexivity; apply is_hex_not_special; assumption).
  reflexivity.
Qed.

Lemma he_head c r : exists h t, html_escape (c :: r) = h :: t /\ (h = c \/ h = x5c).
Proof.
  rewrite he_cons. destruct (is_ls (c :: r)) as [[d r']|]; [|destruct (html_char c)]; eexists _, _; split;
    try reflexivity; auto.
Qed.

(* escaping does not turn an ill-formed sequence into a well-formed one: continuation bytes pass
   through, every other byte is replaced by something that starts with a non-continuation byte *)
Lemma he_cont_prefix : forall n r, length (firstn n (html_escape r)) = n ->
  Forall (fun x => cont x = true) (firstn n (html_escape r)) -> firstn n r = firstn n (html_escape r).
Proof.
  induction n as [|n IH]; intros r L C; [reflexivity|]. destruct r as [|c r]; [discriminate L|].
  assert (Ch : cont c = true).
  { destruct (he_head c r) as (h & t & E & Hh). rewrite E in C. cbn [firstn] in C. inversion C as [|? ? Ch _]; subst.
    destruct Hh as [->| ->]; [exact Ch | discriminate Ch]. }
  rewrite (he_cont c r Ch) in *. cbn [firstn length] in *. inversion C; subst. f_equal. apply IH; [lia | assumption].
Qed.

Lemma utf8_len_he_invalid c r : (bn c <? 128) = false -> utf8_len (c :: r) = 0%nat -> utf8_len (c :: html_escape r) = 0%nat.
Proof.
  intros H E. destruct (utf8_len (c :: html_escape r)) as [|n] eqn:E'; [reflexivity|]. exfalso.
  destruct (utf8_len_S c _ n H E') as (L & C & P). specialize (P (skipn n r)).
  rewrite <- (he_cont_prefix n r L C), firstn_skipn in P. congruence.
Qed.

Lemma he_app_plain p Q : forallb (fun c => negb (he_special c)) p = true -> html_escape (p ++ Q) = p ++ html_escape Q.
Proof.
  induction p as [|c p IH]; intro H; [reflexivity|]. cbn [forallb] in H. apply andb_prop in H as [H1 H2].
  cbn [app]. rewrite he_plain by (destruct (he_special c); auto; discriminate). now rewrite IH.
Qed.

Lemma qchar_plain c : (bn c <? 128) = true -> forallb (fun x => negb (he_special x)) (qchar true c) = true.
Proof. destruct c; intro H; try discriminate H; reflexivity. Qed.

(* whether U+2028/9 stands at the head is decided within the sequence at the head *)
Lemma is_ls_prefix c r n Q :
  (bn c <? 128) = false -> utf8_len (c :: r) = S n -> is_ls (c :: r) = None ->
  is_ls (firstn (S n) (c :: r) ++ Q) = None.
Proof.
  intros H E L. destruct (is_ls (firstn (S n) (c :: r) ++ Q)) as [[d t]|] eqn:L'; [exfalso|reflexivity].
  cbn [firstn app] in L'.
  pose proof (is_ls_head _ _ _ L'). subst c. destruct (utf8_len_S xe2 r n H E) as (Ln & _ & P).
  specialize (P Q). rewrite (is_ls_valid _ _ _ L') in P. injection P as <-.
  destruct r as [|a [|b r]]; try discriminate Ln. cbn [firstn app] in L'.
  apply is_ls_inv in L' as [[L' _]|[L' _]]; injection L' as -> -> _; discriminate L.
Qed.

Lemma he_quote k : html_escape (quote true k) = quote true k.
Proof.
  apply quote_chunks.
  - reflexivity.
  - intros c Q H IH. now rewrite (he_app_plain _ _ (qchar_plain c H)), IH.
  - intros Q IH. now rewrite he_app_plain, IH.
  - intros d Q [->| ->] IH; now rewrite he_app_plain, IH.
  - intros c r n Q H E L IH. destruct (utf8_len_S c r n H E) as (Ln & _ & P).
    pose proof (is_ls_prefix c r n Q H E L) as L'. cbn [firstn app] in L' |- *.
    rewrite (he_chunk c _ n H (P Q) L'). cbn [firstn skipn].
    destruct (firstn_app_exact n (firstn n r) Q Ln) as [-> ->]. now rewrite IH.
Qed.

Definition simple_esc (e : byte) : bool :=
  match e with x62 | x66 | x6e | x72 | x74 | x5c | x2f | x22 => true | _ => false end.

(* string bodies as the scanner accepts them (RFC 8259 section 7).  Any byte >= 0x80 is accepted, whether or
   not it is part of a well-formed UTF-8 sequence: sbody is exactly what Text.scan_string reads, see
   PrintParse.scan_string_sbody *)
Inductive sbody : bytes -> Prop :=
| SB_nil : sbody []
| SB_esc e r : simple_esc e = true -> sbody r -> sbody (x5c :: e :: r)
| SB_u a b c d r : is_hex a && is_hex b && is_hex c && is_hex d = true -> sbody r ->
                   sbody (x5c :: x75 :: a :: b :: c :: d :: r)
| SB_ascii c r : (bn c <? 128) = true -> (bn c <? 32) = false -> Byte.eqb c x22 = false -> Byte.eqb c x5c = false ->
                 sbody r -> sbody (c :: r)
| SB_high c r : (bn c <? 128) = false -> sbody r -> sbody (c :: r).

Lemma sbody_high_inv c r : (bn c <? 128) = false -> sbody (c :: r) -> sbody r.
Proof.
  intros H S. inversion S as [|e r' He Sr|a b c' d r' Hh Sr|c0 r' H1 H2 H3 H4 Sr|c0 r' H1 Sr]; subst; auto;
    try (vm_compute in H; discriminate); congruence.
Qed.

Lemma sbody_skip_high t Q : Forall (fun x => (bn x <? 128) = false) t -> sbody (t ++ Q) -> sbody Q.
Proof. induction 1 as [|x t Hx _ IH]; intro S; [exact S|]. apply IH. exact (sbody_high_inv x _ Hx S). Qed.

(* the bytes of a well-formed multi-byte sequence are all >= 0x80: the rest after it is a body *)
Lemma sbody_skip_multi c r k : (bn c <? 128) = false -> utf8_len (c :: r) = S k -> sbody (c :: r) ->
  sbody (skipn (S k) (c :: r)).
Proof.
  intros H E S. destruct (utf8_len_S c r k H E) as (_ & C & _). cbn [skipn]. apply (sbody_skip_high (firstn k r)).
  - eapply Forall_impl; [|exact C]. exact cont_high.
  - rewrite firstn_skipn. exact (sbody_high_inv c r H S).
Qed.

(* the escape letters unquoteBytes knows: those of the RFC, \u, and the single quote *)
Definition esc_ok (e : byte) : bool :=
  match e with x22 | x5c | x2f | x27 | x62 | x66 | x6e | x72 | x74 | x75 => true | _ => false end.

Lemma simple_esc_facts e : simple_esc e = true -> Byte.eqb e x75 = false /\ he_special e = false /\ esc_ok e = true.
Proof. destruct e; try discriminate; repeat split. Qed.

Definition low_surrogate (v : N) : bool := (56320 <=? v) && (v <? 57344).

(* what a surrogate escape sees when it looks ahead, before and after escaping *)
Lemma lookahead_he r : sbody r ->
  (exists a b c d r2, r = x5c :: x75 :: a :: b :: c :: d :: r2 /\
     is_hex a && is_hex b && is_hex c && is_hex d = true /\ sbody r2) \/
  (getu4 r = None /\ match getu4 (html_escape r) with Some v => low_surrogate v = false | None => True end).
Proof.
  intro S. inversion S as [|e r' He Sr|a b c d r' Hh Sr|c r' H1 H2 H3 H4 Sr|c r' H1 Sr]; subst.
  - right. split; reflexivity.
  - right. destruct (simple_esc_facts e He) as (Nu & Ne & _).
    rewrite (he_plain x5c) by reflexivity. rewrite (he_plain e) by exact Ne. rewrite !getu4_not_u by exact Nu. auto.
  - left. exists a, b, c, d, r'. auto.
  - right. split; [apply getu4_not_backslash; exact H4|]. rewrite he_cons.
    destruct (is_ls (c :: r')) eqn:L; [apply is_ls_head in L; subst c; discriminate H1|].
    destruct (html_char c).
    + destruct (hexenc_facts c H1) as [F1 F2]. cbn [app]. rewrite (getu4_hex _ _ _ _ _ F1), F2.
      apply andb_false_iff. left. apply N.leb_gt. apply N.ltb_lt in H1. now apply (N.lt_trans _ 128).
    + rewrite getu4_not_backslash by exact H4. exact I.
  - right. pose proof (proj1 (high_byte c H1)) as NB. split; [apply getu4_not_backslash; exact NB|].
    rewrite he_cons. destruct (is_ls (c :: r')) as [[d r2]|] eqn:L.
    + apply is_ls_inv in L as [[_ ->]|[_ ->]]; reflexivity.
    + destruct (html_char c) eqn:Hc; [apply html_char_ascii in Hc; congruence|].
      rewrite getu4_not_backslash by exact NB. exact I.
Qed.

Lemma encode_rune_special c : he_special c = true -> (bn c <? 128) = true ->
  unquote ([x5c; x75; x30; x30; hexdigit (bn c / 16); hexdigit (bn c mod 16)]) = [c].
Proof. intros _ H. exact (unquote_u00 c [] H). Qed.

Theorem unquote_html_escape : forall n b, (length b <= n)%nat -> sbody b -> unquote (html_escape b) = unquote b.
Proof.
  induction n as [|n IH]; intros b L Sb.
  { destruct b; [reflexivity | simpl in L; lia]. }
  inversion Sb as [|e r He Sr|a b0 c d r Hh Sr|c r H1 H2 H3 H4 Sr|c r H1 Sr0]; subst.
  - reflexivity.
  - (* simple escape *)
    destruct (simple_esc_facts e He) as (Nu & Ne & _).
    rewrite (he_plain x5c) by reflexivity. rewrite (he_plain e) by exact Ne.
    rewrite !unquote_esc by exact Nu. f_equal. apply IH; auto. simpl in L. lia.
  - (* \uXXXX *)
    assert (IHr : unquote (html_escape r) = unquote r) by (apply IH; auto; simpl in L; lia).
    rewrite (he_u4 _ _ _ _ _ Hh), !unquote_u by exact Hh. cbv zeta. rewrite IHr.
    destruct (is_surrogate (hex4 a b0 c d)); [|reflexivity].
    destruct (lookahead_he r Sr) as [[a' [b' [c' [d' [r2 [-> [Hh' Sr2]]]]]]]|[G1 G2]].
    + rewrite (he_u4 _ _ _ _ _ Hh'), !getu4_hex by exact Hh'. cbn [skipn].
      (* lia would split on every is_hex of the context *)
      rewrite (IH r2) by (auto; clear - L; simpl in L; lia). reflexivity.
    + rewrite G1. destruct (getu4 (html_escape r)) as [v|]; [|reflexivity].
      unfold low_surrogate in G2. rewrite <- andb_assoc, G2, andb_false_r. reflexivity.
  - (* an ASCII character *)
    assert (IHr : unquote (html_escape r) = unquote r) by (apply IH; auto; simpl in L; lia).
    rewrite he_cons. destruct (is_ls (c :: r)) eqn:Ls; [apply is_ls_head in Ls; subst c; discriminate H1|].
    destruct (html_char c); [rewrite unquote_u00 by exact H1 | rewrite (unquote_plain c (html_escape r)) by assumption];
      rewrite unquote_plain, IHr by assumption; reflexivity.
  - (* a byte >= 0x80 *)
    destruct (utf8_len (c :: r)) as [|k] eqn:E.
    { (* not the start of a well-formed sequence: decoded as U+FFFD, before and after escaping *)
      rewrite (he_lead c r H1 (is_ls_invalid _ _ E)).
      rewrite (unquote_invalid c r H1 E), (unquote_invalid c (html_escape r) H1 (utf8_len_he_invalid c r H1 E)).
      f_equal. apply IH; auto. simpl in L. lia. }
    assert (IHs : unquote (html_escape (skipn (S k) (c :: r))) = unquote (skipn (S k) (c :: r))).
    { apply IH; [|apply sbody_skip_multi; assumption]. pose proof (skipn_length_le k r). simpl in *. lia. }
    rewrite (unquote_multi c r k H1 E).
    destruct (is_ls (c :: r)) as [[dg r2]|] eqn:Ls.
    + rewrite he_cons, Ls. rewrite (is_ls_valid c r _ Ls) in E. injection E as <-.
      apply is_ls_inv in Ls as [[Ls ->]|[Ls ->]]; injection Ls as -> ->; cbn [skipn] in IHs;
        cbn [app]; rewrite unquote_u4 by reflexivity; rewrite IHs; reflexivity.
    + rewrite (he_chunk c r k H1 E Ls), (unquote_multi_app c r k _ H1 E), IHs. reflexivity.
Qed.

Corollary unquote_he b : sbody b -> unquote (html_escape b) = unquote b.
Proof. apply (unquote_html_escape (length b)), le_n. Qed.

Lemma sbody_u_inv a b c d r2 : sbody (x5c :: x75 :: a :: b :: c :: d :: r2) -> sbody r2.
Proof.
  intro S. inversion S as [|e r He Sr|a' b' c' d' r Hh Sr|c0 r H1 H2 H3 H4 Sr|c0 r H1 Sr]; subst; auto; try discriminate.
Qed.

(* ---- unquoteBytes: the same step under a guard (a raw quote or control byte, an unknown escape: return false) ---- *)
Definition dguard (s : bytes) : bool :=
  match s with
  | c :: r => if Byte.eqb c x5c then match r with e :: _ => esc_ok e | [] => true end
              else negb (Byte.eqb c x22 || (bn c <? 32))
  | [] => true
  end.

Definition dstep (s : bytes) : option (nat * bytes) := if dguard s then ustep s else None.

Lemma esc_ok_ascii e : esc_ok e = true -> (bn e <? 128) = true.
Proof. destruct e; intro H; try discriminate H; reflexivity. Qed.

Lemma dstep_out s k e : dstep s = Some (k, e) ->
  unquote s = e ++ unquote (skipn k s) /\ (1 <= k <= length s)%nat /\ (length e <= 4)%nat /\ forall Q, utf8 Q -> utf8 (e ++ Q).
Proof.
  unfold dstep. destruct (dguard s) eqn:G; [|discriminate]. intro M. split; [now rewrite unquote_step, M|].
  destruct (ustep_out _ _ _ M) as (K & L & U). split; [exact K|]. split; [exact L|]. apply U.
  intros x r ->. apply esc_ok_ascii. exact G.
Qed.

(* an accepted body is decoded to its end: every step is defined and leaves an accepted body *)
Lemma sbody_dstep c r : sbody (c :: r) -> exists k e, dstep (c :: r) = Some (k, e) /\ sbody (skipn k (c :: r)).
Proof.
  intro S. inversion S as [|e r0 He Sr|a b0 c0 d r0 Hh Sr|c1 r0 H1 H2 H3 H4 Sr|c1 r0 H1 Sr]; subst.
  - destruct (simple_esc_facts e He) as (Nu & _ & Ok). unfold dstep. cbn [dguard ustep].
    change (Byte.eqb x5c x5c) with true. cbv iota. rewrite Ok, Nu. eexists _, _. split; [reflexivity | exact Sr].
  - unfold dstep. cbn [dguard ustep]. change (Byte.eqb x5c x5c) with true. change (Byte.eqb x75 x75) with true. cbv iota.
    unfold uesc. rewrite (getu4_hex a b0 c0 d r0 Hh). change (skipn 6 (x5c :: x75 :: a :: b0 :: c0 :: d :: r0)) with r0.
    destruct (is_surrogate _); [|eexists _, _; split; [reflexivity | exact Sr]].
    destruct (getu4 r0) as [v1|] eqn:G1; [|eexists _, _; split; [reflexivity | exact Sr]].
    destruct (pair_ok _ v1); [|eexists _, _; split; [reflexivity | exact Sr]].
    apply getu4_some_inv in G1 as (a' & b' & c' & d' & r2 & -> & _ & _).
    eexists _, _. split; [reflexivity|]. exact (sbody_u_inv a' b' c' d' r2 Sr).
  - unfold dstep. cbn [dguard ustep]. rewrite H4, H3, H2, H1. eexists _, _. split; [reflexivity | exact Sr].
  - destruct (high_byte c H1) as (E5c & E22 & E32). unfold dstep. cbn [dguard ustep]. rewrite E5c, E22, E32, H1. cbn [orb negb].
    destruct (utf8_len (c :: r)) as [|n] eqn:E; eexists _, _; (split; [reflexivity|]); [exact Sr|].
    now apply sbody_skip_multi.
Qed.

Inductive runs : bytes -> option bytes -> Prop :=
| R_nil : runs [] (Some [])
| R_false c r : dstep (c :: r) = None -> runs (c :: r) None
| R_step c r k e x : dstep (c :: r) = Some (k, e) -> runs (skipn k (c :: r)) x -> runs (c :: r) (option_map (app e) x).

(* whenever the decoder succeeds, on ANY input, it returns what the model computes, and that is valid UTF-8 *)
Theorem runs_unquote rest t : runs rest (Some t) -> t = unquote rest /\ utf8 t.
Proof.
  remember (Some t) as x eqn:X. intro R. revert t X.
  induction R as [|c r Sp|c r k e x Sp Rx IH]; intros t X.
  - injection X as <-. split; [reflexivity | constructor].
  - discriminate X.
  - destruct x as [t'|]; [|discriminate X]. injection X as <-. destruct (IH t' eq_refl) as [-> U].
    destruct (dstep_out _ _ _ Sp) as (Eq & _ & _ & Ue). split; [symmetry; exact Eq | apply Ue, U].
Qed.

Lemma runs_sbody_some rest x : runs rest x -> sbody rest -> x <> None.
Proof.
  induction 1 as [|c r Sp|c r k e x Sp Rx IH]; intro S; [discriminate| |];
    destruct (sbody_dstep c r S) as (k' & e' & Sp' & S'); rewrite Sp in Sp'; [discriminate Sp'|].
  injection Sp' as <- <-. specialize (IH S'). destruct x; [discriminate | contradiction].
Qed.

Theorem runs_sbody rest x : runs rest x -> sbody rest -> x = Some (unquote rest).
Proof.
  intros R S. destruct x as [t|]; [|destruct (runs_sbody_some rest None R S eq_refl)].
  f_equal. apply (runs_unquote rest t R).
Qed.

Lemma runs_total rest : exists x, runs rest x.
Proof.
  remember (length rest) as n eqn:L. revert rest L. induction n as [n IH] using lt_wf_ind. intros [|c r] L; [eexists; constructor|].
  destruct (dstep (c :: r)) as [[k e]|] eqn:Sp; [|eexists; apply R_false, Sp].
  destruct (dstep_out _ _ _ Sp) as (_ & K & _). destruct (IH (length (skipn k (c :: r)))) with (rest := skipn k (c :: r)) as [x Rx];
    [rewrite skipn_length; subst n; lia | reflexivity |]. eexists. exact (R_step c r k e x Sp Rx).
Qed.

Theorem sbody_unquote_utf8 b : sbody b -> utf8 (unquote b).
Proof.
  intro S. destruct (runs_total b) as [x R]. pose proof (runs_sbody b x R S) as ->. exact (proj2 (runs_unquote b _ R)).
Qed.

Theorem unquote_utf8 : forall n b, (length b <= n)%nat -> sbody b -> utf8 (unquote b).
Proof. intros n b _. apply sbody_unquote_utf8. Qed.

(* C17: encoding the decoded string and decoding again gives the same string — strings keep their
   code points, with either setting of the HTML-escaping switch *)
Corollary unquote_quote_unquote esc b : sbody b -> unquote (quote esc (unquote b)) = unquote b.
Proof. intro S. apply unquote_quote, sbody_unquote_utf8, S. Qed.

Corollary escape_switch_same_value b : sbody b ->
  unquote (quote true (unquote b)) = unquote (quote false (unquote b)).
Proof. intro S. now rewrite !unquote_quote_unquote. Qed.

(* ---- with EscapeHTML on, none of < > & U+2028 U+2029 appears raw in what is written ---- *)
Definition ls_head (s : bytes) : bool :=
  match s with xe2 :: x80 :: xa8 :: _ | xe2 :: x80 :: xa9 :: _ => true | _ => false end.

Fixpoint has_raw (s : bytes) : bool :=
  match s with
  | [] => false
  | c :: r => html_char c || ls_head s || has_raw r
  end.

Lemma ls_head_is_ls s : ls_head s = match is_ls s with Some (_, _) => true | None => false end.
Proof. exact (match_ls s (fun _ _ => true) false). Qed.

Lemma has_raw_cons_plain c r : he_special c = false -> has_raw (c :: r) = has_raw r.
Proof.
  rewrite he_special_eq. intro H. apply orb_false_iff in H as [H1 H2]. cbn [has_raw]. rewrite H1, ls_head_is_ls.
  destruct (is_ls (c :: r)) as [[d t]|] eqn:L; [|reflexivity]. apply is_ls_head in L. subst c. discriminate H2.
Qed.

Lemma has_raw_app_plain p s : forallb (fun c => negb (he_special c)) p = true -> has_raw (p ++ s) = has_raw s.
Proof.
  induction p as [|c p IH]; intro H; [reflexivity|]. cbn [forallb] in H. apply andb_prop in H as [H1 H2].
  cbn [app]. rewrite has_raw_cons_plain by (destruct (he_special c); auto; discriminate). auto.
Qed.

(* the escaped rest does not begin with 80 A8 / 80 A9 unless the rest does *)
Lemma is_ls_he c r : is_ls (c :: r) = None -> is_ls (c :: html_escape r) = None.
Proof.
  intro N. destruct (is_ls (c :: html_escape r)) as [[d t]|] eqn:L; [exfalso|reflexivity].
  pose proof (he_cont_prefix 2 r) as P.
  apply is_ls_inv in L as [[L _]|[L _]]; injection L as -> L; rewrite L in P; cbn [firstn length] in P;
    specialize (P eq_refl ltac:(repeat constructor)); destruct r as [|a [|b r]]; try discriminate P;
    injection P as -> ->; discriminate N.
Qed.

Theorem html_escape_no_raw : forall n b, (length b <= n)%nat -> has_raw (html_escape b) = false.
Proof.
  induction n as [|n IH]; intros b L.
  { destruct b; [reflexivity | simpl in L; lia]. }
  destruct b as [|c r]; [reflexivity|].
  assert (IHr : has_raw (html_escape r) = false) by (apply IH; simpl in L; lia).
  rewrite he_cons. destruct (is_ls (c :: r)) as [[d r']|] eqn:Ls.
  - assert (IH2 : has_raw (html_escape r') = false).
    { apply IH. apply is_ls_inv in Ls as [[Ls _]|[Ls _]]; injection Ls as -> ->; simpl in L; lia. }
    apply is_ls_inv in Ls as [[_ ->]|[_ ->]]; rewrite has_raw_app_plain by reflexivity; exact IH2.
  - destruct (html_char c) eqn:Hc.
    + apply html_char_inv in Hc as [->|[->| ->]]; rewrite has_raw_app_plain by reflexivity; exact IHr.
    + cbn [has_raw]. rewrite Hc, IHr, ls_head_is_ls, (is_ls_he c r Ls). reflexivity.
Qed.

Corollary he_no_raw b : has_raw (html_escape b) = false.
Proof. apply (html_escape_no_raw (length b)), le_n. Qed.

Lemma no_raw_he_id : forall b, has_raw b = false -> html_escape b = b.
Proof.
  induction b as [|c r IH]; [reflexivity|]. cbn [has_raw]. intro H.
  apply orb_false_iff in H as [H H3]. apply orb_false_iff in H as [H1 H2].
  rewrite ls_head_is_ls in H2. rewrite he_cons, H1, (IH H3). destruct (is_ls (c :: r)) as [[d t]|]; [discriminate H2 | reflexivity].
Qed.

Lemma he_idem b : html_escape (html_escape b) = html_escape b.
Proof. apply no_raw_he_id, he_no_raw. Qed.

(* ---- trees: escaping a compacted text never changes its value ---- *)
From JP Require Import ImplV5.

Fixpoint tsb (t : tjson) : Prop :=
  match t with
  | TStr b => sbody b
  | TArr l => (fix all (l : list tjson) : Prop := match l with [] => True | x :: r => tsb x /\ all r end) l
  | TObj ms => (fix all (m : list (bytes * tjson)) : Prop :=
                  match m with [] => True | kv :: r => (sbody (fst kv) /\ tsb (snd kv)) /\ all r end) ms
  | _ => True
  end.

Lemma tsb_arr l : tsb (TArr l) <-> Forall tsb l.
Proof. apply all_fix_Forall. Qed.

Lemma tsb_obj ms : tsb (TObj ms) <-> Forall (fun kv => sbody (fst kv) /\ tsb (snd kv)) ms.
Proof. apply (all_fix_Forall (fun kv => sbody (fst kv) /\ tsb (snd kv))). Qed.

Lemma escape_tree_true t :
  escape_tree true t =
  match t with
  | TStr b => TStr (html_escape b)
  | TArr l => TArr (map (escape_tree true) l)
  | TObj ms => TObj (map (fun kv => (html_escape (fst kv), escape_tree true (snd kv))) ms)
  | _ => t
  end.
Proof. destruct t; reflexivity. Qed.

Theorem escape_tree_den t : tsb t -> den (escape_tree true t) = den t.
Proof.
  induction t using tjson_rect'; intro S; try reflexivity.
  - rewrite escape_tree_true. cbn [den]. f_equal. apply unquote_he, S.
  - rewrite escape_tree_true. cbn [den]. f_equal. rewrite map_map. apply map_ext_in. intros x Hx.
    apply tsb_arr in S. rewrite Forall_forall in H, S. apply (H x Hx). apply (S x Hx).
  - rewrite escape_tree_true. cbn [den]. f_equal. f_equal. rewrite map_map. apply map_ext_in. intros kv Hk.
    apply tsb_obj in S. rewrite Forall_forall in H, S. destruct (S kv Hk) as [S1 S2]. cbn [fst snd]. f_equal.
    + apply unquote_he, S1.
    + apply (H kv Hk). exact S2.
Qed.

Theorem keys_in_document_order ms : fst (doc_of ms) = map (fun kv => unquote (fst kv)) ms.
Proof. reflexivity. Qed.

(* for lia in the files that import this one: quotients and remainders (division by constants) are
   replaced by their defining equations before the search starts *)
Ltac Zify.zify_post_hook ::= Z.div_mod_to_equations.
