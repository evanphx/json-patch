(* IndexTie4.v -- the array index arithmetic of the LEGACY patch.go (root package, v4 API), as
   re-translated by tools/goidx4v into gen/IndexGen4.v (partialArray.get / set / add / remove on
   the slice type: strconv.Atoi result, bounds checks, negative indices under the package
   variable SupportNegativeIndices, 64-bit wrap-around, a bounds test before every index and
   slice expression, the list of slice effects), agrees with what the legacy model ImplV4.v
   computes (con4_get / con4_set / con4_add / con4_remove / con4_put on DAry, which call
   ImplV5.resolve_idx_get / ary_set / ary_add / ary_remove with the options o5 g, i.e. with
   AllowMissingPathOnRemove = false) for EVERY length and EVERY index of the int range.

   The file is the legacy counterpart of IndexTie.v: the two translations print the same int
   arithmetic and the same slice effects.  wrap4, which the translator prints into IndexGen4.v, is
   wrap64; in64_4 and sl_upd / sl_slice / sl_blit, defined below, are in64 and upd / slice / blit of
   IndexTie.v under other names (what they mirror in Go is said there), so the facts and the tactics of
   IndexTie.v apply as they stand.
   Two steps per method:
     1. <m>4_gen_spec : idx4_<m>_gen = spec4_<m>     integers only; case analysis + lia; this is
                                                    the step a change of patch.go breaks
     2. <m>4_spec_model : model = adapter (spec4_<m>)  lists; independent of patch.go
   and the corollaries on tokens (…_tie4 for the ImplV5 functions the legacy model calls,
   con4_…_tie for the legacy container functions themselves).
   Then: exactly when the generated code reaches GPanic4 (only set, exactly for an index at or
   past the end), and that the legacy replace (step4, KReplace) calls con4_set only after
   con4_get succeeded on the same container and key, where set cannot panic.
   Before step 1 a table of boundary values is evaluated and printed: on the unchanged patch.go
   it is empty; after a change of behaviour it lists concrete (neg, len, atoi) with both outcomes,
   and the step-1 proof then stops with the symbolic case (IndexTie.show_case).
   Go int is taken as 64 bit (wrap4 in IndexGen4.v). *)
From Coq Require Import Lia.
(* a trap: IndexTie comes BEFORE ImplV4, so that the unqualified upd of replace4_body below is ImplV4.upd and
   not IndexTie.upd *)
From JP Require Import IndexTie.
From JP Require Import Bytes Pointer ImplV5 ImplV4.
From JP.gen Require Import IndexGen4.

Local Open Scope Z_scope.

Definition in64_4 (z : Z) : Prop := int64_min <= z <= int64_max.
Definition atoi_ok4 (a : option Z) : Prop := match a with Some z => in64_4 z | None => True end.

Lemma wrap4_in64 z : in64_4 (wrap4 z).
Proof. exact (wrap64_in64 z). Qed.

Lemma atoi_in64_4 s : atoi_ok4 (atoi s).
Proof. exact (atoi_in64 s). Qed.

Lemma zlen_nonneg4 {A} (l : list A) : 0 <= zlen l.
Proof. exact (zlen_nonneg l). Qed.

Section Run4.
  Context {A : Type} (nilv v : A).

  Definition sl_upd (l : list A) (i : Z) : list A :=
    firstn (Z.to_nat i) l ++ v :: skipn (S (Z.to_nat i)) l.

  Definition sl_slice (l : list A) (a b : Z) : list A :=
    firstn (Z.to_nat (b - a)) (skipn (Z.to_nat a) l).

  Definition sl_blit (dst : list A) (a b : Z) (src : list A) : list A :=
    let n := Nat.min (Z.to_nat (b - a)) (length src) in
    firstn (Z.to_nat a) dst ++ firstn n src ++ skipn (Z.to_nat a + n) dst.

  Definition sel4 (st : list A * list A) (x : sl4) : list A :=
    match x with SNodes4 => fst st | SAry4 => snd st end.
  Definition put4 (st : list A * list A) (x : sl4) (l : list A) : list A * list A :=
    match x with SNodes4 => (l, snd st) | SAry4 => (fst st, l) end.

  (* state: (the slice d points to, the made slice) *)
  Definition estep4 (st : list A * list A) (e : eff4) : list A * list A :=
    match e with
    | EAppend4 => (fst st ++ [v], snd st)
    | EMake4 n => (fst st, repeat nilv (Z.to_nat n))
    | ECopy4 d a b s c e' => put4 st d (sl_blit (sel4 st d) a b (sl_slice (sel4 st s) c e'))
    | EStore4 x i => put4 st x (sl_upd (sel4 st x) i)
    | ECommit4 => (snd st, snd st)
    end.

  (* the slice d points to after the effects *)
  Definition run4 (es : list eff4) (ns : list A) : list A := fst (fold_left estep4 es (ns, [])).
End Run4.

(* the effects of add at position i, and of remove at position i, on a slice of length len *)
Definition ins_effs4 (len i : Z) : list eff4 :=
  [EMake4 (len + 1); ECopy4 SAry4 0 i SNodes4 0 i; EStore4 SAry4 i;
   ECopy4 SAry4 (i + 1) (len + 1) SNodes4 i len; ECommit4].

Definition rm_effs4 (len i : Z) : list eff4 :=
  [EMake4 (len - 1); ECopy4 SAry4 0 i SNodes4 0 i; ECopy4 SAry4 i (len - 1) SNodes4 (i + 1) len; ECommit4].

Lemma run4_ins {A} (nilv v : A) (ns : list A) i : 0 <= i <= zlen ns ->
  run4 nilv v (ins_effs4 (zlen ns) i) ns = firstn (Z.to_nat i) ns ++ v :: skipn (Z.to_nat i) ns.
Proof. exact (run_ins nilv v ns i). Qed.

Lemma run4_rm {A} (nilv v : A) (ns : list A) i : 0 <= i < zlen ns ->
  run4 nilv v (rm_effs4 (zlen ns) i) ns = firstn (Z.to_nat i) ns ++ skipn (S (Z.to_nat i)) ns.
Proof. exact (run_rm nilv v ns i). Qed.

(* ---- the integer skeletons of the model functions ---- *)
(* resolve_idx_get (con4_get / con4_put on DAry); the legacy get has no test of the empty key *)
Definition spec4_get (neg : bool) (len : Z) (a : option Z) : outcome4 :=
  match a with
  | None => GErr4 CAtoi4
  | Some idx =>
      if idx <? 0 then
        if negb neg then GErr4 CInvalidIndex4
        else if idx <? - len then GErr4 CInvalidIndex4
        else let idx := idx + len in
             if len <=? idx then GErr4 CInvalidIndex4 else GRet4 idx
      else if len <=? idx then GErr4 CInvalidIndex4 else GRet4 idx
  end.

(* ary_set *)
Definition spec4_set (neg : bool) (len : Z) (a : option Z) : outcome4 :=
  match a with
  | None => GErr4 CAtoi4
  | Some idx =>
      if idx <? 0 then
        if negb neg then GErr4 CInvalidIndex4
        else if idx <? - len then GErr4 CInvalidIndex4
        else let idx := idx + len in
             if len <=? idx then GPanic4 else GDone4 [EStore4 SNodes4 idx]
      else if len <=? idx then GPanic4 else GDone4 [EStore4 SNodes4 idx]
  end.

(* ary_add; dash is key == "-" *)
Definition spec4_add (neg : bool) (len : Z) (a : option Z) (dash : bool) : outcome4 :=
  if dash then GDone4 [EAppend4] else
  match a with
  | None => GErr4 CAtoi4
  | Some idx =>
      let sz := len + 1 in
      if sz <=? idx then GErr4 CInvalidIndex4
      else if idx <? 0 then
        if negb neg then GErr4 CInvalidIndex4
        else if idx <? - sz then GErr4 CInvalidIndex4
        else let idx := idx + sz in
             if len <? idx then GPanic4 else GDone4 (ins_effs4 len idx)
      else GDone4 (ins_effs4 len idx)
  end.

(* ary_remove with AllowMissingPathOnRemove = false (the legacy package has no such option) *)
Definition spec4_remove (neg : bool) (len : Z) (a : option Z) : outcome4 :=
  match a with
  | None => GErr4 CAtoi4
  | Some idx =>
      if len <=? idx then GErr4 CInvalidIndex4
      else if idx <? 0 then
        if negb neg then GErr4 CInvalidIndex4
        else if idx <? - len then GErr4 CInvalidIndex4
        else let idx := idx + len in GDone4 (rm_effs4 len idx)
      else GDone4 (rm_effs4 len idx)
  end.

(* ---- concrete boundary values: printed when a tie is broken ---- *)
Definition outcome4_eq_dec (x y : outcome4) : {x = y} + {x <> y}.
Proof.
  repeat (decide equality; try apply Z.eq_dec).
Defined.

Definition grid_lens4 (top : Z) : list Z := [0; 1; 2; 3; top - 1; top].

Definition grid_idxs4 (len : Z) : list (option Z) :=
  None :: map Some
    (nodup Z.eq_dec (filter (fun z => (int64_min <=? z) && (z <=? int64_max))
       [int64_min; int64_min + 1; - len - 2; - len - 1; - len; - len + 1; -2; -1; 0; 1;
        len - 1; len; len + 1; len + 2; int64_max - 1; int64_max])).

Definition grid_bad4 (top : Z) (f g : bool -> Z -> option Z -> outcome4)
  : list (bool * Z * option Z * outcome4 * outcome4) :=
  flat_map (fun neg => flat_map (fun len => flat_map (fun a =>
    if outcome4_eq_dec (f neg len a) (g neg len a) then []
    else [(neg, len, a, f neg len a, g neg len a)])
    (grid_idxs4 len)) (grid_lens4 top)) [false; true].

Definition nokey4 (_ : list byte) : bool := false.

Definition bad4_get := grid_bad4 int64_max (fun n l a => idx4_get_gen n l a nokey4) (fun n l a => spec4_get n l a).
Definition bad4_set := grid_bad4 int64_max (fun n l a => idx4_set_gen n l a nokey4) (fun n l a => spec4_set n l a).
Definition bad4_add := grid_bad4 (int64_max - 1) (fun n l a => idx4_add_gen n l a nokey4) (fun n l a => spec4_add n l a false).
Definition bad4_remove := grid_bad4 int64_max (fun n l a => idx4_remove_gen n l a nokey4) (fun n l a => spec4_remove n l a).

(* (neg, len, atoi, outcome of the legacy patch.go as translated, outcome of the model) *)
Eval vm_compute in (bad4_get, bad4_set, bad4_add, bad4_remove).

(* ---- step 1: the generated functions are the skeletons, for every int ---- *)
Theorem get4_gen_spec neg len a keyeq :
  0 <= len <= int64_max -> atoi_ok4 a ->
  idx4_get_gen neg len a keyeq = spec4_get neg len a.
Proof.
  intros Hl Ha. unfold idx4_get_gen, spec4_get. change wrap4 with IndexGen.wrap64.
  destruct a as [idx|]; [change (in64 idx) in Ha|reflexivity].
  tie_auto idx4_get_gen.
Qed.

Theorem set4_gen_spec neg len a keyeq :
  0 <= len <= int64_max -> atoi_ok4 a ->
  idx4_set_gen neg len a keyeq = spec4_set neg len a.
Proof.
  intros Hl Ha. unfold idx4_set_gen, spec4_set. change wrap4 with IndexGen.wrap64.
  destruct a as [idx|]; [change (in64 idx) in Ha|reflexivity].
  tie_auto idx4_set_gen.
Qed.

(* len + 1 must be an int: see add4_overflow_at_max_len below *)
Theorem add4_gen_spec neg len a keyeq :
  0 <= len < int64_max -> atoi_ok4 a ->
  idx4_add_gen neg len a keyeq = spec4_add neg len a (keyeq [x2d]).
Proof.
  intros Hl Ha. unfold idx4_add_gen, spec4_add, ins_effs4. change wrap4 with IndexGen.wrap64.
  destruct (keyeq [x2d]); [reflexivity|].
  destruct a as [idx|]; [change (in64 idx) in Ha|reflexivity].
  tie_auto idx4_add_gen.
Qed.

Theorem remove4_gen_spec neg len a keyeq :
  0 <= len <= int64_max -> atoi_ok4 a ->
  idx4_remove_gen neg len a keyeq = spec4_remove neg len a.
Proof.
  intros Hl Ha. unfold idx4_remove_gen, spec4_remove, rm_effs4. change wrap4 with IndexGen.wrap64.
  destruct a as [idx|]; [change (in64 idx) in Ha|reflexivity].
  tie_auto idx4_remove_gen.
Qed.

(* ---- where the generated code panics ---- *)
(* set: exactly for an index at or past the end (the index expression of the assignment is out of
   range); a negative index that survives the two tests lands inside *)
Theorem set4_gen_panic_iff neg len a keyeq :
  0 <= len <= int64_max -> atoi_ok4 a ->
  (idx4_set_gen neg len a keyeq = GPanic4 <-> exists idx, a = Some idx /\ len <= idx).
Proof.
  intros Hl Ha. rewrite set4_gen_spec by assumption. unfold spec4_set.
  destruct a as [idx|]; [|split; [discriminate | intros [i [E _]]; discriminate]].
  cbv zeta. split.
  - intro H. exists idx. split; [reflexivity|].
    destruct (Z.ltb_spec idx 0).
    + destruct neg; cbn [negb] in H; [|discriminate].
      destruct (Z.ltb_spec idx (- len)); [discriminate|].
      destruct (Z.leb_spec len (idx + len)); [lia | discriminate].
    + destruct (Z.leb_spec len idx); [assumption | discriminate].
  - intros [i [E L]]. inversion E; subst i.
    destruct (Z.ltb_spec idx 0); [lia|].
    destruct (Z.leb_spec len idx); [reflexivity | lia].
Qed.

(* get and set resolve the index alike: where get returns an element, it is one of the slice and set
   stores into it; get returns nothing else but an error *)
Lemma spec4_get_set neg len a : 0 <= len ->
  match spec4_get neg len a with
  | GRet4 i => 0 <= i < len /\ spec4_set neg len a = GDone4 [EStore4 SNodes4 i]
  | GErr4 _ => True
  | GDone4 _ | GPanic4 => False
  end.
Proof.
  intro Hl. unfold spec4_get, spec4_set. destruct a as [idx|]; [|exact I]. cbv zeta.
  destruct (Z.ltb_spec idx 0).
  - destruct (negb neg); [exact I|]. destruct (Z.ltb_spec idx (- len)); [exact I|].
    destruct (Z.leb_spec len (idx + len)); [exact I|]. split; [lia | reflexivity].
  - destruct (Z.leb_spec len idx); [exact I|]. split; [lia | reflexivity].
Qed.

Theorem get4_gen_never_panics neg len a keyeq :
  0 <= len <= int64_max -> atoi_ok4 a -> idx4_get_gen neg len a keyeq <> GPanic4.
Proof.
  intros Hl Ha E. pose proof (spec4_get_set neg len a (proj1 Hl)) as C.
  rewrite <- (get4_gen_spec neg len a keyeq Hl Ha), E in C. exact C.
Qed.

Theorem add4_gen_never_panics neg len a keyeq :
  0 <= len < int64_max -> atoi_ok4 a -> idx4_add_gen neg len a keyeq <> GPanic4.
Proof.
  intros Hl Ha. rewrite add4_gen_spec by assumption. unfold spec4_add.
  destruct (keyeq [x2d]); [discriminate|].
  destruct a as [idx|]; [|discriminate]. cbv zeta.
  destruct (Z.leb_spec (len + 1) idx); [discriminate|].
  destruct (Z.ltb_spec idx 0); [|discriminate].
  destruct (negb neg); [discriminate|].
  destruct (Z.ltb_spec idx (- (len + 1))); [discriminate|].
  destruct (Z.ltb_spec len (idx + (len + 1))); [lia | discriminate].
Qed.

Theorem remove4_gen_never_panics neg len a keyeq :
  0 <= len <= int64_max -> atoi_ok4 a -> idx4_remove_gen neg len a keyeq <> GPanic4.
Proof.
  intros Hl Ha. rewrite remove4_gen_spec by assumption. unfold spec4_remove.
  destruct a as [idx|]; [|discriminate]. cbv zeta.
  destruct (len <=? idx); [discriminate|].
  destruct (idx <? 0); [|discriminate].
  destruct (negb neg); [discriminate|]. destruct (idx <? - len); discriminate.
Qed.

(* what Patch.replace relies on: where get returns an element, set stores into that very element *)
Theorem get4_ok_set4_ok neg len a keyeq keyeq' i :
  0 <= len <= int64_max -> atoi_ok4 a ->
  idx4_get_gen neg len a keyeq = GRet4 i ->
  idx4_set_gen neg len a keyeq' = GDone4 [EStore4 SNodes4 i] /\ 0 <= i < len.
Proof.
  intros Hl Ha E. pose proof (spec4_get_set neg len a (proj1 Hl)) as C.
  rewrite <- (get4_gen_spec neg len a keyeq Hl Ha), E in C.
  rewrite set4_gen_spec by assumption. split; apply C.
Qed.

(* ---- step 2: the model functions are their skeletons read through the adapters ---- *)
Definition cls4 (c : errcls4) : errclass :=
  match c with CInvalidIndex4 => EInvalidIndex | CMissing4 => EMissing | CAtoi4 => EAtoi | COther4 => EOther end.

(* the result of get: the index found (resolve_idx_get), the node (con4_get) *)
Definition res_idx4 (g : outcome4) : res nat :=
  match g with
  | GRet4 i => Ok (Z.to_nat i)
  | GErr4 c => Err (cls4 c)
  | GDone4 _ | GPanic4 => Panic
  end.

Definition res_node4 (ns : list node) (g : outcome4) : res node :=
  match g with
  | GRet4 i => Ok (nth (Z.to_nat i) ns NNil)
  | GErr4 c => Err (cls4 c)
  | GDone4 _ | GPanic4 => Panic
  end.

(* the result of set / add / remove: the slice after the effects *)
Definition res_nodes4 (ns : list node) (v : node) (g : outcome4) : res (list node) :=
  match g with
  | GDone4 es => Ok (run4 NNil v es ns)
  | GErr4 c => Err (cls4 c)
  | GRet4 _ | GPanic4 => Panic
  end.

(* ... as the legacy container *)
Definition res_con4 (ns : list node) (v : node) (g : outcome4) : res con4 :=
  match g with
  | GDone4 es => Ok (DAry (run4 NNil v es ns))
  | GErr4 c => Err (cls4 c)
  | GRet4 _ | GPanic4 => Panic
  end.

Lemma res_con4_nodes ns v g :
  match res_nodes4 ns v g with Ok ns' => Ok (DAry ns') | Err e => Err e | Panic => Panic end = res_con4 ns v g.
Proof. destruct g; reflexivity. Qed.

Theorem get4_spec_model o len key :
  resolve_idx_get o len key = res_idx4 (spec4_get (o_neg o) len (atoi key)).
Proof.
  unfold resolve_idx_get, spec4_get. destruct (atoi key) as [idx|]; [|reflexivity].
  destruct (idx <? 0).
  - destruct (o_neg o); [|reflexivity]. cbn [negb].
    destruct (idx <? - len); [reflexivity|]. cbv zeta. destruct (len <=? idx + len); reflexivity.
  - destruct (len <=? idx); reflexivity.
Qed.

Theorem set4_spec_model o ns key v :
  ary_set o ns key v = res_nodes4 ns v (spec4_set (o_neg o) (zlen ns) (atoi key)).
Proof.
  unfold ary_set, spec4_set. destruct (atoi key) as [idx|]; [|reflexivity]. cbv zeta.
  destruct (idx <? 0).
  - destruct (o_neg o); [|reflexivity]. cbn [negb].
    destruct (idx <? - zlen ns); [reflexivity|]. destruct (zlen ns <=? idx + zlen ns); reflexivity.
  - destruct (zlen ns <=? idx); reflexivity.
Qed.

Theorem add4_spec_model o ns key v :
  ary_add o ns key v = res_nodes4 ns v (spec4_add (o_neg o) (zlen ns) (atoi key) (bseq key [x2d])).
Proof.
  unfold ary_add, spec4_add. destruct (bseq key [x2d]); [reflexivity|].
  destruct (atoi key) as [idx|]; [|reflexivity]. cbv zeta.
  pose proof (zlen_nonneg4 ns) as L0.
  destruct (Z.leb_spec (zlen ns + 1) idx); [reflexivity|].
  destruct (Z.ltb_spec idx 0).
  - destruct (o_neg o); [|reflexivity]. cbn [negb].
    destruct (Z.ltb_spec idx (- (zlen ns + 1))); [reflexivity|].
    destruct (Z.ltb_spec (zlen ns) (idx + (zlen ns + 1))); [reflexivity|].
    cbn [res_nodes4]. rewrite run4_ins by lia. reflexivity.
  - cbn [res_nodes4]. rewrite run4_ins by lia. reflexivity.
Qed.

(* the legacy package has no AllowMissingPathOnRemove: the legacy model passes o5 g, where it is false *)
Theorem remove4_spec_model o ns key :
  o_allow o = false ->
  ary_remove o ns key = res_nodes4 ns NNil (spec4_remove (o_neg o) (zlen ns) (atoi key)).
Proof.
  intro AL. unfold ary_remove, spec4_remove. rewrite AL. destruct (atoi key) as [idx|]; [|reflexivity]. cbv zeta.
  destruct (Z.leb_spec (zlen ns) idx); [reflexivity|].
  destruct (Z.ltb_spec idx 0).
  - destruct (o_neg o); [|reflexivity]. cbn [negb].
    destruct (Z.ltb_spec idx (- zlen ns)); [reflexivity|].
    cbn [res_nodes4]. rewrite run4_rm by lia. reflexivity.
  - cbn [res_nodes4]. rewrite run4_rm by lia. reflexivity.
Qed.

(* ---- the ties, on tokens; their hypothesis: the slice is shorter than 2^63 (for add: its length
   plus one is an int) ---- *)
(* (a) the ImplV5 functions the legacy model calls *)
Theorem resolve_idx_get_tie4 o len key :
  0 <= len <= int64_max ->
  resolve_idx_get o len key = res_idx4 (idx4_get_gen (o_neg o) len (atoi key) (bseq key)).
Proof.
  intro H. rewrite get4_gen_spec by (auto using atoi_in64_4). apply get4_spec_model.
Qed.

Theorem ary_set_tie4 o ns key v :
  zlen ns <= int64_max ->
  ary_set o ns key v = res_nodes4 ns v (idx4_set_gen (o_neg o) (zlen ns) (atoi key) (bseq key)).
Proof.
  intro H. pose proof (zlen_nonneg4 ns).
  rewrite set4_gen_spec by (auto using atoi_in64_4). apply set4_spec_model.
Qed.

Theorem ary_add_tie4 o ns key v :
  zlen ns < int64_max ->
  ary_add o ns key v = res_nodes4 ns v (idx4_add_gen (o_neg o) (zlen ns) (atoi key) (bseq key)).
Proof.
  intro H. pose proof (zlen_nonneg4 ns).
  rewrite add4_gen_spec by (auto using atoi_in64_4). apply add4_spec_model.
Qed.

Theorem ary_remove_tie4 o ns key :
  o_allow o = false -> zlen ns <= int64_max ->
  ary_remove o ns key = res_nodes4 ns NNil (idx4_remove_gen (o_neg o) (zlen ns) (atoi key) (bseq key)).
Proof.
  intros AL H. pose proof (zlen_nonneg4 ns).
  rewrite remove4_gen_spec by (auto using atoi_in64_4). apply remove4_spec_model. exact AL.
Qed.

(* (b) the legacy container functions: every token, both settings of SupportNegativeIndices *)
Theorem con4_get_tie g ns key :
  zlen ns <= int64_max ->
  con4_get g (DAry ns) key = res_node4 ns (idx4_get_gen (g_neg g) (zlen ns) (atoi key) (bseq key)).
Proof.
  intro H. pose proof (zlen_nonneg4 ns). cbn [con4_get].
  rewrite (resolve_idx_get_tie4 (o5 g)) by lia. cbn [o5 o_neg].
  destruct (idx4_get_gen (g_neg g) (zlen ns) (atoi key) (bseq key)); reflexivity.
Qed.

Theorem con4_set_tie g ns key v :
  zlen ns <= int64_max ->
  con4_set g (DAry ns) key v = res_con4 ns v (idx4_set_gen (g_neg g) (zlen ns) (atoi key) (bseq key)).
Proof.
  intro H. cbn [con4_set]. rewrite (ary_set_tie4 (o5 g)) by exact H. cbn [o5 o_neg]. apply res_con4_nodes.
Qed.

Theorem con4_add_tie g ns key v :
  zlen ns < int64_max ->
  con4_add g (DAry ns) key v = res_con4 ns v (idx4_add_gen (g_neg g) (zlen ns) (atoi key) (bseq key)).
Proof.
  intro H. cbn [con4_add]. rewrite (ary_add_tie4 (o5 g)) by exact H. cbn [o5 o_neg]. apply res_con4_nodes.
Qed.

Theorem con4_remove_tie g ns key :
  zlen ns <= int64_max ->
  con4_remove g (DAry ns) key = res_con4 ns NNil (idx4_remove_gen (g_neg g) (zlen ns) (atoi key) (bseq key)).
Proof.
  intro H. cbn [con4_remove]. rewrite (ary_remove_tie4 (o5 g)) by (try reflexivity; exact H).
  cbn [o5 o_neg]. apply res_con4_nodes.
Qed.

(* the write-back of findObject's walk (con4_put) resolves the index as get does *)
Theorem con4_put_tie g ns key ch :
  zlen ns <= int64_max ->
  con4_put g (DAry ns) key ch =
  match idx4_get_gen (g_neg g) (zlen ns) (atoi key) (bseq key) with
  | GRet4 i => DAry (firstn (Z.to_nat i) ns ++ ch :: skipn (S (Z.to_nat i)) ns)
  | _ => DAry ns
  end.
Proof.
  intro H. pose proof (zlen_nonneg4 ns). cbn [con4_put].
  rewrite (resolve_idx_get_tie4 (o5 g)) by lia. cbn [o5 o_neg].
  destruct (idx4_get_gen (g_neg g) (zlen ns) (atoi key) (bseq key)); reflexivity.
Qed.

(* ---- the panic of set and the legacy replace ---- *)
(* the model's set panics exactly where the translated Go code does: for every array (no bound on its
   length is needed here, the model computes with unbounded integers) *)
Theorem con4_set_panic_iff g ns key v :
  con4_set g (DAry ns) key v = Panic <-> exists idx, atoi key = Some idx /\ zlen ns <= idx.
Proof.
  pose proof (zlen_nonneg4 ns) as L0. cbn [con4_set]. unfold ary_set. cbv zeta.
  destruct (atoi key) as [idx|]; [|split; [discriminate | intros [i [E _]]; discriminate]].
  split.
  - intro H. exists idx. split; [reflexivity|].
    destruct (Z.ltb_spec idx 0).
    + destruct (negb (o_neg (o5 g))); [discriminate|].
      destruct (Z.ltb_spec idx (- zlen ns)); [discriminate|].
      destruct (Z.leb_spec (zlen ns) (idx + zlen ns)); [lia | discriminate].
    + destruct (Z.leb_spec (zlen ns) idx); [assumption | discriminate].
  - intros [i [E L]]. inversion E; subst i.
    destruct (Z.ltb_spec idx 0); [lia|].
    destruct (Z.leb_spec (zlen ns) idx); [reflexivity | lia].
Qed.

Theorem con4_set_panic_iff_gen g ns key v :
  zlen ns <= int64_max ->
  (con4_set g (DAry ns) key v = Panic <-> idx4_set_gen (g_neg g) (zlen ns) (atoi key) (bseq key) = GPanic4).
Proof.
  intro H. rewrite con4_set_panic_iff. symmetry.
  apply set4_gen_panic_iff; [split; [apply zlen_nonneg4 | exact H] | apply atoi_in64_4].
Qed.

Theorem con4_get_never_panics g c key : con4_get g c key <> Panic.
Proof.
  destruct c as [obj| |ns]; cbn [con4_get]; try discriminate. rewrite get4_spec_model.
  pose proof (spec4_get_set (o_neg (o5 g)) (zlen ns) (atoi key) (zlen_nonneg4 ns)) as C.
  destruct (spec4_get (o_neg (o5 g)) (zlen ns) (atoi key)); [discriminate | destruct C | discriminate | destruct C].
Qed.

(* where get succeeds, set on the same container and key does not panic (and on an array it succeeds) *)
Theorem con4_get_ok_set_ok g c key v n :
  con4_get g c key = Ok n -> con4_set g c key v <> Panic /\ (forall ns, c = DAry ns -> exists c', con4_set g c key v = Ok c').
Proof.
  destruct c as [obj| |ns]; cbn [con4_get con4_set]; intro G.
  - split; [discriminate | intros ns E; discriminate E].
  - split; [discriminate | intros ns E; discriminate E].
  - rewrite get4_spec_model in G. rewrite set4_spec_model.
    pose proof (spec4_get_set (o_neg (o5 g)) (zlen ns) (atoi key) (zlen_nonneg4 ns)) as C.
    destruct (spec4_get (o_neg (o5 g)) (zlen ns) (atoi key)) as [i|es|e|]; try discriminate G.
    destruct C as [_ ->]. split; [discriminate | intros ns0 _; eexists; reflexivity].
Qed.

(* the function the legacy replace (step4, KReplace, non-empty path) runs at the container found:
   Patch.replace calls con.get(key) and returns ErrMissing if that fails, before con.set(key, value) *)
Definition replace4_body (g : opts4) (v : node) (c : con4) (key : bytes) : res unit * con4 :=
  match con4_get g c key with
  | Ok _ => upd (con4_set g c key v) c tt
  | Err _ => (Err EMissing, c)
  | Panic => (Panic, c)
  end.

Theorem step4_replace_is_body g st op b r :
  op_kind op = KReplace -> op_str op (B "path") = Ok (b :: r) ->
  step4 g st op =
  lift4 (find4 g (r4 st) (b :: r)
           (replace4_body g (match op_value4 op with Some v => v | None => NNil end))) st
        (fun _ c2 => Ok (mkState4 c2 (acc4 st))).
Proof.
  intros K P. unfold step4. rewrite K, P. reflexivity.
Qed.

(* set is never called in the situation in which it panics *)
Theorem replace4_body_never_panics g v c key : fst (replace4_body g v c key) <> Panic.
Proof.
  unfold replace4_body. destruct (con4_get g c key) as [n|e|] eqn:G.
  - destruct (con4_get_ok_set_ok g c key v n G) as [NP _].
    destruct (con4_set g c key v); cbn [upd fst]; [discriminate | discriminate | congruence].
  - discriminate.
  - exfalso. exact (con4_get_never_panics g c key G).
Qed.

(* in integers: replace stores exactly into the element get returned *)
Theorem replace4_body_array g v ns key :
  zlen ns <= int64_max ->
  replace4_body g v (DAry ns) key =
  match idx4_get_gen (g_neg g) (zlen ns) (atoi key) (bseq key) with
  | GRet4 i => (Ok tt, DAry (firstn (Z.to_nat i) ns ++ v :: skipn (S (Z.to_nat i)) ns))
  | GErr4 _ => (Err EMissing, DAry ns)
  | _ => (Panic, DAry ns)
  end.
Proof.
  intro H. pose proof (zlen_nonneg4 ns) as L0. unfold replace4_body.
  rewrite con4_get_tie, con4_set_tie by exact H.
  destruct (idx4_get_gen (g_neg g) (zlen ns) (atoi key) (bseq key)) as [i|es|c|] eqn:G; cbn [res_node4]; try reflexivity.
  destruct (get4_ok_set4_ok (g_neg g) (zlen ns) (atoi key) (bseq key) (bseq key) i) as [S R];
    [lia | apply atoi_in64_4 | exact G |].
  rewrite S. cbn [res_con4 upd run4 fold_left estep4 put4 sel4 fst snd]. reflexivity.
Qed.

(* ---- the table of boundary values is empty: its points lie in the domain of step 1 ---- *)
Lemma grid_bad4_nil top f g :
  (forall neg len a, In len (grid_lens4 top) -> In a (grid_idxs4 len) -> f neg len a = g neg len a) ->
  grid_bad4 top f g = [].
Proof.
  intro H. unfold grid_bad4. apply flat_map_nil; intros neg _.
  apply flat_map_nil; intros len Hl. apply flat_map_nil; intros a Ha.
  destruct (outcome4_eq_dec _ _) as [_|N]; [reflexivity | destruct (N (H neg len a Hl Ha))].
Qed.

Example boundary_values_agree4 : (bad4_get, bad4_set, bad4_add, bad4_remove) = ([], [], [], []).
Proof.
  repeat apply f_equal2; apply grid_bad4_nil; intros neg len a Hl Ha;
    apply grid_lens_ok in Hl; try range_tac; apply grid_idxs_ok in Ha.
  - apply get4_gen_spec; assumption.
  - apply set4_gen_spec; assumption.
  - apply add4_gen_spec; [range_tac | assumption].
  - apply remove4_gen_spec; assumption.
Qed.

(* ---- where the range hypothesis of add is needed ---- *)
(* With a slice of length 2^63-1 the Go code computes sz = len+1 = -2^63 and make panics; the model
   computes with unbounded integers.  A slice of that length cannot exist (2^66 bytes of pointers),
   so this is the edge of the hypothesis zlen ns < int64_max, not a reachable case. *)
Example add4_overflow_at_max_len :
  idx4_add_gen false int64_max (Some 0) nokey4 = GPanic4 /\
  spec4_add false int64_max (Some 0) false = GDone4 (ins_effs4 int64_max 0).
Proof. split; vm_compute; reflexivity. Qed.

(* the panic of set is real (index out of range) when set is called directly; Patch.replace calls
   get first (replace4_body_never_panics) *)
Example set4_out_of_range_panics :
  idx4_set_gen false 2 (Some 2) nokey4 = GPanic4 /\
  con4_set (mkOpts4 true 0 None) (DAry [NNil; NNil]) [x32] NNil = Panic /\
  replace4_body (mkOpts4 true 0 None) NNil (DAry [NNil; NNil]) [x32] = (Err EMissing, DAry [NNil; NNil]).
Proof. repeat split; vm_compute; reflexivity. Qed.

(* the most negative int: - idx wraps around; patch.go compares idx < -len and is not affected;
   add accepts -(len+1) as position 0 *)
Example most_negative_index4 :
  idx4_get_gen true 3 (Some int64_min) nokey4 = GErr4 CInvalidIndex4 /\
  idx4_remove_gen true 3 (Some int64_min) nokey4 = GErr4 CInvalidIndex4 /\
  idx4_add_gen true 3 (Some (-4)) nokey4 = GDone4 (ins_effs4 3 0).
Proof. repeat split; vm_compute; reflexivity. Qed.

Print Assumptions get4_gen_spec.
Print Assumptions set4_gen_spec.
Print Assumptions add4_gen_spec.
Print Assumptions remove4_gen_spec.
Print Assumptions set4_gen_panic_iff.
Print Assumptions get4_gen_never_panics.
Print Assumptions add4_gen_never_panics.
Print Assumptions remove4_gen_never_panics.
Print Assumptions get4_ok_set4_ok.
Print Assumptions resolve_idx_get_tie4.
Print Assumptions ary_set_tie4.
Print Assumptions ary_add_tie4.
Print Assumptions ary_remove_tie4.
Print Assumptions con4_get_tie.
Print Assumptions con4_set_tie.
Print Assumptions con4_add_tie.
Print Assumptions con4_remove_tie.
Print Assumptions con4_put_tie.
Print Assumptions con4_set_panic_iff.
Print Assumptions con4_set_panic_iff_gen.
Print Assumptions con4_get_ok_set_ok.
Print Assumptions step4_replace_is_body.
Print Assumptions replace4_body_never_panics.
Print Assumptions replace4_body_array.
