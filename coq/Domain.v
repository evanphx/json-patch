(* Domain.v — the stated domains of the properties as boolean predicates, and the translation of a
   decoded patch to the reference's operations.  No proofs here.  These predicates are used both
   by the theorems (as hypotheses) and by the correspondence oracle (to decide Skip); the c14_*
   predicates by the oracle only (no theorem mentions them). *)
From JP Require Import Bytes Json Text Strings Den Pointer Rfc6902 ImplV5.

Definition ref_kind (k : opk) : opkind :=
  match k with
  | KAdd => OpAdd | KRemove => OpRemove | KReplace => OpReplace
  | KMove => OpMove | KCopy => OpCopy | _ => OpTest
  end.

Definition str_or_empty (r : res bytes) : bytes := match r with Ok s => s | _ => [] end.

(* the reference operation denoted by a decoded Operation *)
Definition den_op (op : operation) : rop :=
  mkRop (ref_kind (op_kind op))
        (str_or_empty (op_str op (B "path")))
        (str_or_empty (op_str op (B "from")))
        (match aget (B "value") op with
         | Some (Some t) => Some (den t)
         | Some None => Some ONull
         | None => None
         end).

(* a pointer the properties talk about: "" or /tok/tok... with no empty token, and every token
   that strconv.Atoi would read as a number spelled canonically *)
Definition token_ok (t : bytes) : bool :=
  match t with
  | [] => false
  | _ =>
      match atoi t with
      | Some _ => match canonical_nat t, canonical_neg t with None, None => false | _, _ => true end
      | None => true
      end
  end.

Definition pointer_ok (p : bytes) : bool :=
  match p with
  | [] => true
  | x2f :: r => forallb token_ok (split_slash r)
  | _ => false
  end.

Definition is_empty (p : bytes) : bool := match p with [] => true | _ => false end.

Definition value_is_null (op : operation) : bool :=
  match aget (B "value") op with
  | Some None => true
  | Some (Some TNull) => true
  | _ => false
  end.

(* C01's exclusions, per operation *)
Definition op_in_domain (op : operation) : bool :=
  let path := str_or_empty (op_str op (B "path")) in
  let from := str_or_empty (op_str op (B "from")) in
  pointer_ok path &&
  match op_kind op with
  | KAdd | KReplace => negb (is_empty path && value_is_null op)
  | KRemove => negb (is_empty path)
  | KMove | KCopy => pointer_ok from && negb (is_empty path)
  | KTest => true
  | KUnknown => false
  end.

Definition values_nodup (op : operation) : bool :=
  match aget (B "value") op with
  | Some (Some t) => tnodup t
  | _ => true
  end.

Definition in_domain_C01 (ops : list operation) : bool :=
  forallb op_in_domain ops && forallb values_nodup ops.

Definition root_container (t : tjson) : bool :=
  match t with TObj _ | TArr _ => true | _ => false end.

Definition dialect_of (o : opts) : dialect := mkDialect (o_neg o).

(* ---- C14: add paths whose tokens are member names or canonical non-negative indices,
   '-' only as the last token ---- *)
Definition c14_token_ok (last : bool) (t : bytes) : bool :=
  match t with
  | [] => false
  | _ =>
      if bseq t [x2d] then last else
      match atoi t with
      | Some _ => match canonical_nat t with Some _ => true | None => false end
      | None => true
      end
  end.

Fixpoint c14_tokens_ok (ts : list bytes) : bool :=
  match ts with
  | [] => true
  | [t] => c14_token_ok true t
  | t :: r => c14_token_ok false t && c14_tokens_ok r
  end.

Definition c14_path_ok (p : bytes) : bool :=
  match p with
  | x2f :: r => c14_tokens_ok (split_slash r)
  | _ => false
  end.

(* ---- spelled as the encoder itself spells it (C15's byte-identity clauses) ---- *)
Fixpoint canonical_spelling (esc : bool) (t : tjson) : bool :=
  match t with
  | TStr b => bseq (quote esc (unquote b)) b
  | TArr l => forallb (canonical_spelling esc) l
  | TObj ms =>
      forallb (fun kv => bseq (quote esc (unquote (fst kv))) (fst kv) && canonical_spelling esc (snd kv)) ms
  | _ => true
  end.

(* ---- nesting depth of decoded values, and the side condition of the copy depth check ----
   (definitions only; the facts about them are in Depth.v) *)
Fixpoint odepth (j : ojson) : N :=
  match j with
  | OArr l => 1 + (fix go (l : list ojson) : N := match l with [] => 0 | x :: r => N.max (odepth x) (go r) end) l
  | OObj ms => 1 + (fix go (m : list (bytes * ojson)) : N := match m with [] => 0 | kv :: r => N.max (odepth (snd kv)) (go r) end) ms
  | _ => 0
  end.


(* ---- the side condition on the reference run ---- *)
(* the operation is not a copy whose source value, as the reference resolves it in doc, nests
   deeper than the decoder accepts *)
Definition copy_fits (d : dialect) (doc : ojson) (o : rop) : bool :=
  match rkind o with
  | OpCopy =>
      match ptr_tokens (rfrom o) with
      | Some ftoks =>
          match get_at d ftoks doc with
          | Rfc6902.Ok v => (odepth v <=? max_depth)%N
          | Rfc6902.Fail _ => true
          end
      | None => true
      end
  | _ => true
  end.

(* copy_fits at every operation the reference run reaches (it stops at the first failure) *)
Fixpoint copies_fit (d : dialect) (doc : ojson) (p : list rop) : bool :=
  match p with
  | [] => true
  | o :: rest =>
      copy_fits d doc o &&
      match rfc_step d doc o with
      | Rfc6902.Ok doc' => copies_fit d doc' rest
      | Rfc6902.Fail _ => true
      end
  end.

