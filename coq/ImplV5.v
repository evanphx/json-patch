(* ImplV5.v — executable model of v5/patch.go (JSON Patch application, Equal, DecodePatch).
   No proofs here.  One Gallina function per Go function, same control flow and order of checks;
   in-place mutation becomes functional update (see DESIGN.md section 3.3 for the two rules).

   node      = *lazyNode:  NNil is the nil pointer (a decoded JSON null); NRaw is which=eRaw with
               its raw message (as a spelled tree: whitespace is never observable, compact() and
               the encoder drop it); NDoc/NAry are which=eDoc/eAry with the parsed container.
   con       = a container the walk is standing in: *partialDoc (keys AND map, separately, as in
               the code) or *partialArray; self is the node get("") returns (only the root has one).
   root      = the interface value held in the doc pointer. *)
From JP Require Import Bytes Json Text Strings Den Pointer.

Inductive node :=
| NNil
| NRaw (t : tjson)
| NDoc (keys : list bytes) (obj : list (bytes * node))
| NAry (nodes : list node).

Inductive con :=
| KDoc (self : node) (keys : list bytes) (obj : list (bytes * node))
| KDocNil (self : node) (stale : list bytes)
    (* *partialDoc whose map is nil: the document null.  Its key list was never written by this
       decode: it holds whatever the pooled decoder's lastKeys held (see Pool.v, C09) *)
| KAry (self : node) (nodes : list node).

Inductive root :=
| RCon (c : con)
| RNull.                                  (* nil *partialArray: the root was replaced by null *)

Inductive errclass :=
| ETestFailed | EMissing | EInvalidIndex | EInvalid | EExpectedObject
| ECopyLimit (limit total : Z)
| EAtoi | EDecode | EOther.

Inductive res (A : Type) :=
| Ok (a : A)
| Err (e : errclass)
| Panic.
Arguments Ok {A} a.
Arguments Err {A} e.
Arguments Panic {A}.

Record opts := mkOpts {
  o_neg : bool;       (* SupportNegativeIndices *)
  o_limit : Z;        (* AccumulatedCopySizeLimit *)
  o_allow : bool;     (* AllowMissingPathOnRemove *)
  o_ensure : bool;    (* EnsurePathExistsOnAdd *)
  o_esc : bool;       (* EscapeHTML *)
  o_stale : list bytes; (* what a pooled decodeState's lastKeys holds when this call decodes a
                           null into a partialDoc: residue of an earlier call (C09/C10) *)
  o_nullsz : option Z (* None: a copied null is counted as the code counts it (0 for a nil node, 4
                         for a stored raw null); Some z: every copied null counts z bytes.  C12 lets
                         a copied null count 0 or 4; the correspondence evaluates both. *)
}.

(* ---- decoding a raw message one level (json.UnmarshalValid into map / slice) ---- *)
Definition child (t : tjson) : node := match t with TNull => NNil | _ => NRaw t end.

(* the Go map: last value wins; only lookups and len observe it *)
Fixpoint build_obj (ms : list (bytes * tjson)) (acc : list (bytes * node)) : list (bytes * node) :=
  match ms with
  | [] => acc
  | (k, v) :: r => build_obj r (aset (unquote k) (child v) acc)
  end.

Definition doc_of (ms : list (bytes * tjson)) : list bytes * list (bytes * node) :=
  (map (fun kv => unquote (fst kv)) ms, build_obj ms []).

(* ---- rendering back to a spelled tree (RedirectMarshalJSON / TrustMarshalJSON) ---- *)
Fixpoint render (esc : bool) (n : node) : tjson :=
  match n with
  | NNil => TNull
  | NRaw t => t
  | NDoc keys obj =>
      TObj (map (fun k => (quote esc k,
                           match (fix look (m : list (bytes * node)) : option tjson :=
                                    match m with
                                    | [] => None
                                    | (k', v) :: r => if bseq k k' then Some (render esc v) else look r
                                    end) obj with
                           | Some t => t
                           | None => TNull
                           end)) keys)
  | NAry ns => TArr (map (render esc) ns)
  end.

Definition node_of_con (c : con) : node :=
  match c with
  | KDoc _ keys obj => NDoc keys obj
  | KDocNil _ _ => NNil
  | KAry _ ns => NAry ns
  end.

(* ---- partialDoc / partialArray methods ---- *)
Definition resolve_idx_get (o : opts) (len : Z) (key : bytes) : res nat :=
  match atoi key with
  | None => Err EAtoi
  | Some idx =>
      if (idx <? 0)%Z then
        if negb (o_neg o) then Err EInvalidIndex
        else if (idx <? - len)%Z then Err EInvalidIndex
        else let idx := (idx + len)%Z in
             if (len <=? idx)%Z then Err EInvalidIndex else Ok (Z.to_nat idx)
      else if (len <=? idx)%Z then Err EInvalidIndex else Ok (Z.to_nat idx)
  end.

Definition zlen {A} (l : list A) : Z := Z.of_nat (length l).

Definition con_get (o : opts) (c : con) (key : bytes) : res node :=
  match c with
  | KDoc self keys obj =>
      match key with
      | [] => Ok self
      | _ => match aget key obj with Some v => Ok v | None => Err EMissing end
      end
  | KDocNil self _ =>
      match key with [] => Ok self | _ => Err EExpectedObject end
  | KAry self ns =>
      match key with
      | [] => Ok self
      | _ => match resolve_idx_get o (zlen ns) key with
             | Ok i => Ok (nth i ns NNil)
             | Err e => Err e
             | Panic => Panic
             end
      end
  end.

(* partialDoc.set / add *)
Definition doc_set (keys : list bytes) (obj : list (bytes * node)) (key : bytes) (v : node)
  : list bytes * list (bytes * node) :=
  ((if kmem key keys then keys else keys ++ [key]), aset key v obj).

(* partialArray.set: d.nodes[idx] = val panics when idx is out of range *)
Definition ary_set (o : opts) (ns : list node) (key : bytes) (v : node) : res (list node) :=
  match atoi key with
  | None => Err EAtoi
  | Some idx =>
      let len := zlen ns in
      if (idx <? 0)%Z then
        if negb (o_neg o) then Err EInvalidIndex
        else if (idx <? - len)%Z then Err EInvalidIndex
        else let idx := (idx + len)%Z in
             if (len <=? idx)%Z then Panic
             else Ok (firstn (Z.to_nat idx) ns ++ v :: skipn (S (Z.to_nat idx)) ns)
      else if (len <=? idx)%Z then Panic
           else Ok (firstn (Z.to_nat idx) ns ++ v :: skipn (S (Z.to_nat idx)) ns)
  end.

Definition ary_add (o : opts) (ns : list node) (key : bytes) (v : node) : res (list node) :=
  if bseq key [x2d] then Ok (ns ++ [v]) else
  match atoi key with
  | None => Err EAtoi
  | Some idx =>
      let sz := (zlen ns + 1)%Z in
      if (sz <=? idx)%Z then Err EInvalidIndex
      else if (idx <? 0)%Z then
        if negb (o_neg o) then Err EInvalidIndex
        else if (idx <? - sz)%Z then Err EInvalidIndex
        else let idx := (idx + sz)%Z in
             (* copy(ary[0:idx], cur.nodes[0:idx]): panics if idx > len(cur.nodes), which the
                checks above exclude only for idx < sz *)
             if (zlen ns <? idx)%Z then Panic
             else Ok (firstn (Z.to_nat idx) ns ++ v :: skipn (Z.to_nat idx) ns)
      else Ok (firstn (Z.to_nat idx) ns ++ v :: skipn (Z.to_nat idx) ns)
  end.

(* a remove that is skipped (AllowMissingPathOnRemove) returns the nodes unchanged *)
Definition ary_remove (o : opts) (ns : list node) (key : bytes) : res (list node) :=
  match atoi key with
  | None => Err EAtoi
  | Some idx =>
      let len := zlen ns in
      if (len <=? idx)%Z then (if o_allow o then Ok ns else Err EInvalidIndex)
      else if (idx <? 0)%Z then
        if negb (o_neg o) then Err EInvalidIndex
        else if (idx <? - len)%Z then (if o_allow o then Ok ns else Err EInvalidIndex)
        else let idx := (idx + len)%Z in
             Ok (firstn (Z.to_nat idx) ns ++ skipn (S (Z.to_nat idx)) ns)
      else Ok (firstn (Z.to_nat idx) ns ++ skipn (S (Z.to_nat idx)) ns)
  end.

Definition con_add (o : opts) (c : con) (key : bytes) (v : node) : res con :=
  match c with
  | KDoc self keys obj => let (k', o') := doc_set keys obj key v in Ok (KDoc self k' o')
  | KDocNil _ _ => Err EExpectedObject
  | KAry self ns =>
      match ary_add o ns key v with
      | Ok ns' => Ok (KAry self ns') | Err e => Err e | Panic => Panic
      end
  end.

Definition con_set (o : opts) (c : con) (key : bytes) (v : node) : res con :=
  match c with
  | KDoc self keys obj => let (k', o') := doc_set keys obj key v in Ok (KDoc self k' o')
  | KDocNil _ _ => Err EExpectedObject
  | KAry self ns =>
      match ary_set o ns key v with
      | Ok ns' => Ok (KAry self ns') | Err e => Err e | Panic => Panic
      end
  end.

Definition con_remove (o : opts) (c : con) (key : bytes) : res con :=
  match c with
  | KDoc self keys obj =>
      if amem key obj then
        (* idx := first index in keys; keys[0:idx] with idx = -1 panics *)
        if kmem key keys then Ok (KDoc self (kdel1 key keys) (adel key obj)) else Panic
      else if o_allow o then Ok c else Err EMissing
  | KDocNil _ _ => Err EExpectedObject
  | KAry self ns =>
      match ary_remove o ns key with
      | Ok ns' => Ok (KAry self ns') | Err e => Err e | Panic => Panic
      end
  end.

(* ---- lazy parsing: intoDoc / intoAry as the walk uses them ---- *)
(* findObject: isArray(next.raw) ? intoAry : intoDoc.  None = the error branch. *)
Definition into_con (n : node) : option con :=
  match n with
  | NNil => None
  | NRaw (TObj ms) => let (k, o) := doc_of ms in Some (KDoc NNil k o)
  | NRaw (TArr l) => Some (KAry NNil (map child l))
  | NRaw _ => None
  | NDoc keys obj => Some (KDoc NNil keys obj)
  | NAry ns => Some (KAry NNil ns)
  end.

(* put a (possibly updated) child container back where get found it.  The node for the empty
   token is handed out fresh on every get (fix 1ccc25a): what is done to it is not kept *)
Definition con_put (o : opts) (c : con) (key : bytes) (ch : node) : con :=
  match c with
  | KDoc self keys obj =>
      match key with
      | [] => c
      | _ => KDoc self keys (aset key ch obj)
      end
  | KDocNil self st => c
  | KAry self ns =>
      match key with
      | [] => c
      | _ => match resolve_idx_get o (zlen ns) key with
             | Ok i => KAry self (firstn i ns ++ ch :: skipn (S i) ns)
             | _ => c
             end
      end
  end.

(* the walk of findObject along the decoded parts, then f at the container found.
   Result: (None, c') if findObject returns nil — c' still carries the parsing done on the way. *)
Fixpoint walk {A} (o : opts) (parts : list bytes) (c : con) (f : con -> A * con) {struct parts}
  : option A * con :=
  match parts with
  | [] => let (a, c') := f c in (Some a, c')
  | p :: rest =>
      let key := decode_token p in
      match con_get o c key with
      | Ok next =>
          match into_con next with
          | Some ch =>
              let (r, ch') := walk o rest ch f in
              (r, con_put o c key (node_of_con ch'))
          | None => (None, c)
          end
      | _ => (None, c)
      end
  end.

(* findObject: split the path; fewer than two pieces: "" is the document itself, anything else
   (no leading '/') is nil *)
Inductive found (A : Type) :=
| FoundRoot                   (* path "" : (doc, "") *)
| FoundNil                    (* nil container *)
| FoundAt (a : A).
Arguments FoundRoot {A}.
Arguments FoundNil {A}.
Arguments FoundAt {A} a.

Definition split_path (path : bytes) : option (list bytes * bytes) :=
  match split_slash path with
  | _ :: p :: ps =>
      let all := p :: ps in
      Some (removelast all, decode_token (last all []))
  | _ => None
  end.

Definition find {A} (o : opts) (c : con) (path : bytes) (f : con -> bytes -> A * con)
  : found A * con :=
  match split_path path with
  | None =>
      match path with
      | [] => let (a, c') := f c [] in (FoundAt a, c')
      | _ => (FoundNil, c)
      end
  | Some (parts, key) =>
      match walk o parts c (fun c' => f c' key) with
      | (Some a, c') => (FoundAt a, c')
      | (None, c') => (FoundNil, c')
      end
  end.

(* ---- equal ---- *)
Fixpoint tsize (t : tjson) : nat :=
  match t with
  | TArr l => S (fold_right (fun x a => tsize x + a) 0 l)
  | TObj ms => S (fold_right (fun x a => tsize (snd x) + a) 0 ms)
  | _ => 1
  end%nat.

Fixpoint nsize (n : node) : nat :=
  match n with
  | NNil => 1
  | NRaw t => tsize t
  | NDoc _ obj => S (fold_right (fun x a => nsize (snd x) + a) 0 obj)
  | NAry ns => S (fold_right (fun x a => nsize x + a) 0 ns)
  end%nat.

Definition is_null (n : node) : bool :=
  match n with
  | NNil => true
  | NRaw TNull => true
  | _ => false
  end.

(* one level of tryDoc / tryAry *)
Inductive shape :=
| SLeaf (t : tjson)
| SDoc (obj : list (bytes * node))
| SAry (ns : list node).

Definition shape_of (n : node) : shape :=
  match n with
  | NNil => SLeaf TNull
  | NRaw (TObj ms) => SDoc (snd (doc_of ms))
  | NRaw (TArr l) => SAry (map child l)
  | NRaw t => SLeaf t
  | NDoc _ obj => SDoc obj
  | NAry ns => SAry ns
  end.

Definition leaf_equal (a b : tjson) : bool :=
  match a, b with
  | TStr x, TStr y => bseq (unquote x) (unquote y)
  | _, _ => bseq (print false a) (print false b)
  end.

Fixpoint equal (fuel : nat) (n o : node) {struct fuel} : bool :=
  match fuel with
  | O => false
  | S f =>
      if is_null n || is_null o then is_null n && is_null o else
      match shape_of n, shape_of o with
      | SLeaf a, SLeaf b => leaf_equal a b
      | SLeaf _, _ => false
      | SDoc m, SDoc m' =>
          (length m =? length m')%nat &&
          forallb (fun kv => match aget (fst kv) m' with
                             | Some ov => equal f (snd kv) ov
                             | None => false
                             end) m
      | SDoc _, _ => false
      | SAry l, SAry l' =>
          (length l =? length l')%nat &&
          (fix go (l l' : list node) : bool :=
             match l, l' with
             | x :: r, y :: r' => equal f x y && go r r'
             | _, _ => true
             end) l l'
      | SAry _, _ => false
      end
  end.

Definition node_equal (n o : node) : bool := equal (nsize n + nsize o) n o.

(* what a successful equal leaves behind in n: every container below it parsed *)
Fixpoint deep_t (t : tjson) : node :=
  match t with
  | TNull => NNil
  | TObj ms =>
      NDoc (map (fun kv => unquote (fst kv)) ms)
           ((fix go (ms : list (bytes * tjson)) (acc : list (bytes * node)) :=
               match ms with
               | [] => acc
               | (k, v) :: r => go r (aset (unquote k) (deep_t v) acc)
               end) ms [])
  | TArr l => NAry (map deep_t l)
  | _ => NRaw t
  end.

Fixpoint deep (n : node) : node :=
  match n with
  | NNil => NNil
  | NRaw TNull => n                 (* a stored raw null stays a raw node *)
  | NRaw t => deep_t t
  | NDoc keys obj => NDoc keys (map (fun kv => (fst kv, deep (snd kv))) obj)
  | NAry ns => NAry (map deep ns)
  end.

(* ---- operations ---- *)
Inductive opk := KAdd | KRemove | KReplace | KMove | KCopy | KTest | KUnknown.

(* an Operation: map[string]*json.RawMessage; None = the member is JSON null (nil pointer) *)
Definition operation := list (bytes * option tjson).

Definition op_str (op : operation) (name : bytes) : res bytes :=
  match aget name op with
  | Some (Some (TStr b)) => Ok (unquote b)
  | Some (Some _) => Err EDecode
  | _ => Err EMissing
  end.

Definition op_kind (op : operation) : opk :=
  match op_str op (B "op") with
  | Ok s =>
      if bseq s (B "add") then KAdd else if bseq s (B "remove") then KRemove
      else if bseq s (B "replace") then KReplace else if bseq s (B "move") then KMove
      else if bseq s (B "copy") then KCopy else if bseq s (B "test") then KTest else KUnknown
  | _ => KUnknown
  end.

(* op.value(): nil when the member is absent *)
Definition op_value (op : operation) : option node :=
  match aget (B "value") op with
  | Some None => Some (NRaw TNull)
  | Some (Some t) => Some (NRaw t)
  | None => None
  end.

Definition root_of_value (o : opts) (t : tjson) : res root :=
  match t with
  | TObj ms => let (k, o) := doc_of ms in Ok (RCon (KDoc (NRaw t) k o))
  | TArr l => Ok (RCon (KAry (NRaw t) (map child l)))
  | TNull => Ok (RCon (KDocNil (NRaw t) (o_stale o)))
  | _ => Err EDecode
  end.

(* lift an operation on the container found to the root *)
Definition on_root {A} (r : root) (f : con -> found A * con) : found A * root :=
  match r with
  | RNull => (FoundNil, RNull)
  | RCon c => let (a, c') := f c in (a, RCon c')
  end.

(* ensurePathExists *)
Fixpoint pad_nulls (o : opts) (c : con) (from : nat) (count : nat) : con :=
  match count with
  | O => c
  | S k =>
      match con_add o c (itoa (N.of_nat from)) (NRaw TNull) with
      | Ok c' => pad_nulls o c' (S from) k
      | _ => pad_nulls o c (S from) k
      end
  end.

Definition ignore_err (c : con) (r : res con) : con := match r with Ok c' => c' | _ => c end.

(* returns (error?, updated container) *)
Fixpoint ensure (o : opts) (parts : list bytes) (c : con) {struct parts} : option errclass * con :=
  match parts with
  | [] => (None, c)
  | [_] => (None, c)
  | part :: ((nextp :: _) as rest) =>
      let key := decode_token part in
      let existing :=
        match con_get o c key with
        | Ok NNil => None
        | Ok n => Some n
        | _ => None
        end in
      match existing with
      | None =>
          (* pad the current array up to the index *)
          let c1 :=
            match atoi part, c with
            | Some idx, KAry _ ns =>
                if (zlen ns + 1 <=? idx)%Z
                then pad_nulls o c (length ns) (Z.to_nat (idx - zlen ns))
                else c
            | _, _ => c
            end in
          let next_idx := atoi nextp in
          match next_idx, bseq nextp [x2d] with
          | None, false =>
              (* create an object *)
              (* doc.add(key, newNode) then newNode.intoDoc: the node sits where add put it (or
                 nowhere, when add failed) and is filled in place: same as adding the filled node *)
              let (e, ch') := ensure o rest (KDoc NNil [] []) in
              (e, ignore_err c1 (con_add o c1 key (node_of_con ch')))
          | _, _ =>
              let ai := match next_idx with Some i => i | None => 0%Z end in
              if (ai <? 0)%Z && negb (o_neg o) then (Some EInvalidIndex, c1)
              else if (ai <? -1)%Z then (Some EInvalidIndex, c1)
              else
                let ai := if (ai <? 0)%Z then 0%Z else ai in
                let ch := pad_nulls o (KAry NNil []) 0 (Z.to_nat ai) in
                let (e, ch') := ensure o rest ch in
                (e, ignore_err c1 (con_add o c1 key (node_of_con ch')))
          end
      | Some n =>
          match n with
          | NRaw (TArr _) | NAry _ =>
              match into_con n with
              | Some ch => let (e, ch') := ensure o rest ch in (e, con_put o c key (node_of_con ch'))
              | None => (Some EOther, c)
              end
          | _ =>
              match into_con n with
              | Some ((KDoc _ _ _) as ch) =>
                  let (e, ch') := ensure o rest ch in (e, con_put o c key (node_of_con ch'))
              | _ => (None, c)   (* an existing value that is not a container: nothing to create; the
                                    add that follows reports the unreachable path (fix 584e880) *)
              end
          end
      end
  end.

Definition ensure_path (o : opts) (c : con) (path : bytes) : option errclass * con :=
  match split_slash path with
  | _ :: p :: ps => ensure o (p :: ps) c
  | _ => (None, c)
  end.

(* the state threaded through a patch: the root and the copy-size accumulator *)
Record state := mkState { s_root : root; s_acc : Z }.

Definition escape_tree (esc : bool) : tjson -> tjson :=
  if esc then
    (fix go (t : tjson) : tjson :=
       match t with
       | TStr b => TStr (html_escape b)
       | TArr l => TArr (map go l)
       | TObj ms => TObj (map (fun kv => (html_escape (fst kv), go (snd kv))) ms)
       | _ => t
       end)
  else fun t => t.

(* deepCopy: marshal with the escape setting, wrap as a fresh raw node; size = bytes written *)
Definition deep_copy (o : opts) (n : node) : node * Z :=
  match n with
  | NNil => (NNil, match o_nullsz o with Some z => z | None => 0%Z end)
  | _ =>
      let t := render (o_esc o) n in
      (NRaw (escape_tree (o_esc o) t),
       match n, o_nullsz o with
       | NRaw TNull, Some z => z
       | _, _ => zlen (print (o_esc o) t)
       end)
  end.

Definition copy_too_deep (o : opts) (n : node) : bool :=
  match n with
  | NNil => false
  | _ => (max_depth <? tdepth (render (o_esc o) n))%N
  end.

Definition root_node (r : root) : node :=
  match r with
  | RCon c => node_of_con c
  | RNull => NNil
  end.

Definition op_add (o : opts) (st : state) (op : operation) : res state :=
  match op_str op (B "path") with
  | Err _ | Panic => Err EMissing
  | Ok path =>
      match path with
      | [] =>
          match op_value op with
          | None => Panic                     (* val.raw on a nil node *)
          | Some (NRaw t) =>
              match root_of_value o t with
              | Ok r => Ok (mkState r (s_acc st))
              | Err e => Err e
              | Panic => Panic
              end
          | Some _ => Panic
          end
      | _ =>
          match s_root st with
          | RNull => Err EMissing
          | RCon c =>
              let (e, c1) := if o_ensure o then ensure_path o c path else (None, c) in
              match e with
              | Some err => Err err
              | None =>
                  let v := match op_value op with Some v => v | None => NNil end in
                  match find o c1 path (fun c' key => (con_add o c' key v,
                                                       match con_add o c' key v with Ok c'' => c'' | _ => c' end)) with
                  | (FoundAt (Ok _), c2) => Ok (mkState (RCon c2) (s_acc st))
                  | (FoundAt (Err e), _) => Err e
                  | (FoundAt Panic, _) => Panic
                  | (_, _) => Err EMissing
                  end
              end
          end
      end
  end.

Definition op_remove (o : opts) (st : state) (op : operation) : res state :=
  match op_str op (B "path") with
  | Err _ | Panic => Err EMissing
  | Ok path =>
      match s_root st with
      | RNull => if o_allow o then Ok st else Err EMissing
      | RCon c =>
          match find o c path (fun c' key => (con_remove o c' key,
                                              match con_remove o c' key with Ok c'' => c'' | _ => c' end)) with
          | (FoundAt (Ok _), c2) => Ok (mkState (RCon c2) (s_acc st))
          | (FoundAt (Err e), _) => Err e
          | (FoundAt Panic, _) => Panic
          | (_, c2) => if o_allow o then Ok (mkState (RCon c2) (s_acc st)) else Err EMissing
          end
      end
  end.

Definition op_replace (o : opts) (st : state) (op : operation) : res state :=
  match op_str op (B "path") with
  | Err e => Err e
  | Panic => Panic
  | Ok path =>
      match path with
      | [] =>
          match op_value op with
          | None => Panic
          | Some (NRaw (TObj ms)) => let (k, ob) := doc_of ms in Ok (mkState (RCon (KDoc NNil k ob)) (s_acc st))
          | Some (NRaw (TArr l)) => Ok (mkState (RCon (KAry NNil (map child l))) (s_acc st))
          | Some (NRaw TNull) => Ok (mkState RNull (s_acc st))
          | Some _ => Err EOther
          end
      | _ =>
          match s_root st with
          | RNull => Err EMissing
          | RCon c =>
              let v := match op_value op with Some v => v | None => NNil end in
              match find o c path (fun c' key =>
                                     match con_get o c' key with
                                     | Ok _ =>
                                         (con_set o c' key v, match con_set o c' key v with Ok c'' => c'' | _ => c' end)
                                     | Err _ => (Err EMissing, c')
                                     | Panic => (Panic, c')
                                     end) with
              | (FoundAt (Ok _), c2) => Ok (mkState (RCon c2) (s_acc st))
              | (FoundAt (Err e), _) => Err e
              | (FoundAt Panic, _) => Panic
              | (_, _) => Err EMissing
              end
          end
      end
  end.

Definition op_move (o : opts) (st : state) (op : operation) : res state :=
  match op_str op (B "from") with
  | Err e => Err e
  | Panic => Panic
  | Ok from =>
      match from with
      | [] => Err EInvalid
      | _ =>
          match s_root st with
          | RNull => Err EMissing
          | RCon c =>
              (* get, then remove, at the source *)
              match find o c from (fun c' key =>
                                     match con_get o c' key with
                                     | Ok v =>
                                         match con_remove o c' key with
                                         | Ok c'' => (Ok v, c'')
                                         | Err e => (Err e, c')
                                         | Panic => (Panic, c')
                                         end
                                     | Err e => (Err e, c')
                                     | Panic => (Panic, c')
                                     end) with
              | (FoundAt (Ok v), c1) =>
                  match op_str op (B "path") with
                  | Err e => Err e
                  | Panic => Panic
                  | Ok path =>
                      match find o c1 path (fun c' key => (con_add o c' key v,
                                                           match con_add o c' key v with Ok c'' => c'' | _ => c' end)) with
                      | (FoundAt (Ok _), c2) => Ok (mkState (RCon c2) (s_acc st))
                      | (FoundAt (Err e), _) => Err e
                      | (FoundAt Panic, _) => Panic
                      | (_, _) => Err EMissing
                      end
                  end
              | (FoundAt (Err e), _) => Err e
              | (FoundAt Panic, _) => Panic
              | (_, _) => Err EMissing
              end
          end
      end
  end.

Definition op_test (o : opts) (st : state) (op : operation) : res state :=
  match op_str op (B "path") with
  | Err e => Err e
  | Panic => Panic
  | Ok path =>
      let ov := match op_value op with Some v => v | None => NNil end in
      match path with
      | [] =>
          let self := root_node (s_root st) in
          let eq :=
            match s_root st with
            | RCon (KDocNil _ _) =>
                (* a non-nil *partialDoc with a nil map: not null; equal to an empty object only *)
                if is_null ov then false
                else match shape_of ov with SDoc [] => true | _ => false end
            | _ => node_equal self ov
            end in
          if eq then
            match s_root st with
            | RCon (KDoc s k ob) =>
                match deep (NDoc k ob) with
                | NDoc k' ob' => Ok (mkState (RCon (KDoc s k' ob')) (s_acc st))
                | _ => Ok st
                end
            | RCon (KAry s ns) => Ok (mkState (RCon (KAry s (map deep ns))) (s_acc st))
            | _ => Ok st
            end
          else Err ETestFailed
      | _ =>
          match s_root st with
          | RNull => Err EMissing
          | RCon c =>
              match find o c path (fun c' key =>
                                     match con_get o c' key with
                                     | Ok v =>
                                         if is_null v then
                                           ((if is_null ov then Ok tt else Err ETestFailed), c')
                                         else if is_null ov then (Err ETestFailed, c')
                                         else if node_equal v ov then (Ok tt, con_put o c' key (deep v))
                                         else (Err ETestFailed, c')
                                     | Err EMissing =>
                                         ((if is_null ov then Ok tt else Err ETestFailed), c')
                                     | Err e => (Err e, c')
                                     | Panic => (Panic, c')
                                     end) with
              | (FoundAt (Ok _), c2) => Ok (mkState (RCon c2) (s_acc st))
              | (FoundAt (Err e), _) => Err e
              | (FoundAt Panic, _) => Panic
              | (_, _) => Err EMissing
              end
          end
      end
  end.

Definition op_copy (o : opts) (st : state) (op : operation) : res state :=
  match op_str op (B "from") with
  | Err e => Err e
  | Panic => Panic
  | Ok from =>
      match s_root st with
      | RNull => Err EMissing
      | RCon c =>
          (* first walk: resolve the source (parses along the way) *)
          match find o c from (fun c' key => (con_get o c' key, c')) with
          | (FoundAt (Ok _), c1) =>
              match op_str op (B "path") with
              | Err _ | Panic => Err EMissing
              | Ok path =>
                  (* second walk: resolve the destination parent; the third re-reads the source
                     in its then-current parse state (rule 1 of DESIGN 3.3) *)
                  match find o c1 path (fun c' key => (tt, c')) with
                  | (FoundAt _, c2) =>
                      let src :=
                        match from with
                        | [] => Ok (node_of_con c2)
                        | _ => match find o c2 from (fun c' key => (con_get o c' key, c')) with
                               | (FoundAt r, _) => r
                               | _ => Err EMissing
                               end
                        end in
                      match src with
                      | Ok v =>
                          (* deepCopy refuses a value whose encoding nests deeper than the decoder
                             accepts (fix dc05ac4): it would be stored raw and parsed lazily by a
                             decoder that assumes valid input *)
                          if copy_too_deep o v then Err EInvalid else
                          let (cp, sz) := deep_copy o v in
                          let acc := (s_acc st + sz)%Z in
                          if (0 <? o_limit o)%Z && (o_limit o <? acc)%Z then Err (ECopyLimit (o_limit o) acc)
                          else
                            match find o c2 path (fun c' key => (con_add o c' key cp,
                                                                 match con_add o c' key cp with Ok c'' => c'' | _ => c' end)) with
                            | (FoundAt (Ok _), c3) => Ok (mkState (RCon c3) acc)
                            | (FoundAt (Err e), _) => Err e
                            | (FoundAt Panic, _) => Panic
                            | (_, _) => Err EMissing
                            end
                      | Err e => Err e
                      | Panic => Panic
                      end
                  | (_, _) => Err EMissing
                  end
              end
          | (FoundAt (Err e), _) => Err e
          | (FoundAt Panic, _) => Panic
          | (_, _) => Err EMissing
          end
      end
  end.

Definition step (o : opts) (st : state) (op : operation) : res state :=
  match op_kind op with
  | KAdd => op_add o st op
  | KRemove => op_remove o st op
  | KReplace => op_replace o st op
  | KMove => op_move o st op
  | KTest => op_test o st op
  | KCopy => op_copy o st op
  | KUnknown => Err EOther
  end.

(* returns the final state, or the index of the failing operation and its error *)
Inductive applied :=
| AOk (st : state)
| AErr (index : nat) (e : errclass)
| APanic (index : nat).

Fixpoint apply_from (o : opts) (i : nat) (st : state) (p : list operation) : applied :=
  match p with
  | [] => AOk st
  | op :: rest =>
      match step o st op with
      | Ok st' => apply_from o (S i) st' rest
      | Err e => AErr i e
      | Panic => APanic i
      end
  end.

(* ---- DecodePatch ---- *)
Definition operation_of (ms : list (bytes * tjson)) : operation :=
  (fix go (ms : list (bytes * tjson)) (acc : operation) : operation :=
     match ms with
     | [] => acc
     | (k, v) :: r => go r (aset (unquote k) (match v with TNull => None | _ => Some v end) acc)
     end) ms [].

Definition validate_operation (op : operation) : bool :=
  (match op_kind op with
   | KAdd | KReplace => amem (B "value") op
   | KMove | KCopy => match op_str op (B "from") with Ok _ => true | _ => false end
   | KRemove | KTest => true
   | KUnknown => false
   end)
  && match op_str op (B "path") with Ok _ => true | _ => false end.

Definition decode_patch_t (t : tjson) : option (list operation) :=
  match t with
  | TNull => Some []
  | TArr els =>
      if forallb (fun e => match e with TObj _ | TNull => true | _ => false end) els then
        let ops := map (fun e => match e with TObj ms => operation_of ms | _ => [] end) els in
        if forallb validate_operation ops then Some ops else None
      else None
  | _ => None
  end.

Definition api_decode (bs : bytes) : option (list operation) :=
  match parse bs with
  | Some t => decode_patch_t t
  | None => None
  end.

(* ---- Apply ---- *)
Inductive apply_result :=
| ROut (out : bytes)
| RErr (index : option nat) (e : errclass)     (* index = None: before or after the operations *)
| RPanic.

Definition load_doc (o : opts) (t : tjson) : res root :=
  match t with
  | TObj ms => let (k, ob) := doc_of ms in Ok (RCon (KDoc (NRaw t) k ob))
  | TArr l => Ok (RCon (KAry (NRaw t) (map child l)))
  | TNull => Ok (RCon (KDocNil (NRaw t) (o_stale o)))
  | _ => Err EDecode
  end.

Definition marshal_root (o : opts) (r : root) : res tjson :=
  match r with
  | RNull => Ok TNull
  | RCon (KDocNil _ _) => Err EExpectedObject
  | RCon c => Ok (render (o_esc o) (node_of_con c))
  end.

Definition output (o : opts) (indent : bytes) (t : tjson) : bytes :=
  match indent with
  | [] => print (o_esc o) t
  | _ => pp (o_esc o) indent 0 t
  end.

Definition apply_tree (o : opts) (indent : bytes) (p : list operation) (doc : tjson) : apply_result :=
  match load_doc o doc with
  | Err e => RErr None e
  | Panic => RPanic
  | Ok r =>
      match apply_from o 0 (mkState r 0) p with
      | AErr i e => RErr (Some i) e
      | APanic _ => RPanic
      | AOk st =>
          match marshal_root o (s_root st) with
          | Ok t => ROut (output o indent t)
          | Err e => RErr None e
          | Panic => RPanic
          end
      end
  end.

Definition api_apply (o : opts) (indent : bytes) (p : list operation) (doc : bytes) : apply_result :=
  match doc with
  | [] => ROut []
  | _ =>
      match parse doc with
      | None => RErr None EInvalid
      | Some t => apply_tree o indent p t
      end
  end.

(* ---- Equal ---- *)
Definition api_equal (a b : bytes) : bool :=
  match parse a, parse b with
  | Some ta, Some tb => node_equal (NRaw ta) (NRaw tb)
  | _, _ => false
  end.
