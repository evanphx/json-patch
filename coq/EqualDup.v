(* EqualDup.v — Equal on texts WITH repeated member names.

   EqualFacts.v and the first group of Properties/C06.v carry the hypothesis tnodup (no repeated
   member name in any object); the second group of C06 (the names ending in _all) is what this
   file proves.  Here there is no such hypothesis: on every well-formed text the model of Equal
   (api_equal / node_equal) is structural equality (jeq) of the DEDUPLICATED values the two texts
   denote, where dedup keeps one member per name (the position of the first occurrence; den has
   already given every occurrence the last value, so the value is the last one: what decoding into
   a Go map holds).  dedup is the identity on values without repeated names, so the theorems under
   tnodup are the special case (api_equal_nodup, node_equal_spec_again).  Reflexivity, symmetry and
   transitivity follow for ALL well-formed texts. *)
From Coq Require Import Lia.
From JP Require Import Bytes Json Text Strings Den ImplV5 DecodeFacts JsonFacts Abs EqualFacts ParseFacts.

(* ---- 1. dedup ---- *)

(* one entry per member name: an entry whose name was seen before is dropped (the oracle's go) *)
Fixpoint dedup_go (f : ojson -> ojson) (seen : list bytes) (ms : list (bytes * ojson))
  : list (bytes * ojson) :=
  match ms with
  | [] => []
  | (k, v) :: r => if kmem k seen then dedup_go f seen r else (k, f v) :: dedup_go f (k :: seen) r
  end.

(* hereditarily (mirror of dedup_o in oracle/oracle.ml) *)
Fixpoint dedup (j : ojson) : ojson :=
  match j with
  | OArr l => OArr (map dedup l)
  | OObj ms =>
      OObj ((fix go (seen : list bytes) (ms : list (bytes * ojson)) {struct ms} : list (bytes * ojson) :=
               match ms with
               | [] => []
               | (k, v) :: r => if kmem k seen then go seen r else (k, dedup v) :: go (k :: seen) r
               end) [] ms)
  | _ => j
  end.

Lemma dedup_obj ms : dedup (OObj ms) = OObj (dedup_go dedup [] ms).
Proof.
  cbn [dedup]. f_equal. generalize (@nil bytes) as seen.
  induction ms as [|[k v] ms IH]; intro seen; cbn [dedup_go]; auto.
  destruct (kmem k seen); [apply IH | f_equal; apply IH].
Qed.

Lemma dedup_arr l : dedup (OArr l) = OArr (map dedup l).
Proof. reflexivity. Qed.

Lemma aget_dedup_go f k : forall ms seen,
  aget k (dedup_go f seen ms) = if kmem k seen then None else option_map f (aget k ms).
Proof.
  induction ms as [|[k' v] ms IH]; intro seen; cbn [dedup_go aget].
  - destruct (kmem k seen); reflexivity.
  - destruct (kmem k' seen) eqn:M.
    + rewrite IH. destruct (kmem k seen) eqn:Mk; auto.
      destruct (bseq k k') eqn:E; auto. apply bseq_eq in E. subst. congruence.
    + cbn [aget]. destruct (bseq k k') eqn:E.
      * apply bseq_eq in E. subst. rewrite M. reflexivity.
      * rewrite IH. cbn [kmem]. rewrite E. reflexivity.
Qed.

Lemma keys_dedup_go f k : forall ms seen,
  In k (map fst (dedup_go f seen ms)) <-> In k (map fst ms) /\ ~ In k seen.
Proof.
  induction ms as [|[k' v] ms IH]; intro seen; cbn [dedup_go map fst In].
  - tauto.
  - destruct (kmem k' seen) eqn:M.
    + rewrite IH. apply kmem_In in M. split; [tauto|]. intros [[E|H] N]; [subst; contradiction | tauto].
    + apply kmem_false_In in M. cbn [map fst In]. rewrite IH. cbn [In]. split.
      * intros [E|[H N]]; [subst; tauto | tauto].
      * intros [[E|H] N]; [tauto|]. destruct (bseq k' k) eqn:B; [apply bseq_eq in B; tauto|].
        apply bseq_neq in B. right. split; auto. intros [E|H']; auto.
Qed.

Lemma NoDup_dedup_go f : forall ms seen, NoDup (map fst (dedup_go f seen ms)).
Proof.
  induction ms as [|[k v] ms IH]; intro seen; cbn [dedup_go].
  - constructor.
  - destruct (kmem k seen); [apply IH|]. cbn [map fst]. constructor; [|apply IH].
    intro H. apply keys_dedup_go in H as [_ H]. apply H. now left.
Qed.

Lemma dedup_go_members f : forall ms seen kv,
  In kv (dedup_go f seen ms) -> exists v, In (fst kv, v) ms /\ snd kv = f v.
Proof.
  induction ms as [|[k v] ms IH]; intros seen kv; cbn [dedup_go]; [intros []|].
  destruct (kmem k seen).
  - intro H. destruct (IH _ _ H) as [v' [H1 H2]]. exists v'. split; [right|]; auto.
  - intros [E|H].
    + subst kv. exists v. split; [left|]; auto.
    + destruct (IH _ _ H) as [v' [H1 H2]]. exists v'. split; [right|]; auto.
Qed.

Lemma dedup_go_nodup f : forall ms seen,
  NoDup (map fst ms) -> (forall k, In k (map fst ms) -> ~ In k seen) ->
  dedup_go f seen ms = map (fun kv => (fst kv, f (snd kv))) ms.
Proof.
  induction ms as [|[k v] ms IH]; intros seen N D; cbn [dedup_go map]; auto.
  inversion N as [|? ? N1 N2]; subst.
  replace (kmem k seen) with false
    by (symmetry; apply kmem_false_In; apply D; now left).
  cbn [fst snd]. f_equal. apply IH; auto.
  intros k' H [E|H']; [subst; contradiction|]. apply (D k'); [now right | exact H'].
Qed.

Theorem dedup_onodup j : onodup (dedup j) = true.
Proof.
  induction j as [| | | |l IH|ms IH] using ojson_rect'; try reflexivity.
  - rewrite dedup_arr. apply onodup_arr. rewrite Forall_map. exact IH.
  - rewrite dedup_obj. apply onodup_obj. split; [apply NoDup_dedup_go|].
    apply Forall_forall. intros kv H. apply dedup_go_members in H as [v [H1 H2]]. rewrite H2.
    rewrite Forall_forall in IH. apply (IH _ H1).
Qed.

Theorem dedup_id j : onodup j = true -> dedup j = j.
Proof.
  induction j as [| | | |l IH|ms IH] using ojson_rect'; intro N; try reflexivity.
  - rewrite dedup_arr. f_equal. apply onodup_arr in N.
    induction l as [|x l IHl]; auto. inversion IH; inversion N; subst. cbn [map]. f_equal; auto.
  - rewrite dedup_obj. f_equal. apply onodup_obj in N as [N1 N2].
    rewrite dedup_go_nodup by (auto; intros ? ? []).
    clear N1. induction ms as [|[k v] ms IHm]; auto. inversion IH; inversion N2; subst.
    cbn [map fst snd] in *. f_equal; [f_equal|]; auto.
Qed.

Corollary dedup_idem j : dedup (dedup j) = dedup j.
Proof. apply dedup_id. apply dedup_onodup. Qed.

Corollary dedup_den_nodup t : tnodup t = true -> dedup (den t) = den t.
Proof. apply dedup_id. Qed.

Lemma onull_dedup j : onull (dedup j) = onull j.
Proof. destruct j; reflexivity. Qed.

(* ---- 2. den gives every occurrence of a repeated name the LAST value ---- *)

(* the last value given for a name *)
Fixpoint glast {A} (k : bytes) (m : list (bytes * A)) : option A :=
  match m with
  | [] => None
  | (k', v) :: r =>
      match glast k r with
      | Some x => Some x
      | None => if bseq k k' then Some v else None
      end
  end.

Lemma alast_glast {A} k : forall (m : list (bytes * A)) d,
  alast k m d = match glast k m with Some x => x | None => d end.
Proof.
  induction m as [|[k' v] m IH]; intro d; cbn [alast glast]; auto.
  rewrite IH. destruct (glast k m); auto. destruct (bseq k k'); auto.
Qed.

Lemma glast_None {A} k (m : list (bytes * A)) : glast k m = None <-> ~ In k (map fst m).
Proof.
  induction m as [|[k' v] m IH]; cbn [glast map fst In]; [tauto|].
  destruct (glast k m) eqn:G.
  - split; [discriminate|]. intro H. exfalso. destruct IH as [_ IH].
    assert (H0 : ~ In k (map fst m)) by tauto. specialize (IH H0). discriminate.
  - destruct (bseq k k') eqn:E.
    + apply bseq_eq in E. subst. split; [discriminate | intro H; exfalso; auto].
    + apply bseq_neq in E. split; [intros _ [H|H]; [congruence | tauto] | reflexivity].
Qed.

Lemma glast_In {A} k (m : list (bytes * A)) v : glast k m = Some v -> In (k, v) m.
Proof.
  induction m as [|[k' v'] m IH]; cbn [glast]; [discriminate|].
  destruct (glast k m) eqn:G.
  - intro H. right. apply IH. exact H.
  - destruct (bseq k k') eqn:E; [|discriminate]. apply bseq_eq in E. subst. intro H. inversion H. now left.
Qed.

Lemma glast_map {A B} (g : A -> B) k (m : list (bytes * A)) :
  glast k (map (fun kv => (fst kv, g (snd kv))) m) = option_map g (glast k m).
Proof.
  induction m as [|[k' v] m IH]; cbn [glast map fst snd]; auto.
  rewrite IH. destruct (glast k m); cbn [option_map]; auto. destruct (bseq k k'); auto.
Qed.

(* looking a name up in resolve_dups m finds the last value given for it *)
Lemma aget_resolve_dups {A} k (m : list (bytes * A)) : aget k (resolve_dups m) = glast k m.
Proof.
  unfold resolve_dups.
  assert (G : forall l, aget k (map (fun kv => (fst kv, alast (fst kv) m (snd kv))) l) =
                        match aget k l with Some v => Some (alast k m v) | None => None end).
  { induction l as [|[k' v] l IH]; cbn [map aget fst snd]; auto.
    destruct (bseq k k') eqn:E; auto. apply bseq_eq in E. subst. reflexivity. }
  rewrite G. destruct (aget k m) as [v|] eqn:E.
  - rewrite alast_glast. destruct (glast k m) eqn:L; auto.
    apply glast_None in L. apply aget_In_fst in E. contradiction.
  - symmetry. apply glast_None. apply aget_None_notin. exact E.
Qed.

(* every occurrence of a name carries the last value given for it *)
Lemma resolve_dups_last {A} (m : list (bytes * A)) k v :
  In (k, v) (resolve_dups m) -> glast k m = Some v.
Proof.
  unfold resolve_dups. intro H. apply in_map_iff in H as [[k' v'] [E H]]. cbn [fst snd] in E.
  inversion E; subst. rewrite alast_glast. destruct (glast k m) eqn:L; auto.
  apply glast_None in L. exfalso. apply L. apply in_map_iff. exists (k, v'). auto.
Qed.

Lemma keys_resolve_dups {A} (m : list (bytes * A)) : map fst (resolve_dups m) = map fst m.
Proof. unfold resolve_dups. rewrite map_map. reflexivity. Qed.

(* names decoded, values as spelled *)
Definition ukeys (ms : list (bytes * tjson)) : list (bytes * tjson) :=
  map (fun kv => (unquote (fst kv), snd kv)) ms.

Lemma den_members_ukeys ms : den_members ms = map (fun kv => (fst kv, den (snd kv))) (ukeys ms).
Proof. unfold den_members, ukeys. rewrite map_map. reflexivity. Qed.

(* den of an object text: every member (k, v) of the value has the value of the LAST member of the
   text whose decoded name is k *)
Theorem den_last_value ms k v :
  In (k, v) (match den (TObj ms) with OObj l => l | _ => [] end) ->
  exists t, glast k (ukeys ms) = Some t /\ v = den t.
Proof.
  cbn [den]. fold (den_members ms). intro H. apply resolve_dups_last in H.
  rewrite den_members_ukeys, glast_map in H. destruct (glast k (ukeys ms)) as [t|]; [|discriminate].
  exists t. inversion H. auto.
Qed.

(* the deduplicated value of an object text, by lookups: one member per name, holding the
   deduplicated value of the last member of that name *)
Definition dmembers (ms : list (bytes * tjson)) : list (bytes * ojson) :=
  dedup_go dedup [] (resolve_dups (den_members ms)).

Lemma dedup_den_obj ms : dedup (den (TObj ms)) = OObj (dmembers ms).
Proof. cbn [den]. fold (den_members ms). apply dedup_obj. Qed.

Lemma aget_dmembers k ms :
  aget k (dmembers ms) = option_map (fun t => dedup (den t)) (glast k (ukeys ms)).
Proof.
  unfold dmembers. rewrite aget_dedup_go. cbn [kmem]. rewrite aget_resolve_dups.
  rewrite den_members_ukeys, glast_map. destruct (glast k (ukeys ms)); reflexivity.
Qed.

Lemma NoDup_dmembers ms : NoDup (map fst (dmembers ms)).
Proof. apply NoDup_dedup_go. Qed.

(* ---- 3. the Go map built from an object text ---- *)

Lemma lookup_last_glast k ms : lookup_last k ms None = glast k (ukeys ms).
Proof.
  induction ms as [|[k' v] ms IH]; [reflexivity|]. cbn [lookup_last ukeys map glast fst snd]. fold (ukeys ms).
  rewrite lookup_last_acc, IH. destruct (glast k (ukeys ms)); reflexivity.
Qed.

Lemma aget_build_obj k : forall ms acc,
  aget k (build_obj ms acc) =
  match glast k (ukeys ms) with Some t => Some (child t) | None => aget k acc end.
Proof. intros ms acc. rewrite build_obj_with, aget_build_with, lookup_last_glast. reflexivity. Qed.

Lemma NoDup_build_obj : forall ms acc, NoDup (map fst acc) -> NoDup (map fst (build_obj ms acc)).
Proof. intros ms acc. rewrite build_obj_with. apply build_with_NoDup. Qed.

Lemma aget_build_obj_nil k ms : aget k (build_obj ms []) = option_map child (glast k (ukeys ms)).
Proof. rewrite aget_build_obj. destruct (glast k (ukeys ms)); reflexivity. Qed.

Lemma length_dmembers ms : length (dmembers ms) = length (build_obj ms []).
Proof.
  apply (members_rel_char (fun _ _ => True)); [apply NoDup_dmembers | apply NoDup_build_obj; constructor|].
  intro k. rewrite aget_dmembers, aget_build_obj_nil. destruct (glast k (ukeys ms)); exact I.
Qed.

(* ---- 4. equal on nodes in any parse state, raw parts with or without repeated names ---- *)

(* the representation invariant of Abs.nwf WITHOUT the demand on raw parts *)
Fixpoint nwfd (n : node) : Prop :=
  match n with
  | NNil => True
  | NRaw t => True
  | NDoc keys obj =>
      keys_agree keys obj /\
      (fix all (m : list (bytes * node)) : Prop :=
         match m with [] => True | kv :: r => nwfd (snd kv) /\ all r end) obj
  | NAry ns =>
      (fix all (l : list node) : Prop := match l with [] => True | x :: r => nwfd x /\ all r end) ns
  end.

Lemma nwfd_doc keys obj : nwfd (NDoc keys obj) <-> keys_agree keys obj /\ Forall (fun kv => nwfd (snd kv)) obj.
Proof. apply and_iff_compat_l, (all_fix_Forall (fun kv => nwfd (snd kv))). Qed.

Lemma nwfd_ary ns : nwfd (NAry ns) <-> Forall nwfd ns.
Proof. apply all_fix_Forall. Qed.
Arguments nwfd : simpl never.

Lemma nwfd_raw t : nwfd (NRaw t). Proof. exact I. Qed.
Lemma nwfd_child t : nwfd (child t). Proof. destruct t; exact I. Qed.

(* Abs.nwf (distinct names) is the special case *)
Lemma nwf_nwfd n : nwf n -> nwfd n.
Proof.
  induction n as [|t|keys obj IH|ns IH] using node_rect'; intro W; try exact I.
  - apply nwf_doc in W as [Ag W]. apply nwfd_doc. split; auto.
    rewrite Forall_forall in *. intros kv H. apply IH; auto.
  - apply nwf_ary in W. apply nwfd_ary. rewrite Forall_forall in *. intros x H. apply IH; auto.
Qed.

Definition dval (n : node) : ojson := dedup (aval n).

Lemma dval_child t : dval (child t) = dedup (den t).
Proof. unfold dval. now rewrite aval_child. Qed.

Lemma fold_tsize_ukeys ms k t :
  In (k, t) (ukeys ms) -> (tsize t <= fold_right (fun x a => tsize (snd x) + a) 0 ms)%nat.
Proof.
  unfold ukeys. intro H. apply in_map_iff in H as [[k0 t0] [E H]]. cbn [fst snd] in E.
  injection E as E1 E2. rewrite <- E2. apply (sum_in (fun x => tsize (snd x)) ms (k0, t0) H).
Qed.

Lemma tlit_ukeys ms k t : forallb (fun kv => tlit (snd kv)) ms = true -> In (k, t) (ukeys ms) -> tlit t = true.
Proof.
  unfold ukeys. intros L H. apply in_map_iff in H as [[k0 t0] [E H]]. cbn [fst snd] in E.
  injection E as E1 E2. rewrite <- E2. rewrite forallb_forall in L. apply (L (k0, t0) H).
Qed.

Lemma shape_of_okd n : nwfd n -> is_null n = false -> shape_ok dval nwfd den n (shape_of n).
Proof.
  intros W NN. destruct n as [|t|keys obj|ns]; try discriminate; cbn [shape_of] in *.
  - destruct t; try discriminate; try (apply ShLeaf; reflexivity).
    + apply ShAry.
      * unfold dval. cbn [aval den]. rewrite dedup_arr. f_equal. rewrite !map_map. apply map_ext.
        intro t. symmetry. apply dval_child.
      * intros v Hin. apply in_map_iff in Hin as [t [<- Hin]]. apply nwfd_child.
    + (* raw object, repeated names allowed *)
      unfold doc_of in *. cbn [snd] in *. apply ShDoc with (ms := dmembers ms).
      * unfold dval. cbn [aval]. apply dedup_den_obj.
      * apply NoDup_build_obj. constructor.
      * apply NoDup_dmembers.
      * intro k. rewrite aget_dmembers, aget_build_obj_nil.
        destruct (glast k (ukeys ms)); cbn [option_map]; auto. now rewrite dval_child.
      * exact (build_obj_parts nwfd ms (fun kv _ => nwfd_child (snd kv))).
  - apply nwfd_doc in W as [Ag W].
    assert (Nk : NoDup (map fst (abs_members keys obj))).
    { unfold abs_members. rewrite map_map. cbn [fst]. rewrite map_id. destruct Ag as [Nk _]. exact Nk. }
    apply ShDoc with (ms := map (fun kv => (fst kv, dedup (snd kv))) (abs_members keys obj)).
    + unfold dval. rewrite aval_doc, dedup_obj. f_equal. apply dedup_go_nodup; [exact Nk | intros ? ? []].
    + destruct Ag as [_ [No _]]. exact No.
    + rewrite map_map. cbn [fst]. exact Nk.
    + intro k. pose proof (aget_abs_members_agree keys obj k Ag) as G.
      rewrite aget_map_snd, G. destruct (aget k obj); reflexivity.
    + intros k v Hin. rewrite Forall_forall in W. apply (W _ Hin).
  - apply nwfd_ary in W. rewrite Forall_forall in W. apply ShAry; [|exact W].
    unfold dval. cbn [aval]. rewrite dedup_arr, map_map. reflexivity.
Qed.

Lemma is_null_dval n : is_null n = onull (dval n).
Proof. unfold dval. rewrite onull_dedup. apply is_null_onull. Qed.

(* the model's equal, on nodes whose raw parts may repeat member names, is structural equality of
   the deduplicated values *)
Theorem equal_dspec : forall fuel n o,
  (nsize n + nsize o <= fuel)%nat -> nwfd n -> nlit n -> nwfd o -> nlit o ->
  equal fuel n o = jeq (dval n) (dval o).
Proof.
  exact (equal_engine _ _ _ _ equal_unfold dval nwfd den (fun n _ => is_null_dval n) shape_of_okd shape_parts leaf_equal_spec leaf_den_scalar).
Qed.

Theorem node_equal_dspec n o :
  nwfd n -> nlit n -> nwfd o -> nlit o -> node_equal n o = jeq (dedup (aval n)) (dedup (aval o)).
Proof. intros. unfold node_equal. apply equal_dspec; auto. Qed.

(* ---- 5. Equal on texts: no hypothesis about repeated names ---- *)

Definition dden (t : tjson) : ojson := dedup (den t).

Theorem api_equal_dedup a b ta tb :
  parse a = Some ta -> parse b = Some tb -> api_equal a b = jeq (dedup (den ta)) (dedup (den tb)).
Proof.
  intros Pa Pb. unfold api_equal. rewrite Pa, Pb.
  apply (node_equal_dspec (NRaw ta) (NRaw tb)).
  - apply nwfd_raw.
  - exact (parse_tlit a ta Pa).
  - apply nwfd_raw.
  - exact (parse_tlit b tb Pb).
Qed.

(* the shape of C06_equal_spec, without its two tnodup hypotheses *)
Theorem equal_spec_dedup a b :
  api_equal a b = true <->
  exists ta tb, parse a = Some ta /\ parse b = Some tb /\ jeq (dedup (den ta)) (dedup (den tb)) = true.
Proof.
  destruct (parse a) as [ta|] eqn:Pa.
  - destruct (parse b) as [tb|] eqn:Pb.
    + rewrite (api_equal_dedup a b ta tb Pa Pb). split.
      * intro H. exists ta, tb. auto.
      * intros [ta' [tb' [E1 [E2 H]]]]. inversion E1; inversion E2; subst. exact H.
    + unfold api_equal. rewrite Pa, Pb. split; [discriminate | intros [? [? [_ [H _]]]]; discriminate].
  - unfold api_equal. rewrite Pa. split; [discriminate | intros [? [? [H _]]]; discriminate].
Qed.

(* on texts without repeated names: the statement of EqualFacts.v / C06 *)
Corollary api_equal_nodup a b ta tb :
  parse a = Some ta -> parse b = Some tb -> tnodup ta = true -> tnodup tb = true ->
  api_equal a b = jeq (den ta) (den tb).
Proof.
  intros Pa Pb Na Nb. rewrite (api_equal_dedup a b ta tb Pa Pb).
  now rewrite (dedup_den_nodup ta Na), (dedup_den_nodup tb Nb).
Qed.

Theorem jeq_dedup_refl x : jeq (dedup x) (dedup x) = true.
Proof. apply jeq_refl. apply dedup_onodup. Qed.

Theorem jeq_dedup_sym x y : jeq (dedup x) (dedup y) = jeq (dedup y) (dedup x).
Proof. apply jeq_sym_eq; apply dedup_onodup. Qed.

Theorem jeq_dedup_trans x y z :
  jeq (dedup x) (dedup y) = true -> jeq (dedup y) (dedup z) = true -> jeq (dedup x) (dedup z) = true.
Proof. apply jeq_trans; apply dedup_onodup. Qed.

Theorem equal_reflexive_all a ta : parse a = Some ta -> api_equal a a = true.
Proof. intro P. rewrite (api_equal_dedup a a ta ta P P). apply jeq_dedup_refl. Qed.

(* symmetric on all byte strings: ill-formed on either side gives false both ways *)
Theorem equal_symmetric_all a b : api_equal a b = api_equal b a.
Proof.
  destruct (parse a) as [ta|] eqn:Pa; destruct (parse b) as [tb|] eqn:Pb.
  - rewrite (api_equal_dedup a b ta tb Pa Pb), (api_equal_dedup b a tb ta Pb Pa). apply jeq_dedup_sym.
  - unfold api_equal. now rewrite Pa, Pb.
  - unfold api_equal. now rewrite Pa, Pb.
  - unfold api_equal. now rewrite Pa, Pb.
Qed.

(* transitive on all byte strings: a true result says both arguments are well-formed *)
Theorem equal_transitive_all a b c : api_equal a b = true -> api_equal b c = true -> api_equal a c = true.
Proof.
  intros H1 H2.
  apply equal_spec_dedup in H1 as [ta [tb [Pa [Pb H1]]]].
  apply equal_spec_dedup in H2 as [tb' [tc [Pb' [Pc H2]]]].
  rewrite Pb in Pb'. inversion Pb'; subst tb'.
  rewrite (api_equal_dedup a c ta tc Pa Pc). exact (jeq_dedup_trans _ _ _ H1 H2).
Qed.

(* in the argument shape of C06_reflexive / C06_symmetric / C06_transitive, without tnodup *)
Corollary C06_symmetric_all a b ta tb :
  parse a = Some ta -> parse b = Some tb -> api_equal a b = api_equal b a.
Proof. intros _ _. apply equal_symmetric_all. Qed.

Corollary C06_transitive_all a b c ta tb tc :
  parse a = Some ta -> parse b = Some tb -> parse c = Some tc ->
  api_equal a b = true -> api_equal b c = true -> api_equal a c = true.
Proof. intros _ _ _. apply equal_transitive_all. Qed.

(* null: a text is Equal to the text null exactly when it denotes null, repeated names or not *)
Theorem equal_null_only_null x : jeq ONull (dedup x) = true <-> x = ONull.
Proof. destruct x; cbn; split; intro H; try discriminate; auto. Qed.

(* ---- EqualFacts.node_equal_spec is the special case ---- *)
Corollary node_equal_spec_again n o :
  nwf n -> nlit n -> nwf o -> nlit o -> node_equal n o = jeq (aval n) (aval o).
Proof.
  intros Wn Ln Wo Lo. rewrite node_equal_dspec by (auto using nwf_nwfd).
  now rewrite (dedup_id _ (nwf_aval_onodup n Wn)), (dedup_id _ (nwf_aval_onodup o Wo)).
Qed.

(* last value wins; one member per name; hereditarily; reflexive on a text with a repeated name *)
Example equal_dup_examples :
  api_equal (B "{""a"":1,""a"":2}") (B "{""a"":2}") = true /\
  api_equal (B "{""a"":2}") (B "{""a"":1,""a"":2}") = true /\
  api_equal (B "{""a"":1,""a"":2}") (B "{""a"":1}") = false /\
  api_equal (B "{""a"":1,""a"":2}") (B "{""a"":1,""a"":2}") = true /\
  api_equal (B "{""a"":1,""b"":3,""a"":2}") (B "{""b"":3,""a"":2}") = true /\
  api_equal (B "[{""x"":{""k"":null,""k"":[1]},""x"":{""k"":0,""k"":[2]}}]") (B "[{""x"":{""k"":[2]}}]") = true /\
  api_equal (B "{""a"":1,""a"":null}") (B "{""a"":null}") = true /\
  api_equal (B "{""a"":1,""a"":null}") (B "{}") = false.
Proof. vm_compute. repeat split; reflexivity. Qed.

(* why dedup is needed in the statement: jeq on den itself (the repetition still in it) is NOT what
   Equal computes on these two texts *)
Example jeq_den_differs :
  match parse (B "{""a"":1,""a"":2}"), parse (B "{""a"":2}") with
  | Some ta, Some tb =>
      jeq (den ta) (den tb) = false /\ jeq (dedup (den ta)) (dedup (den tb)) = true /\
      dedup (den ta) = den tb
  | _, _ => False
  end.
Proof. vm_compute. repeat split; reflexivity. Qed.

Print Assumptions dedup_onodup.
Print Assumptions dedup_id.
Print Assumptions den_last_value.
Print Assumptions aget_dmembers.
Print Assumptions equal_dspec.
Print Assumptions node_equal_dspec.
Print Assumptions api_equal_dedup.
Print Assumptions equal_spec_dedup.
Print Assumptions api_equal_nodup.
Print Assumptions jeq_dedup_refl.
Print Assumptions jeq_dedup_sym.
Print Assumptions jeq_dedup_trans.
Print Assumptions equal_reflexive_all.
Print Assumptions equal_symmetric_all.
Print Assumptions equal_transitive_all.
Print Assumptions equal_null_only_null.
Print Assumptions node_equal_spec_again.
Print Assumptions equal_dup_examples.
