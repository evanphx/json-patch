(* V4Domain.v — the domain of the legacy simulation (V4ApplySim.op_dom4) for a patch decoded by the v5
   DecodePatch (api_decode, which validates; the legacy api_decode4 does not), from the v5 bridge
   PointerDomain.decoded_in_domain_op_dom and a boolean test of what the legacy domain asks beyond op_dom
   (op_legacy): the legacy counterpart of that bridge. *)
From JP Require Import Bytes Json Text Strings Den Pointer Rfc6902 ImplV5 ImplMerge ImplV4 Domain DecodeFacts JsonFacts
  Abs EqualFacts ApplySim PointerDomain V4ApplySim.

Fixpoint plainb (t : tjson) : bool :=
  match t with
  | TStr b => bseq (unquote b) b && bseq (html_escape b) b
  | TArr l => forallb plainb l
  | TObj ms => forallb (fun kv => plainb (snd kv)) ms
  | _ => true
  end.

Lemma plainb_ok t : plainb t = true -> tplain t.
Proof.
  induction t using tjson_rect'; cbn [plainb]; intro E; try exact I.
  - apply andb_prop in E as [E1 E2]. split; apply bseq_eq; assumption.
  - apply tplain_arr. rewrite forallb_forall in E. rewrite Forall_forall in *. auto.
  - apply tplain_obj. rewrite forallb_forall in E. rewrite Forall_forall in *. auto.
Qed.

(* what op_dom4 asks beyond op_dom: no stored null text, plain strings, no operation on the whole document
   but replace and test, a test below the root has a value *)
Definition op_legacy (op : operation) : bool :=
  match aget (B "value") op with
  | Some (Some t) => match t with TNull => false | _ => plainb t end
  | _ => true
  end &&
  match op_kind op with
  | KAdd | KRemove => negb (is_empty (str_or_empty (op_str op (B "path"))))
  | KTest => is_empty (str_or_empty (op_str op (B "path"))) || amem (B "value") op
  | KMove | KCopy => negb (is_empty (str_or_empty (op_str op (B "from"))))
  | _ => true
  end.

Lemma nonempty_ptr p : negb (is_empty p) = true -> ptr_ok p \/ p = [] -> ptr_ok4 p.
Proof. intros E [H| ->]; [now apply ptr_ok4_iff | discriminate E]. Qed.

Theorem op_dom_dom4 op : op_dom op -> op_legacy op = true -> op_dom4 op.
Proof.
  intros [V (path & Hp & K)] L. unfold op_legacy in L. rewrite Hp in L. cbn [str_or_empty] in L.
  apply andb_prop in L as [Lv Lk]. split.
  - unfold val_good4. unfold val_good in V. destruct (aget (B "value") op) as [[t|]|]; try exact I.
    destruct V as (N & Li & S). split; [now destruct t|]. split; [exact N|]. split; [exact Li|].
    split; [apply plainb_ok; now destruct t | exact (tsb_tkeys t S)].
  - exists path. split; [exact Hp|]. destruct (op_kind op).
    + apply (nonempty_ptr path Lk). destruct K as [K|[-> _]]; auto.
    + now apply ptr_ok4_iff.
    + destruct K as [K|[-> (t & E & _)]]; [left; now apply ptr_ok4_iff | right; eauto].
    + destruct K as [K (from & Hf & F)]. rewrite Hf in Lk. split; [now apply ptr_ok4_iff|]. exists from. split; [exact Hf|].
      exact (nonempty_ptr from Lk F).
    + destruct K as [K (from & Hf & F)]. rewrite Hf in Lk. split; [now apply ptr_ok4_iff|]. exists from. split; [exact Hf|].
      exact (nonempty_ptr from Lk F).
    + destruct K as [K| ->]; [|now right]. left. split; [now apply ptr_ok4_iff|].
      apply orb_prop in Lk as [E|E]; [destruct path; [destruct K as (r & Q & _); discriminate Q | discriminate E]|].
      unfold has_value4, amem in *. destruct (aget (B "value") op); [discriminate | discriminate E].
    + destruct K.
Qed.

Theorem decoded_op_dom4 bs p :
  api_decode bs = Some p -> in_domain_C01 p = true -> forallb op_small p = true -> forallb op_legacy p = true ->
  Forall op_dom4 p.
Proof.
  intros E D S L. pose proof (decoded_in_domain_op_dom bs p E D S) as F.
  rewrite forallb_forall in L. rewrite Forall_forall in *. intros op H. apply op_dom_dom4; auto.
Qed.
