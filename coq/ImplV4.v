(* ImplV4.v — executable model of the legacy root package (patch.go, merge.go: the v4 API).
   No proofs here.  Differences from v5 that matter (see DESIGN 3.3): a partialDoc is a bare Go map
   (no key order: the standard encoder sorts member names), get on an object never fails (an absent
   member reads as nil), replace on an absent member adds it, there are no Valid gates and no
   options struct (SupportNegativeIndices and AccumulatedCopySizeLimit are package variables),
   DecodePatch validates nothing, Equal compares string SPELLINGS, output is always HTML-escaped. *)
From JP Require Import Bytes Json Text Strings Den Pointer ImplV5 ImplMerge.

(* nodes reuse ImplV5.node.  A live partialDoc is NDoc [] obj (the key list of a live map is always []).
   The legacy package has FOUR nodes that are written as null, and it tells them apart (observed by
   running the package, see V4NullWalk.v):
     NNil        a nil *lazyNode: a null the decoder read in a document or inside a composite value,
                 an absent member read by get, the value of an operation without a value member;
     NRaw TNull  a lazyNode with raw == nil (raw_nil4): the operation value null (json.Unmarshal sets
                 the *RawMessage of the Operation map to nil).  findObject does not enter it, isNull
                 holds, test against an operation WITHOUT value fails (the node is not nil);
     raw_null4   a lazyNode whose raw message is the four bytes null, which == eRaw: what deepCopy makes
                 of every non-nil node that marshals as null.  isNull holds; findObject ENTERS it:
                 intoDoc unmarshals null into the nil map without error and sets which = eDoc;
     nil_doc4    which == eDoc with a nil map: raw_null4 after a walk went through it.  Not isNull;
                 equal to {}; get gives nil, add/set give ErrInvalid, remove ErrMissing (like the
                 root document null, DDocNil); still marshalled as null.
   The last two are NDoc with a NON-EMPTY key list and no members: the key list is the tag. *)
Definition raw_nil4 : node := NRaw TNull.
Definition raw_null4 : node := NDoc [B "null"] [].   (* tag: a non-empty first entry *)
Definition nil_doc4 : node := NDoc [[]] [].          (* tag: an empty first entry *)

Record opts4 := mkOpts4 { g_neg : bool; g_limit : Z; g_nullsz : option Z }.

Definition o5 (g : opts4) : opts := mkOpts (g_neg g) (g_limit g) false false true [] (g_nullsz g).

Definition obj_of (ms : list (bytes * tjson)) : list (bytes * node) := build_obj ms [].

(* rendering: members sorted by decoded name (encoding/json sorts map keys), HTML-escaped *)
Fixpoint render4 (n : node) : tjson :=
  match n with
  | NNil => TNull
  | NRaw t => t
  | NDoc [] obj =>
      TObj (map (fun kv => (quote true (fst kv), snd kv))
                (fold_left (fun acc kv => insert_sorted kv acc)
                           (map (fun kv => (fst kv, render4 (snd kv))) obj) []))
  | NDoc (_ :: _) _ => TNull        (* raw_null4, nil_doc4: json.Marshal of the text null / of a nil map *)
  | NAry ns => TArr (map render4 ns)
  end.

Inductive con4 :=
| DDoc (obj : list (bytes * node))
| DDocNil                         (* nil map: the document null *)
| DAry (nodes : list node).

Definition node_of_con4 (c : con4) : node :=
  match c with
  | DDoc obj => NDoc [] obj
  | DDocNil => nil_doc4
  | DAry ns => NAry ns
  end.

Definition con4_get (g : opts4) (c : con4) (key : bytes) : res node :=
  match c with
  | DDoc obj => Ok (match aget key obj with Some v => v | None => NNil end)
  | DDocNil => Ok NNil
  | DAry ns =>
      match resolve_idx_get (o5 g) (zlen ns) key with
      | Ok i => Ok (nth i ns NNil)
      | Err e => Err e
      | Panic => Panic
      end
  end.

Definition con4_add (g : opts4) (c : con4) (key : bytes) (v : node) : res con4 :=
  match c with
  | DDoc obj => Ok (DDoc (aset key v obj))
  | DDocNil => Err EInvalid
  | DAry ns =>
      match ary_add (o5 g) ns key v with
      | Ok ns' => Ok (DAry ns') | Err e => Err e | Panic => Panic
      end
  end.

Definition con4_set (g : opts4) (c : con4) (key : bytes) (v : node) : res con4 :=
  match c with
  | DDoc obj => Ok (DDoc (aset key v obj))
  | DDocNil => Err EInvalid
  | DAry ns =>
      match ary_set (o5 g) ns key v with
      | Ok ns' => Ok (DAry ns') | Err e => Err e | Panic => Panic
      end
  end.

Definition con4_remove (g : opts4) (c : con4) (key : bytes) : res con4 :=
  match c with
  | DDoc obj => if amem key obj then Ok (DDoc (adel key obj)) else Err EMissing
  | DDocNil => Err EMissing
  | DAry ns =>
      match ary_remove (o5 g) ns key with
      | Ok ns' => Ok (DAry ns') | Err e => Err e | Panic => Panic
      end
  end.

(* findObject: next == nil || err != nil || next.raw == nil -> nil; isArray(raw) ? intoAry : intoDoc.
   intoDoc of the raw text null succeeds: json.Unmarshal("null", &n.doc) leaves the nil map *)
Definition into_con4 (n : node) : option con4 :=
  match n with
  | NRaw (TObj ms) => Some (DDoc (obj_of ms))
  | NRaw (TArr l) => Some (DAry (map child l))
  | NDoc [] obj => Some (DDoc obj)
  | NDoc (_ :: _) _ => Some DDocNil
  | NAry ns => Some (DAry ns)
  | _ => None
  end.

Definition con4_put (g : opts4) (c : con4) (key : bytes) (ch : node) : con4 :=
  match c with
  | DDoc obj => DDoc (aset key ch obj)
  | DDocNil => c
  | DAry ns =>
      match resolve_idx_get (o5 g) (zlen ns) key with
      | Ok i => DAry (firstn i ns ++ ch :: skipn (S i) ns)
      | _ => c
      end
  end.

Fixpoint walk4 {A} (g : opts4) (parts : list bytes) (c : con4) (f : con4 -> A * con4) {struct parts}
  : option A * con4 :=
  match parts with
  | [] => let (a, c') := f c in (Some a, c')
  | p :: rest =>
      let key := decode_token p in
      match con4_get g c key with
      | Ok next =>
          match into_con4 next with
          | Some ch => let (r, ch') := walk4 g rest ch f in (r, con4_put g c key (node_of_con4 ch'))
          | None => (None, c)
          end
      | _ => (None, c)
      end
  end.

(* findObject: fewer than two pieces -> nil (also for "") *)
Definition find4 {A} (g : opts4) (c : con4) (path : bytes) (f : con4 -> bytes -> A * con4) : option A * con4 :=
  match split_path path with
  | None => (None, c)
  | Some (parts, key) => walk4 g parts c (fun c' => f c' key)
  end.

(* n == nil (pruneNulls of merge.go, val == nil of test) *)
Definition is_null4 (n : node) : bool := match n with NNil => true | _ => false end.

(* isNull: n == nil, or which == eRaw and (raw == nil or the raw text is null) *)
Definition null4 (n : node) : bool :=
  match n with
  | NNil => true
  | NRaw TNull => true
  | NDoc ((_ :: _) :: _) _ => true
  | _ => false
  end.

Definition shape4 (n : node) : shape :=
  match n with
  | NNil => SLeaf TNull
  | NRaw (TObj ms) => SDoc (obj_of ms)
  | NRaw (TArr l) => SAry (map child l)
  | NRaw t => SLeaf t
  | NDoc _ obj => SDoc obj
  | NAry ns => SAry ns
  end.

(* equal: strings by spelling *)
Fixpoint equal4 (fuel : nat) (n o : node) {struct fuel} : bool :=
  match fuel with
  | O => false
  | S f =>
      if null4 n || null4 o then null4 n && null4 o else
      match shape4 n, shape4 o with
      | SLeaf a, SLeaf b => bseq (print false a) (print false b)
      | SLeaf _, _ => false
      | SDoc m, SDoc m' =>
          (length m =? length m')%nat &&
          forallb (fun kv => match aget (fst kv) m' with
                             | Some ov => equal4 f (snd kv) ov
                             | None => false
                             end) m
      | SDoc _, _ => false
      | SAry l, SAry l' =>
          (length l =? length l')%nat &&
          (fix go (l l' : list node) : bool :=
             match l, l' with
             | x :: r, y :: r' => equal4 f x y && go r r'
             | _, _ => true
             end) l l'
      | SAry _, _ => false
      end
  end.

Definition node_equal4 (n o : node) : bool := equal4 (nsize n + nsize o) n o.

(* op.value(): a null value member is a node with a nil raw message (raw_nil4), not the nil node *)
Definition op_value4 (op : operation) : option node :=
  match aget (B "value") op with
  | Some None => Some raw_nil4
  | Some (Some t) => Some (NRaw t)
  | None => None
  end.

Record state4 := mkState4 { r4 : con4; acc4 : Z }.

Definition deep_copy4 (g : opts4) (n : node) : node * Z :=
  match n with
  | NNil => (NNil, match g_nullsz g with Some z => z | None => 0%Z end)
  | _ => let t := render4 n in
         (* a node that marshals as null (raw_nil4, raw_null4, nil_doc4) is copied as the raw text null *)
         (match t with TNull => raw_null4 | _ => NRaw (escape_tree true t) end, zlen (print true t))
  end.

Definition lift4 {A} (r : option (res A) * con4) (st : state4) (k : A -> con4 -> res state4) : res state4 :=
  match r with
  | (Some (Ok a), c) => k a c
  | (Some (Err e), _) => Err e
  | (Some Panic, _) => Panic
  | (None, _) => Err EMissing
  end.

Definition upd {A} (r : res con4) (c : con4) (a : A) : res A * con4 :=
  match r with Ok c' => (Ok a, c') | Err e => (Err e, c) | Panic => (Panic, c) end.

Definition step4 (g : opts4) (st : state4) (op : operation) : res state4 :=
  let c := r4 st in
  let vnode := match op_value4 op with Some v => v | None => NNil end in
  match op_kind op with
  | KAdd =>
      match op_str op (B "path") with
      | Ok path => lift4 (find4 g c path (fun c' key => upd (con4_add g c' key vnode) c' tt)) st
                         (fun _ c2 => Ok (mkState4 c2 (acc4 st)))
      | _ => Err EMissing
      end
  | KRemove =>
      match op_str op (B "path") with
      | Ok path => lift4 (find4 g c path (fun c' key => upd (con4_remove g c' key) c' tt)) st
                         (fun _ c2 => Ok (mkState4 c2 (acc4 st)))
      | _ => Err EMissing
      end
  | KReplace =>
      match op_str op (B "path") with
      | Ok [] =>
          match op_value4 op with
          | Some (NRaw (TObj ms)) => Ok (mkState4 (DDoc (obj_of ms)) (acc4 st))
          | Some (NRaw (TArr l)) => Ok (mkState4 (DAry (map child l)) (acc4 st))
          | Some _ => Err EOther
          | None => Err EMissing            (* no value member: reported as ErrMissing (fix 1a7093a) *)
          end
      | Ok path =>
          lift4 (find4 g c path (fun c' key =>
                                   match con4_get g c' key with
                                   | Ok _ => upd (con4_set g c' key vnode) c' tt
                                   | Err _ => (Err EMissing, c')
                                   | Panic => (Panic, c')
                                   end)) st
                (fun _ c2 => Ok (mkState4 c2 (acc4 st)))
      | Err e => Err e
      | Panic => Panic
      end
  | KMove =>
      match op_str op (B "from") with
      | Ok from =>
          lift4 (find4 g c from (fun c' key =>
                                   match con4_get g c' key with
                                   | Ok v => upd (con4_remove g c' key) c' v
                                   | Err e => (Err e, c')
                                   | Panic => (Panic, c')
                                   end)) st
                (fun v c1 =>
                   match op_str op (B "path") with
                   | Ok path => lift4 (find4 g c1 path (fun c' key => upd (con4_add g c' key v) c' tt)) st
                                      (fun _ c2 => Ok (mkState4 c2 (acc4 st)))
                   | Err e => Err e
                   | Panic => Panic
                   end)
      | Err e => Err e
      | Panic => Panic
      end
  | KCopy =>
      match op_str op (B "from") with
      | Ok from =>
          lift4 (find4 g c from (fun c' key => (con4_get g c' key, c'))) st
                (fun _ c1 =>
                   match op_str op (B "path") with
                   | Ok path =>
                       match find4 g c1 path (fun c' key => (tt, c')) with
                       | (Some _, c2) =>
                           lift4 (find4 g c2 from (fun c' key => (con4_get g c' key, c'))) st
                                 (fun v _ =>
                                    let (cp, sz) := deep_copy4 g v in
                                    let acc := (acc4 st + sz)%Z in
                                    if (0 <? g_limit g)%Z && (g_limit g <? acc)%Z then Err (ECopyLimit (g_limit g) acc)
                                    else lift4 (find4 g c2 path (fun c' key => upd (con4_add g c' key cp) c' tt)) st
                                               (fun _ c3 => Ok (mkState4 c3 acc)))
                       | (None, _) => Err EMissing
                       end
                   | _ => Err EMissing
                   end)
      | Err e => Err e
      | Panic => Panic
      end
  | KTest =>
      match op_str op (B "path") with
      | Ok [] =>
          if node_equal4 (node_of_con4 c) vnode && negb (is_null4 vnode) then Ok st else Err ETestFailed
      | Ok path =>
          lift4 (find4 g c path (fun c' key =>
                                   match con4_get g c' key with
                                   | Ok v =>
                                       (* val == nil: passes iff op.value() == nil || op.value().raw == nil *)
                                       if is_null4 v then ((if null4 vnode then Ok tt else Err ETestFailed), c')
                                       else match op_value4 op with
                                            | None => (Err ETestFailed, c')
                                            | Some ov => ((if node_equal4 v ov then Ok tt else Err ETestFailed), c')
                                            end
                                   | Err e => (Err e, c')
                                   | Panic => (Panic, c')
                                   end)) st
                (fun _ c2 => Ok (mkState4 c2 (acc4 st)))
      | Err e => Err e
      | Panic => Panic
      end
  | KUnknown => Err EOther
  end.

Fixpoint apply4_from (g : opts4) (i : nat) (st : state4) (p : list operation) : res state4 * nat :=
  match p with
  | [] => (Ok st, i)
  | op :: rest =>
      match step4 g st op with
      | Ok st' => apply4_from g (S i) st' rest
      | r => (r, i)
      end
  end.

(* DecodePatch: json.Unmarshal into []map[string]*RawMessage, nothing else *)
Definition decode4_t (t : tjson) : option (list operation) :=
  match t with
  | TNull => Some []
  | TArr els =>
      if forallb (fun e => match e with TObj _ | TNull => true | _ => false end) els
      then Some (map (fun e => match e with TObj ms => operation_of ms | _ => [] end) els)
      else None
  | _ => None
  end.

Definition api_decode4 (bs : bytes) : option (list operation) :=
  match parse bs with Some t => decode4_t t | None => None end.

Inductive result4 :=
| Out4 (out : bytes)
| Err4 (index : option nat) (e : errclass)
| Panic4.

Definition api_apply4 (g : opts4) (indent : bytes) (p : list operation) (doc : bytes) : result4 :=
  match doc with
  | [] => Out4 []
  | _ =>
      match parse doc with
      | None => Err4 None EInvalid
      | Some t =>
          let start :=
            match t with
            | TObj ms => Some (DDoc (obj_of ms))
            | TArr l => Some (DAry (map child l))
            | TNull => Some DDocNil
            | _ => None
            end in
          match start with
          | None => Err4 None EDecode
          | Some c =>
              match apply4_from g 0 (mkState4 c 0) p with
              | (Ok st, _) =>
                  let t' := match r4 st with DDocNil => TNull | c' => render4 (node_of_con4 c') end in
                  Out4 (match indent with [] => print true t' | _ => pp true indent 0 t' end)
              | (Err e, i) => Err4 (Some i) e
              | (Panic, _) => Panic4
              end
          end
      end
  end.

(* ---- a domain test for the simulation against RFC 6902 (V4ApplySim.v), kept with the model so that
   the correspondence oracle can extract it: no copy of the run is handed the operation value null
   (raw_nil4).  deepCopy stores the raw text null for it, and a later path through that member is
   walked like an empty object, where RFC 6902 says the path does not exist. ---- *)
(* the node a copy hands to deepCopy: the source, read again after the walk to the destination *)
Definition copy_arg4 (g : opts4) (st : state4) (op : operation) : option node :=
  match op_str op (B "from"), op_str op (B "path") with
  | Ok from, Ok path =>
      match find4 g (r4 st) from (fun c' key => (con4_get g c' key, c')) with
      | (Some (Ok _), c1) =>
          match find4 g c1 path (fun c' key => (tt, c')) with
          | (Some _, c2) =>
              match find4 g c2 from (fun c' key => (con4_get g c' key, c')) with
              | (Some (Ok v), _) => Some v
              | _ => None
              end
          | (None, _) => None
          end
      | _ => None
      end
  | _, _ => None
  end.

Definition is_raw_nil4 (o : option node) : bool := match o with Some (NRaw TNull) => true | _ => false end.

Fixpoint no_null_copy4 (g : opts4) (st : state4) (p : list operation) : bool :=
  match p with
  | [] => true
  | op :: rest =>
      negb (match op_kind op with KCopy => is_raw_nil4 (copy_arg4 g st op) | _ => false end) &&
      match step4 g st op with Ok st' => no_null_copy4 g st' rest | _ => true end
  end.

(* the same from the bytes of the document, as Apply starts *)
Definition api_no_null_copy4 (g : opts4) (p : list operation) (doc : bytes) : bool :=
  match parse doc with
  | Some (TObj ms) => no_null_copy4 g (mkState4 (DDoc (obj_of ms)) 0) p
  | Some (TArr l) => no_null_copy4 g (mkState4 (DAry (map child l)) 0) p
  | _ => true
  end.

(* ---- merge.go ---- *)
Fixpoint prune4_t (t : tjson) : node :=
  match t with
  | TObj ms =>
      NDoc []
        ((fix go (ms : list (bytes * tjson)) (acc : list (bytes * node)) :=
            match ms with
            | [] => acc
            | (k, v) :: r =>
                match v with
                | TNull => go r (adel (unquote k) acc)
                | _ => go r (aset (unquote k) (prune4_t v) acc)
                end
            end) ms [])
  | _ => NRaw t
  end.

Fixpoint prune4_node (n : node) : node :=
  match n with
  | NRaw t => prune4_t t
  | NDoc k obj =>
      NDoc k (filter (fun kv => negb (is_null4 (snd kv)))
                     (map (fun kv => (fst kv, prune4_node (snd kv))) obj))
  | _ => n
  end.

Definition into_doc4 (n : node) : option (list (bytes * node)) :=
  match n with
  | NDoc _ obj => Some obj
  | NRaw (TObj ms) => Some (obj_of ms)
  | _ => None
  end.

Fixpoint merge4_n (fuel : nat) (mm : bool) (cur : node) (p : tjson) {struct fuel} : node :=
  match fuel with
  | O => NRaw p
  | S f =>
      match into_doc4 cur with
      | None => prune4_node (NRaw p)
      | Some obj =>
          match p with
          | TObj pms =>
              NDoc []
                ((fix go (es : list (bytes * tjson)) (obj : list (bytes * node)) :=
                    match es with
                    | [] => obj
                    | (k, v) :: r =>
                        match v with
                        | TNull => if mm then go r (aset k NNil obj) else go r (adel k obj)
                        | _ =>
                            match aget k obj with
                            | None | Some NNil => go r (aset k (if mm then NRaw v else prune4_node (NRaw v)) obj)
                            | Some c => go r (aset k (merge4_n f mm c v) obj)
                            end
                        end
                    end) (patch_entries pms) obj)
          | _ => NRaw p
          end
      end
  end.

Definition marshal4 (n : node) : bytes := print true (render4 n).

Definition api_merge4 (mm : bool) (doc patch : bytes) : mres :=
  match parse doc with
  | None => MErr MBadDoc
  | Some td =>
      match parse patch with
      | None => MErr MBadPatch
      | Some tp =>
          match td, tp with
          | TNull, _ => MErr MBadDoc
          | _, TNull => MErr MBadPatch
          | TObj _, TObj _ => MOut (marshal4 (merge4_n (S (tsize tp)) mm (NRaw td) tp))
          | _, TObj pms => MOut (marshal4 (if mm then NDoc [] (obj_of pms) else prune4_node (NRaw tp)))
          | _, TArr _ => MOut (print true tp)
          | _, _ => MErr MBadPatch
          end
      end
  end.

Definition api_equal4 (a b : bytes) : option bool :=
  match parse a, parse b with
  | Some ta, Some tb => Some (node_equal4 (NRaw ta) (NRaw tb))
  | _, _ => None      (* no Valid gate: behaviour on ill-formed input is outside C19 *)
  end.
