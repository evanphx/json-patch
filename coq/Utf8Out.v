(* Utf8Out.v — the UTF-8 clause of C15: every successful result of Apply / ApplyIndent, MergePatch,
   MergeMergePatches and CreateMergePatch is valid UTF-8, given UTF-8 input.

   utf8_text   : the byte-level predicate: the whole byte string is a concatenation of well-formed
                 UTF-8 sequences as unicode/utf8.Valid understands it.  It IS Codec.utf8 (the walk of
                 DecodeRune, Strings.utf8_len); utf8b is its decision procedure (utf8b_iff).
   tutf8 t     : every string body, member-name body and number literal spelled in the tree t is
                 utf8_text. *)
From Coq Require Import Lia.
From JP Require Import Bytes Json Text Strings Den Pointer Rfc6902 ImplV5 DecodeFacts JsonFacts Abs EqualFacts ParseFacts ReadInv
                       ImplFacts RefFacts ApplyFacts Codec StrInv PrintParse Depth ApplySim Totality.
From JP Require Import ImplMerge Rfc7396 MergeFacts ImplMergeFacts CreateFacts OutputFacts.

(* 1. bytes *)

Definition utf8_text : bytes -> Prop := utf8.

Definition ascii (s : bytes) : bool := forallb (fun c => bn c <? 128) s.

Lemma ascii_app a b : ascii (a ++ b) = ascii a && ascii b.
Proof. apply forallb_app. Qed.

(* a string over a class of ASCII bytes *)
Lemma ascii_class (f : byte -> bool) : (forall c, f c = true -> (bn c <? 128) = true) ->
  forall s, forallb f s = true -> ascii s = true.
Proof. intros F s H. unfold ascii. rewrite forallb_forall in *. intros c Hc. apply F, H, Hc. Qed.

Lemma utf8_tail c r : (bn c <? 128) = true -> utf8 (c :: r) -> utf8 r.
Proof. exact (Codec.utf8_tail c r). Qed.

Lemma utf8_drop_ascii a b : ascii a = true -> utf8 (a ++ b) -> utf8 b.
Proof.
  induction a as [|c a IH]; intros A U; [exact U|]. cbn [ascii forallb] in A. apply andb_prop in A as [A1 A2].
  apply IH; [exact A2|]. apply (utf8_tail c); [exact A1 | exact U].
Qed.

Theorem utf8_app a b : utf8 a -> utf8 b -> utf8 (a ++ b).
Proof.
  induction 1 as [|c r H U IH|c r n H E U IH]; intro Ub.
  - exact Ub.
  - cbn [app]. apply U_ascii; [exact H | apply IH; exact Ub].
  - rewrite <- (firstn_skipn (S n) (c :: r)), <- app_assoc. apply utf8_chunk; [exact H | exact E | apply IH; exact Ub].
Qed.

Lemma utf8_ascii_app a b : ascii a = true -> utf8 b -> utf8 (a ++ b).
Proof. intros A U. apply utf8_app; [apply utf8_ascii; exact A | exact U]. Qed.

Lemma utf8_snoc a c : utf8 a -> (bn c <? 128) = true -> utf8 (a ++ [c]).
Proof. intros U H. apply utf8_app; [exact U|]. apply U_ascii; [exact H | constructor]. Qed.

(* in a UTF-8 string an ASCII byte is a sequence boundary *)
Lemma high_prefix_len (a : bytes) c r : (bn c <? 128) = true -> forall k,
  Forall (fun x => (bn x <? 128) = false) (firstn k (a ++ c :: r)) -> (k <= length a)%nat.
Proof.
  intro H. induction a as [|x a IH]; intros k F.
  - destruct k as [|k]; [apply le_n|]. cbn [app firstn] in F. inversion F as [|? ? F1 F2]; subst. rewrite H in F1. discriminate.
  - destruct k as [|k]; [apply Nat.le_0_l|]. cbn [app firstn] in F. inversion F as [|? ? F1 F2]; subst.
    cbn [length]. apply le_n_S. apply IH. exact F2.
Qed.

Theorem utf8_split : forall (m : nat) a c r, (length a <= m)%nat -> (bn c <? 128) = true ->
  utf8 (a ++ c :: r) -> utf8 a /\ utf8 (c :: r).
Proof.
  intros _ a c r _ H U. remember (a ++ c :: r) as s eqn:Es. revert a Es.
  induction U as [|x s Hx U IH|x s n Hx E U IH]; intros [|y a] Es; try discriminate Es.
  - injection Es as -> ->. split; [constructor | apply U_ascii; assumption].
  - injection Es as <- ->. destruct (IH a eq_refl) as [I1 I2]. split; [apply U_ascii; assumption | exact I2].
  - injection Es as -> ->. congruence.
  - (* the sequence that x starts is made of high bytes: it ends before c, and y :: a is that sequence and the rest *)
    pose proof (si_utf8_seq_high x s n Hx E) as Hi. rewrite Es in Hi.
    assert (K : (S n - length (y :: a) = 0)%nat) by (pose proof (high_prefix_len (y :: a) c r H (S n) Hi); lia).
    destruct (IH (skipn (S n) (y :: a))) as [I1 I2]; [rewrite Es, skipn_app, K; reflexivity|].
    split; [|exact I2]. rewrite <- (firstn_skipn (S n) (y :: a)).
    replace (firstn (S n) (y :: a)) with (firstn (S n) (x :: s)) by (rewrite Es, firstn_app, K; apply app_nil_r).
    apply utf8_chunk; assumption.
Qed.

Corollary utf8_split_at a c r : (bn c <? 128) = true -> utf8 (a ++ c :: r) -> utf8 a /\ utf8 r.
Proof.
  intros H U. destruct (utf8_split (length a) a c r (le_n _) H U) as [U1 U2]. split; [exact U1|].
  apply (utf8_tail c r H U2).
Qed.

(* ---- decision procedure (what utf8.Valid computes) ---- *)
Fixpoint utf8b_go (fuel : nat) (s : bytes) : bool :=
  match fuel with
  | O => match s with [] => true | _ => false end
  | S f =>
      match s with
      | [] => true
      | c :: r =>
          if bn c <? 128 then utf8b_go f r
          else match utf8_len s with
               | O => false
               | n => utf8b_go f (skipn n s)
               end
      end
  end.

Definition utf8b (s : bytes) : bool := utf8b_go (length s) s.

Lemma utf8b_go_iff : forall f s, (length s <= f)%nat -> (utf8b_go f s = true <-> utf8 s).
Proof.
  induction f as [|f IH]; intros s L.
  { destruct s; [split; [constructor | reflexivity] | simpl in L; lia]. }
  destruct s as [|c r]; [split; [constructor | reflexivity]|]. simpl in L. cbn [utf8b_go].
  destruct (bn c <? 128) eqn:H.
  - rewrite (IH r) by lia. split; [intro U; apply U_ascii; assumption | apply utf8_tail; exact H].
  - destruct (utf8_len (c :: r)) as [|n] eqn:E.
    + split; [discriminate|]. intro U. inversion U as [|c0 r0 H0 U0|c0 r0 n0 H0 E0 U0]; subst; congruence.
    + assert (L2 : (length (skipn (S n) (c :: r)) <= f)%nat) by (rewrite skipn_length; simpl; lia).
      rewrite (IH _ L2). split.
      * intro U. apply (U_multi c r n H E U).
      * intro U. inversion U as [|c0 r0 H0 U0|c0 r0 n0 H0 E0 U0]; subst; [congruence|].
        assert (n0 = n) by congruence. subst n0. exact U0.
Qed.

Theorem utf8b_iff s : utf8b s = true <-> utf8_text s.
Proof. apply utf8b_go_iff. apply le_n. Qed.

Corollary utf8b_false s : utf8b s = false -> ~ utf8_text s.
Proof. intros H U. apply utf8b_iff in U. congruence. Qed.

(* 2. the encoder *)

Lemma ascii_qchar esc c : (bn c <? 128) = true -> ascii (qchar esc c) = true.
Proof. destruct esc; destruct c; intro H; try (vm_compute in H; discriminate H); vm_compute; reflexivity. Qed.

(* encodeState.string writes UTF-8 whatever bytes the Go string holds: ASCII is copied or escaped,
   a well-formed sequence is copied (U+2028/9 escaped), a byte that starts no well-formed sequence is
   written as the escape of U+FFFD (six ASCII bytes) *)
Theorem utf8_quote esc s : utf8_text (quote esc s).
Proof.
  apply quote_chunks.
  - constructor.
  - intros c Q H. apply utf8_ascii_app, ascii_qchar, H.
  - intros Q. now apply utf8_ascii_app.
  - intros d Q [->| ->]; now apply utf8_ascii_app.
  - intros c r k Q H E _. now apply utf8_chunk.
Qed.

Corollary utf8_quote_any esc : forall n s, (length s <= n)%nat -> utf8 (quote esc s).
Proof. intros n s _. apply utf8_quote. Qed.

(* compact's escaping keeps a UTF-8 body UTF-8 *)
Lemma he_special_ascii c r : he_special c = true -> (bn c <? 128) = true ->
  exists p, ascii p = true /\ html_escape (c :: r) = p ++ html_escape r.
Proof.
  intros S H. destruct c; try discriminate S; try discriminate H.
  - exists [x5c; x75; x30; x30; x32; x36]. split; reflexivity.
  - exists [x5c; x75; x30; x30; x33; x63]. split; reflexivity.
  - exists [x5c; x75; x30; x30; x33; x65]. split; reflexivity.
Qed.

Theorem utf8_html_escape b : utf8 b -> utf8 (html_escape b).
Proof.
  induction 1 as [|c r H U IH|c r n H E U IH].
  - constructor.
  - destruct (he_special c) eqn:Sp.
    + destruct (he_special_ascii c r Sp H) as [p [Ap ->]]. apply utf8_ascii_app; assumption.
    + rewrite he_plain by exact Sp. apply U_ascii; assumption.
  - destruct (is_ls (c :: r)) as [[d r']|] eqn:Ls.
    + rewrite he_cons, Ls. assert (n = 2%nat) by (rewrite (is_ls_valid c r _ Ls) in E; congruence). subst n.
      apply is_ls_inv in Ls as [[Ls ->]|[Ls ->]]; injection Ls as -> ->; (apply utf8_ascii_app; [reflexivity | exact IH]).
    + rewrite (he_chunk c r n H E Ls). apply utf8_chunk; assumption.
Qed.

Lemma utf8_esc_body esc b : utf8 b -> utf8 (esc_body esc b).
Proof. destruct esc; [apply utf8_html_escape | auto]. Qed.

Lemma utf8_spell esc b : utf8 b -> utf8 (spell esc b).
Proof.
  intro U. unfold spell. apply U_ascii; [reflexivity|]. apply utf8_snoc; [|reflexivity].
  exact (utf8_esc_body esc b U).
Qed.

(* 3. trees *)

Fixpoint tutf8 (t : tjson) : Prop :=
  match t with
  | TStr b => utf8 b
  | TNum lit => utf8 lit
  | TArr l => (fix all (l : list tjson) : Prop := match l with [] => True | x :: r => tutf8 x /\ all r end) l
  | TObj ms => (fix all (m : list (bytes * tjson)) : Prop :=
                  match m with [] => True | kv :: r => (utf8 (fst kv) /\ tutf8 (snd kv)) /\ all r end) ms
  | _ => True
  end.

Lemma tutf8_arr l : tutf8 (TArr l) <-> Forall tutf8 l.
Proof. apply all_fix_Forall. Qed.

Lemma tutf8_obj ms : tutf8 (TObj ms) <-> Forall (fun kv => utf8 (fst kv) /\ tutf8 (snd kv)) ms.
Proof. apply (all_fix_Forall (fun kv => utf8 (fst kv) /\ tutf8 (snd kv))). Qed.

Lemma tutf8_arr_parts l : tutf8 (TArr l) -> Forall tutf8 l.
Proof. apply tutf8_arr. Qed.

Lemma tutf8_obj_parts ms : tutf8 (TObj ms) -> Forall (fun kv => tutf8 (snd kv)) ms.
Proof. intro H. apply tutf8_obj in H. revert H. apply Forall_impl. intros kv [_ H]. exact H. Qed.

Lemma utf8_sep_concat sep l : utf8 sep -> Forall utf8 l -> utf8 (sep_concat sep l).
Proof.
  intros Us F. induction F as [|x l Hx F IH]; [constructor|].
  destruct l as [|y l]; [exact Hx|].
  change (sep_concat sep (x :: y :: l)) with (x ++ sep ++ sep_concat sep (y :: l)).
  apply utf8_app; [exact Hx|]. apply utf8_app; [exact Us | exact IH].
Qed.

Lemma utf8_rep k ind : utf8 ind -> utf8 (rep k ind).
Proof. intro U. induction k as [|k IH]; [constructor|]. cbn [rep]. apply utf8_app; assumption. Qed.

Lemma utf8_nl ind k : utf8 ind -> utf8 (nl ind k).
Proof. intro U. unfold nl. apply U_ascii; [reflexivity | apply utf8_rep; exact U]. Qed.

(* the compact text of a tree whose spellings are UTF-8: structural characters are ASCII *)
Theorem utf8_print esc t : tutf8 t -> utf8_text (print esc t).
Proof.
  induction t as [| | |lit|b|l IH|ms IH] using tjson_rect'; intro T; try (apply utf8_ascii; reflexivity).
  - exact T.
  - cbn [print]. apply utf8_spell. exact T.
  - cbn [print]. apply U_ascii; [reflexivity|]. apply utf8_snoc; [|reflexivity].
    apply utf8_sep_concat; [apply utf8_ascii; reflexivity|]. rewrite Forall_map. apply tutf8_arr in T.
    rewrite Forall_forall in *. intros x Hx. apply (IH x Hx). apply (T x Hx).
  - cbn [print]. apply U_ascii; [reflexivity|]. apply utf8_snoc; [|reflexivity].
    apply utf8_sep_concat; [apply utf8_ascii; reflexivity|]. rewrite Forall_map. apply tutf8_obj in T.
    rewrite Forall_forall in *. intros kv Hk. destruct (T kv Hk) as [T1 T2].
    apply utf8_app; [apply utf8_spell; exact T1|]. apply U_ascii; [reflexivity|]. apply (IH kv Hk). exact T2.
Qed.

(* the indented text: the indentation is repeated verbatim, so it has to be UTF-8 itself *)
Theorem utf8_pp esc ind t : utf8 ind -> tutf8 t -> forall k, utf8_text (pp esc ind k t).
Proof.
  intro Ui. induction t as [| | |lit|b|l IH|ms IH] using tjson_rect'; intros T k;
    try (apply (utf8_print esc); exact T).
  - destruct l as [|x l]; [apply utf8_ascii; reflexivity|].
    change (pp esc ind k (TArr (x :: l))) with
      (x5b :: nl ind (S k) ++ sep_concat (x2c :: nl ind (S k)) (map (pp esc ind (S k)) (x :: l)) ++ nl ind k ++ [x5d]).
    apply U_ascii; [reflexivity|]. apply utf8_app; [apply utf8_nl; exact Ui|].
    apply utf8_app; [|apply utf8_snoc; [apply utf8_nl; exact Ui | reflexivity]].
    apply utf8_sep_concat; [apply U_ascii; [reflexivity | apply utf8_nl; exact Ui]|].
    rewrite Forall_map. apply tutf8_arr in T. rewrite Forall_forall in *. intros y Hy. apply (IH y Hy). apply (T y Hy).
  - destruct ms as [|x ms]; [apply utf8_ascii; reflexivity|].
    change (pp esc ind k (TObj (x :: ms))) with
      (x7b :: nl ind (S k) ++ sep_concat (x2c :: nl ind (S k))
                 (map (fun kv => spell esc (fst kv) ++ x3a :: x20 :: pp esc ind (S k) (snd kv)) (x :: ms))
           ++ nl ind k ++ [x7d]).
    apply U_ascii; [reflexivity|]. apply utf8_app; [apply utf8_nl; exact Ui|].
    apply utf8_app; [|apply utf8_snoc; [apply utf8_nl; exact Ui | reflexivity]].
    apply utf8_sep_concat; [apply U_ascii; [reflexivity | apply utf8_nl; exact Ui]|].
    rewrite Forall_map. apply tutf8_obj in T. rewrite Forall_forall in *. intros kv Hk. destruct (T kv Hk) as [T1 T2].
    apply utf8_app; [apply utf8_spell; exact T1|]. apply U_ascii; [reflexivity|]. apply U_ascii; [reflexivity|].
    apply (IH kv Hk). exact T2.
Qed.

Corollary utf8_output o indent t : utf8 indent -> tutf8 t -> utf8_text (output o indent t).
Proof. intros Ui T. unfold output. destruct indent; [apply utf8_print; exact T | apply utf8_pp; assumption]. Qed.

(* tutf8 speaks of the leaves only (StrInv.spelled) *)
Lemma tutf8_spelled : spelled tutf8 utf8.
Proof.
  split; try exact I; try (split; exact I); try reflexivity.
  - exact tutf8_arr.
  - exact tutf8_obj.
  - exact utf8_quote.
  - exact utf8_esc_body.
Qed.

Lemma tutf8_escape_tree esc t : tutf8 t -> tutf8 (escape_tree esc t).
Proof. exact (sp_escape tutf8_spelled esc t). Qed.

(* 4. the reader: a UTF-8 text is read as a tree whose spellings are UTF-8
   (ReadInv.reads_thread with "is UTF-8" threaded through the text: every function of the reader hands
   back a UTF-8 rest when given a UTF-8 text: the pieces are cut at ASCII bytes, and in UTF-8 an ASCII
   byte is a sequence boundary: utf8_split) *)

Lemma is_ws_ascii c : is_ws c = true -> (bn c <? 128) = true.
Proof. destruct c; intro H; try discriminate H; reflexivity. Qed.

Lemma utf8_skip_ws s : utf8 s -> utf8 (skip_ws s).
Proof.
  induction s as [|c r IH]; intro U; [exact U|]. cbn [skip_ws]. destruct (is_ws c) eqn:W; [|exact U].
  apply IH. apply (utf8_tail c r (is_ws_ascii c W) U).
Qed.

Lemma utf8_strip_prefix p : ascii p = true -> forall s rest, utf8 s -> strip_prefix p s = Some rest -> utf8 rest.
Proof. intros A s rest U H. apply strip_prefix_inv in H as ->. exact (utf8_drop_ascii p rest A U). Qed.

Lemma utf8_scan_string s b rest : utf8 s -> scan_string s = Some (b, rest) -> utf8 b /\ utf8 rest.
Proof.
  intros U H. apply scan_string_inv in H as [_ ->].
  apply (utf8_split_at b x22 rest eq_refl U).
Qed.

(* number literals are ASCII *)
Lemma is_digit_ascii c : is_digit c = true -> (bn c <? 128) = true.
Proof. unfold is_digit. intro H. apply andb_prop in H as [_ H]. apply N.leb_le in H. apply N.ltb_lt. lia. Qed.

Lemma is_digit19_ascii c : is_digit19 c = true -> (bn c <? 128) = true.
Proof. intro H. exact (is_digit_ascii c (proj1 (digit19_digit c H))). Qed.

Lemma digits_ascii d : digits d = true -> ascii d = true.
Proof. exact (ascii_class is_digit is_digit_ascii d). Qed.

Lemma digits1_ascii d : digits1 d = true -> ascii d = true.
Proof. destruct d; [discriminate | apply digits_ascii]. Qed.

Lemma int_ok_ascii i : int_ok i = true -> ascii i = true.
Proof.
  destruct i as [|c d]; [discriminate|]. cbn [int_ok]. destruct (Byte.eqb c x30) eqn:E.
  - apply Byte.byte_dec_bl in E. subst c. destruct d; [reflexivity | discriminate].
  - intro H. apply andb_prop in H as [H1 H2]. cbn [ascii forallb]. rewrite (is_digit19_ascii c H1). apply digits_ascii. exact H2.
Qed.

Lemma frac_ok_ascii f : frac_ok f = true -> ascii f = true.
Proof.
  destruct f as [|c d]; [reflexivity|]. cbn [frac_ok]. intro H. apply andb_prop in H as [H1 H2].
  apply Byte.byte_dec_bl in H1. subst c. cbn [ascii forallb]. apply digits1_ascii. exact H2.
Qed.

Lemma is_e_ascii c : ScannerGrammar.is_e c = true -> (bn c <? 128) = true.
Proof. intro H. apply orb_prop in H as [H|H]; apply Byte.byte_dec_bl in H; subst c; reflexivity. Qed.

Lemma is_sign_ascii c : ScannerGrammar.is_sign c = true -> (bn c <? 128) = true.
Proof. intro H. apply orb_prop in H as [H|H]; apply Byte.byte_dec_bl in H; subst c; reflexivity. Qed.

Lemma exp_ok_ascii e : exp_ok e = true -> ascii e = true.
Proof.
  destruct e as [|c r]; [reflexivity|]. cbn [exp_ok]. intro H. apply andb_prop in H as [H1 H2].
  cbn [ascii forallb]. rewrite (is_e_ascii c H1). cbn [andb]. destruct r as [|sg r']; [discriminate|].
  destruct (ScannerGrammar.is_sign sg) eqn:Sg.
  - cbn [forallb]. rewrite (is_sign_ascii sg Sg). apply digits1_ascii. exact H2.
  - apply digits1_ascii. exact H2.
Qed.

Theorem num_ok_ascii lit : num_ok lit -> ascii lit = true.
Proof.
  intros (neg & i & f & e & -> & Hn & Hi & Hf & He). rewrite !ascii_app.
  rewrite (int_ok_ascii i Hi), (frac_ok_ascii f Hf), (exp_ok_ascii e He). destruct Hn as [-> | ->]; reflexivity.
Qed.

Lemma utf8_scan_number s lit rest : utf8 s -> scan_number s = Some (lit, rest) -> utf8 lit /\ utf8 rest.
Proof.
  intros U H. apply scan_number_inv in H as [N ->]. pose proof (num_ok_ascii lit N) as A.
  split; [apply utf8_ascii; exact A | apply (utf8_drop_ascii lit rest A U)].
Qed.

Lemma parse_value_utf8 :
  (forall d s t rest, reads_value d s t rest -> utf8 s -> tutf8 t /\ utf8 rest) /\
  (forall d s l rest, reads_elems d s l rest -> utf8 s -> Forall tutf8 l /\ utf8 rest) /\
  (forall d s ms rest, reads_members d s ms rest -> utf8 s ->
     Forall (fun kv => utf8 (fst kv) /\ tutf8 (snd kv)) ms /\ utf8 rest).
Proof.
  apply (reads_thread utf8 (fun _ => tutf8) utf8).
  - intros s c r W U. rewrite <- W. apply utf8_skip_ws, U.
  - exact utf8_tail.
  - intros r b rest Ss U. exact (utf8_scan_string r b rest U Ss).
  - intros _ s lit rest Sn U. exact (utf8_scan_number s lit rest U Sn).
  - intros _. repeat split.
  - intros _ b H. exact H.
  - intros _ l _ H. apply tutf8_arr, H.
  - intros _ ms _ H. apply tutf8_obj, H.
Qed.

(* the input side of the clause: a UTF-8 text that is read is read as a tree spelled in UTF-8 *)
Theorem parse_tutf8 bs t : utf8_text bs -> parse bs = Some t -> tutf8 t.
Proof.
  intros U H. apply parse_reads in H as (rest & R & _). exact (proj1 (proj1 parse_value_utf8 _ _ _ _ R U)).
Qed.

(* whatever the text, a complete number literal is ASCII *)
Lemma num_ok_utf8 lit : num_ok lit -> utf8 lit.
Proof. intro H. apply utf8_ascii. apply num_ok_ascii. exact H. Qed.

(* 5. Apply / ApplyIndent (v5)
   nutf8 n : every raw message stored in the node n is a tree spelled in UTF-8.  Nothing is
   required of the member names of parsed objects: they are written by the encoder, which writes
   UTF-8 for every Go string (utf8_quote).  The invariant is OutputFacts.nall at tutf8: kept by
   every operation for arbitrary operations, paths and options (step_all). *)

Definition nutf8 : node -> Prop := nall tutf8.

Theorem tutf8_render esc v : nutf8 v -> tutf8 (render esc v).
Proof. exact (sp_render tutf8_spelled esc v). Qed.

Corollary tutf8_enc esc v : nutf8 v -> tutf8 (escape_tree esc (render esc v)).
Proof. exact (sp_enc tutf8_spelled esc v). Qed.

Definition op_utf8 : operation -> Prop := op_all tutf8.
Definition sutf8 (st : state) : Prop := sall tutf8 st.

Theorem step_nutf8 o st op st' : sutf8 st -> op_utf8 op -> step o st op = Ok st' -> sutf8 st'.
Proof.
  apply (step_all tutf8); [exact I | exact tutf8_arr_parts | exact tutf8_obj_parts | intros esc v; apply tutf8_enc].
Qed.

Theorem result_tree_tutf8 o p t tr : tutf8 t -> Forall op_utf8 p -> result_tree o p t = Some tr -> tutf8 tr.
Proof. exact (result_tree_sp tutf8_spelled o p t tr). Qed.

(* the values of a patch decoded from a UTF-8 text are spelled in UTF-8 *)
Theorem api_decode_utf8 bs p : utf8_text bs -> api_decode bs = Some p -> Forall op_utf8 p.
Proof.
  intro U. unfold api_decode. destruct (parse bs) as [t|] eqn:Pb; [|discriminate].
  exact (decode_patch_all tutf8 tutf8_arr_parts tutf8_obj_parts t p (parse_tutf8 bs t U Pb)).
Qed.

Theorem api_apply_utf8_tree o indent p doc t out :
  parse doc = Some t -> tutf8 t -> Forall op_utf8 p -> utf8_text indent ->
  api_apply o indent p doc = ROut out -> utf8_text out.
Proof.
  intros Pd T A Ui H. apply (api_apply_out o indent p doc t out Pd) in H as [tr [R ->]].
  apply utf8_output; [exact Ui|]. exact (result_tree_tutf8 o p t tr T A R).
Qed.

(* ---- main theorem, bytes: Apply (indent = []) and ApplyIndent.  EVERY options record, EVERY patch
   whose values are spelled in UTF-8 (every patch decoded from a UTF-8 text: api_decode_utf8).
   The indent has to be UTF-8 itself (it is copied verbatim); white space is. ---- *)
Theorem api_apply_utf8 o indent p doc out :
  utf8_text doc -> Forall op_utf8 p -> utf8_text indent ->
  api_apply o indent p doc = ROut out -> utf8_text out.
Proof.
  intros Ud A Ui H. destruct (parse doc) as [t|] eqn:Pd.
  - exact (api_apply_utf8_tree o indent p doc t out Pd (parse_tutf8 _ t Ud Pd) A Ui H).
  - rewrite (api_apply_unparsed o indent p doc out Pd H). constructor.
Qed.

Lemma wsb_utf8 ind : wsb ind = true -> utf8_text ind.
Proof. intro W. apply utf8_ascii. exact (ascii_class is_ws is_ws_ascii ind W). Qed.

Corollary api_apply_utf8_decoded o indent patch p doc out :
  utf8_text doc -> utf8_text patch -> api_decode patch = Some p -> wsb indent = true ->
  api_apply o indent p doc = ROut out -> utf8_text out.
Proof.
  intros Ud Up Dc W H. exact (api_apply_utf8 o indent p doc out Ud (api_decode_utf8 patch p Up Dc) (wsb_utf8 indent W) H).
Qed.

Print Assumptions utf8_quote.
Print Assumptions parse_tutf8.
Print Assumptions api_apply_utf8.
Print Assumptions api_apply_utf8_decoded.

(* 6. MergePatch / MergeMergePatches (v5) *)

Definition Putf (_ : N) (t : tjson) : Prop := tutf8 t.

Lemma Putf_obj d ms : Putf d (TObj ms) -> okT d /\ Forall (fun kv => anykey (unquote (fst kv)) /\ Putf (d - 1) (snd kv)) ms.
Proof.
  unfold Putf, okT, anykey. intro H. split; [exact I|]. apply tutf8_obj_parts in H. revert H. apply Forall_impl.
  intros kv H. split; [exact I | exact H].
Qed.

Lemma nlv_nutf8 n : forall d, nlv Putf anykey okT d n -> nutf8 n.
Proof. exact (nlv_nall Putf anykey okT tutf8 (fun _ _ T => T) n). Qed.

Theorem merge_node_nutf8 mm td tp : tutf8 td -> tutf8 tp -> nutf8 (merge_node mm td tp).
Proof. intros Td Tp. apply (nlv_nutf8 _ 0%N). apply (merge_node_lv Putf anykey okT Putf_obj mm 0%N td tp Td Tp). Qed.

Lemma utf8_marshal_node n : nutf8 n -> utf8_text (marshal_node n).
Proof. intro N. unfold marshal_node. apply utf8_print. apply tutf8_render. exact N. Qed.

(* every successful MergePatch (mm = false) / MergeMergePatches (mm = true) call on UTF-8 texts
   returns UTF-8 (a scalar patch is returned verbatim: this is where the patch has to be UTF-8 as a
   whole, not only in its spellings) *)
Theorem api_merge_utf8 mm doc patch out :
  utf8_text doc -> utf8_text patch -> api_merge mm doc patch = MOut out -> utf8_text out.
Proof.
  intros Ud Up H. destruct (api_merge_out_shape mm doc patch out H) as [td [tp [Pd [Pp NN]]]]. destruct (scalar_text tp) eqn:Sc.
  - rewrite (api_merge_scalar mm doc patch td tp Pd Pp NN Sc) in H. inversion H; subst. exact Up.
  - rewrite (api_merge_node mm doc patch td tp Pd Pp NN Sc) in H. inversion H; subst. apply utf8_marshal_node.
    apply merge_node_nutf8; [exact (parse_tutf8 doc td Ud Pd) | exact (parse_tutf8 patch tp Up Pp)].
Qed.

Print Assumptions api_merge_utf8.

(* 7. CreateMergePatch (v5): every string and name is written by the encoder and number literals are
   ASCII, so the result is UTF-8 whatever bytes the two documents hold *)

Theorem tutf8_encode_sorted j : onum_ok j -> tutf8 (encode_sorted j).
Proof. intro U. apply (sp_encode_sorted tutf8_spelled). intros lit Hl. apply num_ok_utf8, U, Hl. Qed.

Lemma as_obj_onum_ok t oa : tok t -> as_obj t = Some oa -> onum_ok oa.
Proof.
  intros T. destruct t; cbn [as_obj]; try discriminate; intro E.
  - inversion E; subst. intros lit [].
  - assert (Eo : oa = den (TObj ms)) by congruence. rewrite Eo. exact (onum_ok_den _ T).
Qed.

Lemma create_object_tutf8 x y p : tok y -> create_object x y = Some p -> tutf8 p.
Proof.
  intros T. rewrite create_object_spec. destruct (as_obj x) as [oa|]; [|discriminate].
  destruct (as_obj y) as [ob|] eqn:Eb; [|discriminate]. intro E; inversion E; subst.
  apply tutf8_encode_sorted. apply onum_ok_diff. exact (as_obj_onum_ok y ob T Eb).
Qed.

Lemma create_elems_tutf8 la : forall lb ps, Forall tok lb -> create_elems la lb = Some ps -> Forall tutf8 ps.
Proof. exact (create_elems_all tutf8 tok create_object_tutf8 la). Qed.

Theorem api_create_utf8 a b out : api_create a b = MOut out -> utf8_text out.
Proof.
  intro H. destruct (api_create_tree (fun _ => tutf8) (fun d l _ => proj2 (tutf8_arr l))
                       (fun d x y p Ty _ _ => create_object_tutf8 x y p Ty) a b out H) as [tr [-> T]].
  apply utf8_print, T.
Qed.

Print Assumptions api_create_utf8.

(* 8. the legacy root package
   MergePatch / MergeMergePatches: OutputFacts.merge4_node_lv at tutf8.
   Apply / ApplyIndent: V4OutputFacts.nall_closed4 (the legacy counterpart of OutputFacts.RawInv)
   at tutf8. *)

From JP Require Import ImplV4 V4MergeFacts V4ApplySim V4Inv V4OutputFacts.

Theorem tutf8_render4 n : nutf8 n -> tutf8 (render4 n).
Proof. exact (sp_render4 tutf8_spelled n). Qed.

Lemma utf8_marshal4 n : nutf8 n -> utf8_text (marshal4 n).
Proof. intro N. unfold marshal4. apply utf8_print. apply tutf8_render4. exact N. Qed.

Theorem merge4_node_nutf8 mm td tp : tutf8 td -> tutf8 tp -> nutf8 (merge4_node mm td tp).
Proof. intros Td Tp. apply (nlv_nutf8 _ 0%N). apply (merge4_node_lv Putf anykey okT Putf_obj mm 0%N td tp Td Tp). Qed.

(* every successful legacy MergePatch / MergeMergePatches call on UTF-8 texts returns UTF-8 (the
   legacy functions reject a scalar patch, so nothing is returned verbatim) *)
Theorem api_merge4_utf8 mm doc patch out :
  utf8_text doc -> utf8_text patch -> api_merge4 mm doc patch = MOut out -> utf8_text out.
Proof.
  intros Ud Up H. destruct (api_merge4_out_shape mm doc patch out H) as [td [tp [Pd [Pp [NN Sc]]]]].
  rewrite (api_merge4_node mm doc patch td tp Pd Pp NN Sc) in H. inversion H; subst.
  apply utf8_marshal4. apply merge4_node_nutf8; [exact (parse_tutf8 doc td Ud Pd) | exact (parse_tutf8 patch tp Up Pp)].
Qed.

Print Assumptions api_merge4_utf8.

Section RawInv4.
  Variable P : tjson -> Prop.

  Local Notation nP := (nall P).

  Definition call4g (c : con4) : Prop := nP (node_of_con4 c).
  Definition sall4 (st : state4) : Prop := call4g (r4 st).

  (* the container methods and the leaf actions keep call4g whatever P is: V4Inv's facts at nall P *)
  Lemma con4_get_allg g c key n : call4g c -> con4_get g c key = Ok n -> nP n.
  Proof. intro C. exact (post_ok _ _ _ _ n (con4_get_post (nall_closedc4 P) g c key C)). Qed.

  Lemma con4_put_allg g c key ch : call4g c -> nP ch -> call4g (con4_put g c key ch).
  Proof. exact (con4_put_inv (nall_closedc4 P) g c key ch). Qed.

  Lemma con4_add_allg g c key v c' : call4g c -> nP v -> con4_add g c key v = Ok c' -> call4g c'.
  Proof. intros C Hv. exact (post_ok _ _ _ _ c' (con4_add_post (nall_closedc4 P) g c key v C Hv)). Qed.

  Lemma con4_set_allg g c key v c' : call4g c -> nP v -> con4_set g c key v = Ok c' -> call4g c'.
  Proof. exact (con4_set_inv (nall_closedc4 P) g c key v c'). Qed.

  Lemma con4_remove_allg g c key c' : call4g c -> con4_remove g c key = Ok c' -> call4g c'.
  Proof. intro C. exact (post_ok _ _ _ _ c' (con4_remove_post (nall_closedc4 P) g c key C)). Qed.

  Lemma upd_allg {A} (r : res con4) c (a : A) :
    call4g c -> (forall c', r = Ok c' -> call4g c') -> call4g (snd (upd r c a)).
  Proof. intros C H. destruct r as [c'| |]; cbn [upd snd]; auto. Qed.

  Lemma add_fn4_allg g v c0 key : nP v -> call4g c0 -> call4g (snd (add_fn4 g v c0 key)).
  Proof. intros Hv C. exact (proj2 (add_fn4_post (nall_closedc4 P) g v c0 key Hv C)). Qed.

  Lemma remove_fn4_allg g c0 key : call4g c0 -> call4g (snd (remove_fn4 g c0 key)).
  Proof. intros C. exact (proj2 (remove_fn4_post (nall_closedc4 P) g c0 key C)). Qed.

  Lemma replace_fn4_allg g v c0 key : nP v -> call4g c0 -> call4g (snd (replace_fn4 g v c0 key)).
  Proof. intros Hv C. exact (proj2 (replace_fn4_post (nall_closedc4 P) g v c0 key Hv C)). Qed.

  Lemma move_src_fn4_allg g c0 key :
    call4g c0 -> (forall v, fst (move_src_fn4 g c0 key) = Ok v -> nP v) /\ call4g (snd (move_src_fn4 g c0 key)).
  Proof.
    intros C. destruct (move_src_fn4_post (nall_closedc4 P) g c0 key C) as [Q C']. split; [exact (fun v => post_ok _ _ _ _ v Q) | exact C'].
  Qed.

  Lemma get_fn4_allg g c0 key :
    call4g c0 -> (forall v, fst (get_fn4 g c0 key) = Ok v -> nP v) /\ call4g (snd (get_fn4 g c0 key)).
  Proof.
    intros C. destruct (get_fn4_post (nall_closedc4 P) g c0 key C) as [Q C']. split; [exact (fun v => post_ok _ _ _ _ v Q) | exact C'].
  Qed.

  Lemma test_fn4_allg g op c0 key : call4g c0 -> call4g (snd (test_fn4 g op c0 key)).
  Proof. intros C. exact (proj2 (test_fn4_post (nall_closedc4 P) g op c0 key C)). Qed.
End RawInv4.

Section RawInv4Copy.
  Variable P : tjson -> Prop.
  Hypothesis P_copy4 : forall v, nall P v -> P (escape_tree true (render4 v)).

  Local Notation nP := (nall P).

  (* an explicit null value is stored as the raw message null, which is what deepCopy writes for nil *)
  Lemma opv4_allg op : op_all P op -> nP (opv4 op).
  Proof. exact (opv4_inv (nall_closedc4 P) op (P_copy4 NNil I)). Qed.
End RawInv4Copy.

Lemma tutf8_enc4 v : nutf8 v -> tutf8 (escape_tree true (render4 v)).
Proof. exact (sp_enc4 tutf8_spelled v). Qed.

Theorem step4_nutf8 g st op st' : sall4 tutf8 st -> op_utf8 op -> step4 g st op = Ok st' -> sall4 tutf8 st'.
Proof.
  exact (step4_inv (nall_closed4 tutf8 tutf8_arr_parts tutf8_obj_parts) I (nall_deep_copy4 tutf8 tutf8_enc4) g st op st').
Qed.

Lemma tree4_tutf8 c : call4g tutf8 c -> tutf8 (tree4 c).
Proof. exact (tree4_sp tutf8_spelled c). Qed.

Theorem result4_tree_tutf8 g p t tr : tutf8 t -> Forall op_utf8 p -> result4_tree g p t = Some tr -> tutf8 tr.
Proof. exact (result4_tree_sp tutf8_spelled g p t tr). Qed.

Theorem api_decode4_utf8 bs p : utf8_text bs -> api_decode4 bs = Some p -> Forall op_utf8 p.
Proof.
  intro U. unfold api_decode4. destruct (parse bs) as [t|] eqn:Pb; [|discriminate].
  exact (decode4_all tutf8 tutf8_arr_parts tutf8_obj_parts t p (parse_tutf8 bs t U Pb)).
Qed.

Theorem api_apply4_utf8_tree g indent p doc t out :
  parse doc = Some t -> tutf8 t -> Forall op_utf8 p -> utf8_text indent ->
  api_apply4 g indent p doc = Out4 out -> utf8_text out.
Proof.
  intros Pd T A Ui H. apply (api_apply4_out g indent p doc t out Pd) in H as [tr [R ->]].
  rewrite (output4_is_output g). apply utf8_output; [exact Ui|].
  exact (result4_tree_tutf8 g p t tr T A R).
Qed.

(* the legacy Apply (indent = []) / ApplyIndent: every setting of the package variables *)
Theorem api_apply4_utf8 g indent p doc out :
  utf8_text doc -> Forall op_utf8 p -> utf8_text indent ->
  api_apply4 g indent p doc = Out4 out -> utf8_text out.
Proof.
  intros Ud A Ui H. destruct (parse doc) as [t|] eqn:Pd.
  - exact (api_apply4_utf8_tree g indent p doc t out Pd (parse_tutf8 _ t Ud Pd) A Ui H).
  - rewrite (api_apply4_unparsed g indent p doc out Pd H). constructor.
Qed.

Corollary api_apply4_utf8_decoded g indent patch p doc out :
  utf8_text doc -> utf8_text patch -> api_decode4 patch = Some p -> wsb indent = true ->
  api_apply4 g indent p doc = Out4 out -> utf8_text out.
Proof.
  intros Ud Up Dc W H. exact (api_apply4_utf8 g indent p doc out Ud (api_decode4_utf8 patch p Up Dc) (wsb_utf8 indent W) H).
Qed.

Print Assumptions api_apply4_utf8.
Print Assumptions api_apply4_utf8_decoded.

(* 9. examples *)

(* a document and a patch with two-, three- and four-byte sequences (U+00E9, U+2028, U+1F600, U+20AC) *)
Definition ex_u_doc : bytes :=
  B "{""k"":""" ++ [xc3; xa9; xe2; x80; xa8; xf0; x9f; x98; x80] ++ B """,""n"":[1,2]}".
Definition ex_u_patch : bytes :=
  B "[{""op"":""add"",""path"":""/n/-"",""value"":""" ++ [xe2; x82; xac] ++
  B """},{""op"":""copy"",""from"":""/k"",""path"":""/c""},{""op"":""move"",""from"":""/n"",""path"":""/" ++ [xc3; xa9] ++ B """}]".

(* non-vacuity: the hypotheses of api_apply_utf8_decoded hold, Apply and ApplyIndent succeed with
   EscapeHTML on and off, the results are not ASCII (the sequences are written raw, U+2028 escaped
   when the switch is on) and they are UTF-8 — by the theorem, and again by computation *)
Example ex_utf8_nonvacuous :
  utf8_text ex_u_doc /\ utf8_text ex_u_patch /\
  match api_decode ex_u_patch with
  | Some p =>
      match api_apply (ex_opts true) [] p ex_u_doc, api_apply (ex_opts false) (B "  ") p ex_u_doc with
      | ROut a, ROut b =>
          utf8_text a /\ utf8_text b /\ utf8b a = true /\ utf8b b = true /\ ascii a = false /\ ascii b = false /\
          parse a <> None /\ option_map den (parse a) = option_map den (parse b)
      | _, _ => False
      end
  | None => False
  end.
Proof.
  assert (Ud : utf8_text ex_u_doc) by (apply utf8b_iff; vm_compute; reflexivity).
  assert (Up : utf8_text ex_u_patch) by (apply utf8b_iff; vm_compute; reflexivity).
  split; [exact Ud|]. split; [exact Up|].
  destruct (api_decode ex_u_patch) as [p|] eqn:Dc; [|vm_compute in Dc; discriminate Dc].
  pose proof (fun o ind W out => api_apply_utf8_decoded o ind ex_u_patch p ex_u_doc out Ud Up Dc W) as Thm.
  vm_compute in Dc. injection Dc as <-.
  destruct (api_apply (ex_opts true) [] _ ex_u_doc) as [a| |] eqn:Ea; [|vm_compute in Ea; discriminate Ea..].
  destruct (api_apply (ex_opts false) (B "  ") _ ex_u_doc) as [b| |] eqn:Eb; [|vm_compute in Eb; discriminate Eb..].
  split; [exact (Thm (ex_opts true) [] eq_refl a Ea)|]. split; [exact (Thm (ex_opts false) (B "  ") eq_refl b Eb)|].
  vm_compute in Ea, Eb. injection Ea as <-. injection Eb as <-.
  vm_compute. repeat split; try reflexivity; discriminate.
Qed.

(* the hypothesis on the document is needed: the reader accepts any byte >= 0x80 inside a string, and
   Apply writes a stored string back verbatim *)
Definition ex_bad_doc : bytes := B "{""a"":""" ++ [xff] ++ B """}".

Example ex_utf8_input_needed :
  parse ex_bad_doc <> None /\ ~ utf8_text ex_bad_doc /\
  match api_apply (ex_opts true) [] [] ex_bad_doc with
  | ROut out => out = ex_bad_doc /\ ~ utf8_text out
  | _ => False
  end.
Proof.
  split; [vm_compute; discriminate|]. split; [apply utf8b_false; vm_compute; reflexivity|].
  vm_compute. split; [reflexivity|]. apply utf8b_false. vm_compute. reflexivity.
Qed.

(* ... and so is the hypothesis on the patch values: an added value is written back verbatim *)
Example ex_utf8_patch_needed :
  match api_decode (B "[{""op"":""add"",""path"":""/b"",""value"":""" ++ [xc0; xaf] ++ B """}]") with
  | Some p =>
      match api_apply (ex_opts true) [] p (B "{}") with
      | ROut out => ~ utf8_text out
      | _ => False
      end
  | None => False
  end.
Proof. vm_compute. apply utf8b_false. vm_compute. reflexivity. Qed.

(* a member NAME that is not UTF-8 is repaired on the way: names of a parsed object are decoded
   (U+FFFD, EF BF BD, for the ill-formed byte) and written again by the encoder *)
Example ex_utf8_name_repaired :
  match api_decode (B "[{""op"":""add"",""path"":""/b"",""value"":1}]") with
  | Some p =>
      match api_apply (ex_opts true) [] p (B "{""" ++ [xff] ++ B """:1}") with
      | ROut out => utf8b out = true /\ out = B "{""" ++ [xef; xbf; xbd] ++ B """:1,""b"":1}"
      | _ => False
      end
  | None => False
  end.
Proof. vm_compute. split; reflexivity. Qed.

(* the indent is copied verbatim: it has to be UTF-8 *)
Example ex_utf8_indent_needed :
  match api_apply (ex_opts true) [xff] [] (B "{""a"":1}") with
  | ROut out => ~ utf8_text out
  | _ => False
  end.
Proof. vm_compute. apply utf8b_false. vm_compute. reflexivity. Qed.

(* MergePatch: the same two ways for an ill-formed byte to get through: a stored string of the
   document, and a scalar patch returned verbatim *)
Example ex_utf8_merge_needed :
  match api_merge false ex_bad_doc (B "{""b"":1}"), api_merge false (B "{}") (B """" ++ [xff] ++ B """") with
  | MOut o1, MOut o2 => ~ utf8_text o1 /\ ~ utf8_text o2
  | _, _ => False
  end.
Proof. vm_compute. split; apply utf8b_false; vm_compute; reflexivity. Qed.

Example ex_utf8_merge_nonvacuous :
  match api_merge false ex_u_doc (B "{""n"":null,""" ++ [xc3; xa9] ++ B """:{""x"":null,""y"":""" ++ [xe2; x82; xac] ++ B """}}") with
  | MOut out => utf8b out = true /\ ascii out = false
  | _ => False
  end.
Proof. vm_compute. split; reflexivity. Qed.

(* CreateMergePatch needs no hypothesis: ill-formed bytes in strings and names are decoded to U+FFFD
   and written by the encoder *)
Example ex_utf8_create_any_input :
  match api_create (B "{""a"":1}") (B "{""a"":""" ++ [xff; xc3] ++ B """,""" ++ [xe2; x80] ++ B """:2}") with
  | MOut out => utf8b out = true /\ ascii out = false
  | _ => False
  end.
Proof. vm_compute. split; reflexivity. Qed.

(* the encoder on an arbitrary Go string *)
Example ex_utf8_quote_invalid :
  utf8b (quote false [xff; x41; xe2; x80; xc3; xa9; xed; xa0; x80]) = true /\ utf8b (quote true [xc0; x3c; xf4; x90; x80; x80]) = true.
Proof. vm_compute. split; reflexivity. Qed.

(* the legacy package on the same inputs: Apply / ApplyIndent and MergePatch succeed, the results are
   UTF-8 and not ASCII; a stored string with an ill-formed byte gets through as in v5 *)
Example ex_utf8_legacy :
  match api_decode4 ex_u_patch with
  | Some p =>
      match api_apply4 (mkOpts4 false 0 None) [x09] p ex_u_doc, api_apply4 (mkOpts4 false 0 None) [] [] ex_bad_doc,
            api_merge4 false ex_u_doc (B "{""n"":null,""" ++ [xc3; xa9] ++ B """:{""y"":""" ++ [xe2; x82; xac] ++ B """}}") with
      | Out4 a, Out4 b, MOut c =>
          utf8b a = true /\ ascii a = false /\ ~ utf8_text b /\ utf8b c = true /\ ascii c = false
      | _, _, _ => False
      end
  | None => False
  end.
Proof. vm_compute. repeat split; try reflexivity. apply utf8b_false. vm_compute. reflexivity. Qed.

Print Assumptions utf8b_iff.
Print Assumptions utf8_app.
Print Assumptions utf8_print.
Print Assumptions utf8_pp.
Print Assumptions ex_utf8_nonvacuous.
Print Assumptions ex_utf8_input_needed.
