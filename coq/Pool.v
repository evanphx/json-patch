(* Pool.v — the residue of recycled decoder state is never observable.
   A pooled decodeState keeps its lastKeys across calls; json.UnmarshalValidWithKeys returns that
   stale list when the text is not an object, and partialDoc.UnmarshalJSON stores it as the key
   list of a document whose map is nil (the document null).  In the model that list is the
   `stale` payload of KDocNil, taken from o_stale (an arbitrary residue).  This file proves that
   Apply never reads it: api_apply gives the same result whatever the residue was
   (apply_residue_independent).  The other entry points of the model (api_decode, api_equal,
   api_merge, api_create) are given no residue at all: that is how they are modelled, not a theorem.
   It also defines the decidable discipline on the facts gofacts extracts from the source. *)
From Coq Require Import Lia String.
From JP Require Import Bytes Json Text Strings Den Pointer ImplV5 ApplyFacts Totality.
From JP.gen Require Import FactsGen.

Definition set_stale (o : opts) (s : list bytes) : opts :=
  mkOpts (o_neg o) (o_limit o) (o_allow o) (o_ensure o) (o_esc o) s (o_nullsz o).

Lemma copy_too_deep_stale o s v : copy_too_deep (set_stale o s) v = copy_too_deep o v.
Proof. reflexivity. Qed.

Definition erase_con (c : con) : con := match c with KDocNil s _ => KDocNil s [] | _ => c end.
Definition erase_root (r : root) : root := match r with RCon c => RCon (erase_con c) | RNull => RNull end.
Definition erase_st (st : state) : state := mkState (erase_root (s_root st)) (s_acc st).

Definition map_res {A B} (f : A -> B) (r : res A) : res B :=
  match r with Ok a => Ok (f a) | Err e => Err e | Panic => Panic end.

Definition emptied (_ : list bytes) : list bytes := [].

(* ApplyFacts' Section TwoRun at h := emptied and o' := set_stale o []: erase_con, erase_st, map_res, map_found
   are restale emptied, restale_st emptied, rmap, fmap by conversion *)
Section Erase.
  Variable o : opts.
  Let o' := set_stale o [].

  Lemma con_get_erase c k : con_get o' (erase_con c) k = con_get o c k.
  Proof. exact (con_get_rs emptied o o' eq_refl c k). Qed.

  Lemma con_add_erase c k v : con_add o' (erase_con c) k v = map_res erase_con (con_add o c k v).
  Proof. exact (con_add_rs emptied o o' eq_refl c k v). Qed.

  Lemma con_set_erase c k v : con_set o' (erase_con c) k v = map_res erase_con (con_set o c k v).
  Proof. exact (con_set_rs emptied o o' eq_refl c k v). Qed.

  Lemma con_remove_erase c k : con_remove o' (erase_con c) k = map_res erase_con (con_remove o c k).
  Proof. exact (con_remove_rs emptied o o' eq_refl eq_refl c k). Qed.

  Lemma con_put_erase c k ch : con_put o' (erase_con c) k ch = erase_con (con_put o c k ch).
  Proof. exact (con_put_rs emptied o o' eq_refl c k ch). Qed.

  Lemma node_of_con_erase c : node_of_con (erase_con c) = node_of_con c.
  Proof. exact (node_of_con_rs emptied c). Qed.

  Lemma into_con_not_nil n ch : into_con n = Some ch -> erase_con ch = ch.
  Proof. exact (into_con_rs emptied n ch). Qed.

  Lemma erase_idem c : erase_con (erase_con c) = erase_con c.
  Proof. destruct c; reflexivity. Qed.

  Definition map_found {A B} (g : A -> B) (x : found A) : found B :=
    match x with FoundRoot => FoundRoot | FoundNil => FoundNil | FoundAt a => FoundAt (g a) end.

  Lemma walk_erase {A B} (g : A -> B) parts : forall c (f : con -> A * con) (f' : con -> B * con),
    (forall cp, f' (erase_con cp) = (g (fst (f cp)), erase_con (snd (f cp)))) ->
    walk o' parts (erase_con c) f' = (option_map g (fst (walk o parts c f)), erase_con (snd (walk o parts c f))).
  Proof. exact (walk_rs emptied o o' eq_refl g parts). Qed.

  Lemma find_erase {A B} (g : A -> B) c path (f : con -> bytes -> A * con) (f' : con -> bytes -> B * con) :
    (forall cp k, f' (erase_con cp) k = (g (fst (f cp k)), erase_con (snd (f cp k)))) ->
    find o' (erase_con c) path f' = (map_found g (fst (find o c path f)), erase_con (snd (find o c path f))).
  Proof. exact (find_rs emptied o o' eq_refl g c path f f'). Qed.
  Lemma ignore_err_erase c r :
    ignore_err (erase_con c) (map_res erase_con r) = erase_con (ignore_err c r).
  Proof. destruct r; reflexivity. Qed.

  Lemma pad_nulls_erase : forall count c from,
    pad_nulls o' (erase_con c) from count = erase_con (pad_nulls o c from count).
  Proof. exact (pad_nulls_rs emptied o o' eq_refl). Qed.

  Lemma ensure_erase parts : forall c,
    ensure o' parts (erase_con c) = (fst (ensure o parts c), erase_con (snd (ensure o parts c))).
  Proof. exact (ensure_rs emptied o o' eq_refl parts). Qed.

  Lemma ensure_path_erase c path :
    ensure_path o' (erase_con c) path = (fst (ensure_path o c path), erase_con (snd (ensure_path o c path))).
  Proof. exact (ensure_path_rs emptied o o' eq_refl c path). Qed.

  Lemma op_add_erase st op : op_add o' (erase_st st) op = map_res erase_st (op_add o st op).
  Proof. exact (op_add_rs emptied o o' eq_refl st op eq_refl eq_refl). Qed.

  Lemma op_remove_erase st op : op_remove o' (erase_st st) op = map_res erase_st (op_remove o st op).
  Proof. exact (op_remove_rs emptied o o' eq_refl eq_refl st op). Qed.

  Lemma op_replace_erase st op : op_replace o' (erase_st st) op = map_res erase_st (op_replace o st op).
  Proof. exact (op_replace_rs emptied o o' eq_refl st op). Qed.

  Lemma op_move_erase st op : op_move o' (erase_st st) op = map_res erase_st (op_move o st op).
  Proof. exact (op_move_rs emptied o o' eq_refl eq_refl st op). Qed.

  Lemma op_test_erase st op : op_test o' (erase_st st) op = map_res erase_st (op_test o st op).
  Proof. exact (op_test_rs emptied o o' eq_refl st op). Qed.

  Lemma op_copy_erase st op : op_copy o' (erase_st st) op = map_res erase_st (op_copy o st op).
  Proof. exact (op_copy_rs emptied o o' eq_refl st op eq_refl eq_refl eq_refl). Qed.

  Theorem step_erase st op : step o' (erase_st st) op = map_res erase_st (step o st op).
  Proof. apply (step_rs emptied). split; [reflexivity|]. destruct (op_kind op); repeat split. Qed.
End Erase.

Definition map_applied (f : state -> state) (a : applied) : applied :=
  match a with AOk st => AOk (f st) | AErr i e => AErr i e | APanic i => APanic i end.

Lemma apply_from_erase o : forall p i st,
  apply_from (set_stale o []) i (erase_st st) p = map_applied erase_st (apply_from o i st p).
Proof.
  induction p as [|op p IH]; intros i st; cbn [apply_from]; [reflexivity|].
  rewrite step_erase. destruct (step o st op); cbn [map_res]; [apply IH | reflexivity | reflexivity].
Qed.

Lemma marshal_root_erase o r : marshal_root (set_stale o []) (erase_root r) = marshal_root o r.
Proof. destruct r as [[| |]|]; reflexivity. Qed.

Lemma load_doc_erase o t : load_doc (set_stale o []) t = map_res erase_root (load_doc o t).
Proof. destruct t; try reflexivity; try (cbn [load_doc]; destruct (doc_of ms); reflexivity). Qed.

Theorem apply_tree_erase o indent p doc : apply_tree (set_stale o []) indent p doc = apply_tree o indent p doc.
Proof.
  unfold apply_tree. rewrite load_doc_erase. destruct (load_doc o doc) as [r| |]; cbn [map_res]; try reflexivity.
  change (mkState (erase_root r) 0) with (erase_st (mkState r 0)). rewrite apply_from_erase.
  destruct (apply_from o 0 (mkState r 0) p) as [st| |]; cbn [map_applied]; try reflexivity.
  unfold erase_st. cbn [s_root]. rewrite marshal_root_erase. reflexivity.
Qed.

Theorem apply_residue_independent o s1 s2 indent p doc :
  api_apply (set_stale o s1) indent p doc = api_apply (set_stale o s2) indent p doc.
Proof.
  unfold api_apply. destruct doc; [reflexivity|]. destruct (parse (b :: doc)); [|reflexivity].
  rewrite <- (apply_tree_erase (set_stale o s1)), <- (apply_tree_erase (set_stale o s2)). reflexivity.
Qed.

Local Open Scope list_scope.
(* ---- calls, histories, schedules ---- *)
(* Apply (of a patch it decodes), Equal and DecodePatch as calls; the scratch state a call finds in
   the pool is the residue *)
Inductive call :=
| CApply (o : opts) (indent patch doc : bytes)
| CEqual (a b : bytes)
| CDecode (a : bytes).

Inductive outcome :=
| OApply (r : option apply_result)   (* None: DecodePatch rejected the patch *)
| OBool (b : bool)
| ODecoded (ok : bool) (n : nat).

Definition run_call (residue : list bytes) (c : call) : outcome :=
  match c with
  | CApply o indent patch doc =>
      OApply (match api_decode patch with
              | Some p => Some (api_apply (set_stale o residue) indent p doc)
              | None => None
              end)
  | CEqual a b => OBool (api_equal a b)
  | CDecode a => match api_decode a with Some p => ODecoded true (length p) | None => ODecoded false 0 end
  end.

Definition solo (c : call) : outcome := run_call [] c.

Theorem call_residue_independent r c : run_call r c = solo c.
Proof.
  destruct c; try reflexivity. unfold solo, run_call. destruct (api_decode patch); [|reflexivity].
  f_equal. f_equal. apply apply_residue_independent.
Qed.

(* what a call leaves in the scratch object it used: anything at all (here: some function of the
   residue it found and of its arguments) *)
Section Histories.
  Variable leaves : list bytes -> call -> list bytes.

  (* a history: calls run one after another on one recycled scratch object *)
  Fixpoint run_history (residue : list bytes) (h : list call) : list outcome :=
    match h with
    | [] => []
    | c :: r => run_call residue c :: run_history (leaves residue c) r
    end.

  Theorem history_independent : forall h residue, run_history residue h = map solo h.
  Proof.
    induction h as [|c h IH]; intro residue; cbn [run_history map]; [reflexivity|].
    rewrite call_residue_independent, IH. reflexivity.
  Qed.

  (* schedules: N threads, each with its own program; a step lets any thread with work left take
     ANY scratch object from the pool (or a fresh one), run its next call on it and put it back.
     The pool is a multiset of residues; a thread's results accumulate in order. *)
  Record thread := mkThread { todo : list call; done : list outcome }.
  Record sched := mkSched { pool : list (list bytes); threads : list thread }.

  Inductive sstep : sched -> sched -> Prop :=
  | SStep pl ths i th c rest residue (fresh : bool) j :
      nth_error ths i = Some th -> todo th = c :: rest ->
      (if fresh then residue = [] else nth_error pl j = Some residue) ->
      sstep (mkSched pl ths)
            (mkSched ((if fresh then pl else firstn j pl ++ skipn (S j) pl) ++ [leaves residue c])
                     (firstn i ths ++ mkThread rest (done th ++ [run_call residue c]) :: skipn (S i) ths)).

  Inductive reachable (s0 : sched) : sched -> Prop :=
  | RRefl : reachable s0 s0
  | RStep s s' : reachable s0 s -> sstep s s' -> reachable s0 s'.

  (* invariant: every thread has produced exactly the solo results of the calls it has run *)
  Definition thread_ok (prog : list call) (th : thread) : Prop :=
    exists ran, prog = ran ++ todo th /\ done th = map solo ran.

  Theorem schedule_independent progs s :
    reachable (mkSched [] (map (fun p => mkThread p []) progs)) s ->
    Forall2 thread_ok progs (threads s).
  Proof.
    induction 1 as [|s s' R IH St].
    - cbn [threads]. induction progs as [|p ps IHp]; constructor; auto. exists []. split; reflexivity.
    - inversion St as [pl ths i th c rest residue fresh j Hi Ht Hr]; subst. cbn [threads] in *.
      clear St R. revert i Hi. induction IH as [|p th0 ps ths0 H0 Hrest IHf]; intros i Hi.
      + destruct i; discriminate.
      + destruct i as [|i]; cbn [nth_error firstn skipn app] in *.
        * inversion Hi; subst th0. constructor; [|exact Hrest].
          destruct H0 as [ran [E1 E2]]. exists (ran ++ [c]). cbn [todo done]. split.
          -- rewrite E1, Ht, <- app_assoc. reflexivity.
          -- rewrite map_app, E2, call_residue_independent. reflexivity.
        * constructor; [exact H0|]. apply IHf. exact Hi.
  Qed.

  Lemma finished_results progs ths :
    Forall2 thread_ok progs ths -> Forall (fun th => todo th = []) ths -> map done ths = map (map solo) progs.
  Proof.
    induction 1 as [|p th ps ths' H0 Hrest IH]; intro F; [reflexivity|].
    inversion F as [|? ? Ht Fr]; subst. cbn [map]. f_equal; [|apply IH; exact Fr].
    destruct H0 as [ran [E1 E2]]. rewrite Ht, app_nil_r in E1. subst. exact E2.
  Qed.

  Corollary schedule_results progs s :
    reachable (mkSched [] (map (fun p => mkThread p []) progs)) s ->
    Forall (fun th => todo th = []) (threads s) ->
    map done (threads s) = map (map solo) progs.
  Proof. intros R F. apply finished_results; auto. apply schedule_independent; exact R. Qed.
End Histories.

(* ---- the discipline on the facts extracted from the Go source ---- *)
Open Scope string_scope.
Definition known_pools : list string := ["ds"; "encodeStatePool"; "scannerPool"].
Definition known_caches : list string := ["encoderCache"; "fieldCache"].   (* per-type encoder caches *)
Definition str_in (s : string) (l : list string) : bool := existsb (String.eqb s) l.

Definition gvar_ok (g : gvar) : bool :=
  negb (gv_written g) &&
  match gv_kind g with
  | VPool => str_in (gv_name g) known_pools
  | VSyncMap => str_in (gv_name g) known_caches
  | VMap => false
  | VOther => true
  end.

Definition poolfact_ok (p : poolfact) : bool :=
  negb (pf_use_after_put p) && negb (pf_escapes p) && negb (pf_no_put p).

(* the fields of the recycled structs.  Only decodeState.lastKeys is modelled as residue (the
   erasure argument above); that the others are set again before they are read is not proved
   here.  The list is fixed so that a new field in a pooled object — new residue the argument
   knows nothing about — fails the check *)
Definition expected_poolfields : list (string * string) :=
  [("decodeState", "data"); ("decodeState", "disallowUnknownFields"); ("decodeState", "errorContext");
   ("decodeState", "lastKeys"); ("decodeState", "off"); ("decodeState", "opcode"); ("decodeState", "savedError");
   ("decodeState", "scan"); ("decodeState", "useNumber");
   ("encodeState", "bytes.Buffer"); ("encodeState", "ptrLevel"); ("encodeState", "ptrSeen"); ("encodeState", "scratch");
   ("scanner", "bytes"); ("scanner", "endTop"); ("scanner", "err"); ("scanner", "parseState"); ("scanner", "step")].

Fixpoint fields_eqb (a b : list (string * string)) : bool :=
  match a, b with
  | [], [] => true
  | (x1, y1) :: a', (x2, y2) :: b' => String.eqb x1 x2 && String.eqb y1 y2 && fields_eqb a' b'
  | _, _ => false
  end.

(* the synchronisation skeleton: which functions mention which synchronisation vocabulary, how often.
   The only places are the two lazily filled caches of the codec (the per-type encoder cache with its
   wait group, the per-type field cache); a change here changes what concurrent first uses may observe
   (C10) and has to be looked at before the discipline is accepted again *)
Definition expected_syncfacts : list (string * string * nat) :=
  [("json:cachedTypeFields", ".Load", 1); ("json:cachedTypeFields", ".LoadOrStore", 1);
   ("json:typeEncoder", ".Add", 1); ("json:typeEncoder", ".Done", 1); ("json:typeEncoder", ".Load", 1);
   ("json:typeEncoder", ".LoadOrStore", 1); ("json:typeEncoder", ".Store", 1); ("json:typeEncoder", ".Wait", 1);
   ("json:typeEncoder", "sync.WaitGroup", 1)]%nat.

Fixpoint sync_eqb (a b : list (string * string * nat)) : bool :=
  match a, b with
  | [], [] => true
  | (x1, y1, n1) :: a', (x2, y2, n2) :: b' => String.eqb x1 x2 && String.eqb y1 y2 && Nat.eqb n1 n2 && sync_eqb a' b'
  | _, _ => false
  end.

Definition discipline_ok : bool :=
  forallb gvar_ok gvars && forallb poolfact_ok poolfacts &&
  match pwrites with [] => true | _ => false end && match gostmts with [] => true | _ => false end &&
  fields_eqb poolfields expected_poolfields && sync_eqb syncfacts expected_syncfacts.
