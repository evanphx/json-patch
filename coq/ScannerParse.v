(* ScannerParse.v — the automaton with an accumulator (grun).  A loop over the translated scanner, whatever it
   accumulates, is such a run (gfin_grun, from the invariant of one step, ref_step_canon).  Against the reader, once
   (struct_run, run_parse): over a text the reader reads as t the accumulator is folded over the tokens of t (toks t),
   white space dropped, and where the reader fails the run fails.  Without an accumulator this says that checkValid
   (as translated from scanner.go) accepts exactly the texts Text.parse reads (valid_gen_iff_parse); Compact and
   Indent are the other two users (ScanFacts). *)
From Coq Require Import Lia.
From JP Require Import Bytes Json Text ReadInv Scan ScannerRef ScannerTie ScannerCorrect ScannerGrammar PrintParse.
From JP.gen Require Import ScannerGen.

Lemma endvalue_nil p l : afinal St_stateEndValue (p :: l) [] = false.
Proof. destruct p; reflexivity. Qed.

Lemma begin_nil x stk : skips_ws x = true -> afinal x stk [] = false.
Proof. destruct x; try discriminate; reflexivity. Qed.

Lemma end_len (rest s : bytes) : (exists pre, s = pre ++ rest) -> (length rest <= length s)%nat.
Proof. intros [pre ->]. rewrite app_length. lia. Qed.

Lemma skip_ws_cons_len s c r : skip_ws s = c :: r -> (length r < length s)%nat.
Proof. intro W. destruct (skip_ws_end s) as [w E]. rewrite W in E. rewrite E, app_length. simpl. lia. Qed.

Lemma next_is_len k s r : next_is k s = Some r -> (length r < length s)%nat.
Proof. intro H. apply next_is_Some in H. exact (skip_ws_cons_len _ _ _ H). Qed.

Lemma quote_o x stk : x = St_stateBeginValue \/ x = St_stateBeginString ->
  rstep x stk x22 = Some (St_stateInString, stk, scanBeginLiteral).
Proof. intros [->| ->]; reflexivity. Qed.

Lemma popped_accept l : aaccept (popped l) l = aaccept St_stateEndValue l.
Proof. destruct l as [|q l]; reflexivity. Qed.

(* a state that stays where it is on white space *)
Definition wsloop (x : st) (stk : list ps) : Prop :=
  forall c, is_ws c = true -> rstep x stk c = Some (x, stk, scanSkipSpace).

Lemma wsloop_begin x stk : skips_ws x = true -> wsloop x stk.
Proof. intros X c W. destruct x; try discriminate; destruct (is_ws_inv c W) as [->|[->|[->| ->]]]; reflexivity. Qed.

Lemma wsloop_endvalue p l : wsloop St_stateEndValue (p :: l).
Proof. intros c W. destruct p; destruct (is_ws_inv c W) as [->|[->|[->| ->]]]; reflexivity. Qed.

(* a token: the op code and the byte that begin it, and the bytes that continue it (op scanContinue);
   a string by its body *)
Inductive token := Tk (v : Z) (c : byte) (p : bytes) | TkS (b : bytes).

Definition Pn (v : Z) (c : byte) : token := Tk v c [].

(* x0 x1 ... xn as x0 sep x1 sep ... xn close *)
Fixpoint seq_tail (sep close : token) (l : list (list token)) : list token :=
  match l with [] => [close] | y :: r => sep :: y ++ seq_tail sep close r end.

Definition seq_toks (sep close : token) (l : list (list token)) : list token :=
  match l with [] => [close] | x :: r => x ++ seq_tail sep close r end.

Fixpoint toks (t : tjson) : list token :=
  match t with
  | TNull => [Tk scanBeginLiteral x6e (B "ull")]
  | TTrue => [Tk scanBeginLiteral x74 (B "rue")]
  | TFalse => [Tk scanBeginLiteral x66 (B "alse")]
  | TNum lit => match lit with c :: p => [Tk scanBeginLiteral c p] | [] => [] end
  | TStr b => [TkS b]
  | TArr l => Pn scanBeginArray x5b :: seq_toks (Pn scanArrayValue x2c) (Pn scanEndArray x5d) (map toks l)
  | TObj ms =>
      Pn scanBeginObject x7b ::
      seq_toks (Pn scanObjectValue x2c) (Pn scanEndObject x7d)
        (map (fun kv => TkS (fst kv) :: Pn scanObjectKey x3a :: toks (snd kv)) ms)
  end.

Definition mtoks (kv : bytes * tjson) : list token := TkS (fst kv) :: Pn scanObjectKey x3a :: toks (snd kv).
Definition etoks (l : list tjson) : list token := seq_toks (Pn scanArrayValue x2c) (Pn scanEndArray x5d) (map toks l).
Definition otoks (ms : list (bytes * tjson)) : list token :=
  seq_toks (Pn scanObjectValue x2c) (Pn scanEndObject x7d) (map mtoks ms).

Definition tk_ok (tk : token) : Prop := match tk with Tk _ c p => forallb plainb (c :: p) = true | TkS _ => True end.

Section Run.
  Variable A : Type.
  Variable f : A -> Z -> byte -> bytes -> A.
  Fixpoint grun (x : st) (stk : list ps) (bs : bytes) (a : A) : option A :=
    match bs with
    | [] => if aaccept x stk then Some a else None
    | c :: r =>
        match rstep x stk c with
        | Some (x', stk', v) => grun x' stk' r (f a v c r)
        | None => None
        end
    end.
  Local Notation run := grun.

  (* whatever the accumulator does, the run ends as the automaton's verdict says *)
  Lemma afinal_run : forall s x stk a, afinal x stk s = match run x stk s a with Some _ => true | None => false end.
  Proof.
    induction s as [|c r IH]; intros x stk a.
    - rewrite afinal_nil. cbn [grun]. destruct (aaccept x stk); reflexivity.
    - rewrite afinal_cons. cbn [grun]. destruct (rstep x stk c) as [[[x' stk'] v]|]; [apply IH | reflexivity].
  Qed.

  Lemma run_cons x stk c r a :
    run x stk (c :: r) a = match rstep x stk c with Some (x', stk', v) => run x' stk' r (f a v c r) | None => None end.
  Proof. reflexivity. Qed.

  Lemma run_nil_false x stk a : afinal x stk [] = false -> run x stk [] a = None.
  Proof. rewrite afinal_nil. cbn [grun]. now intros ->. Qed.

  Lemma run_popped l s a : run (popped l) l s a = run St_stateEndValue l s a.
  Proof. destruct s as [|c r]; [cbn [grun]; now rewrite popped_accept | rewrite !run_cons, popped_o; reflexivity]. Qed.

  Fixpoint cfold (a : A) (p rest : bytes) : A :=
    match p with [] => a | c :: p' => cfold (f a scanContinue c (p' ++ rest)) p' rest end.

  Lemma run_tok x stk c r a : intok x = true ->
    run x stk (c :: r) a =
    match tstep x c with
    | Some x' => run x' stk r (f a scanContinue c r)
    | None => if isnum x then run St_stateEndValue stk (c :: r) a else None
    end.
  Proof.
    intro T. rewrite run_cons, (rstep_tok x stk c T). destruct (tstep x c); [reflexivity|].
    destruct (isnum x); [now rewrite run_cons | reflexivity].
  Qed.

  Lemma run_tok_nil x stk a : intok x = true -> run x stk [] a = if isnum x then run St_stateEndValue stk [] a else None.
  Proof.
    intro T. pose proof (afinal_tok_nil x stk T) as H. rewrite !afinal_nil in H. cbn [grun]. rewrite H.
    destruct (isnum x); reflexivity.
  Qed.

  (* the automaton inside a token is the run of the table *)
  Lemma run_tacc : forall s x stk a, intok x = true \/ x = St_stateEndValue ->
    run x stk s a = match tacc x s with Some (p, rest) => run St_stateEndValue stk rest (cfold a p rest) | None => None end.
  Proof.
    induction s as [|c r IH]; intros x stk a [T| ->]; try reflexivity.
    - now rewrite run_tok_nil, tacc_nil, (tend_intok x T) by exact T; destruct (isnum x).
    - rewrite run_tok, tacc_cons, (tend_intok x T) by exact T. destruct (tstep x c) as [x'|] eqn:E; [|destruct (isnum x); reflexivity].
      rewrite (IH x' stk _ (tstep_next x c x' E)). destruct (tacc x' r) as [[p rest]|] eqn:Ta; [|reflexivity].
      cbn [papp app cfold]. now rewrite <- (tacc_split _ _ _ _ Ta).
  Qed.

  (* the fold over one token, with what follows it in the text *)
  Definition tkfold (a : A) (tk : token) (rest : bytes) : A :=
    match tk with
    | Tk v c p => cfold (f a v c (p ++ rest)) p rest
    | TkS b => cfold (f a scanBeginLiteral x22 ((b ++ [x22]) ++ rest)) (b ++ [x22]) rest
    end.

  (* a byte that begins a token at BeginValue / BeginString *)
  Lemma run_token x stk c r a x0 : rstep x stk c = Some (x0, stk, scanBeginLiteral) -> intok x0 = true ->
    run x stk (c :: r) a =
    match tacc x0 r with Some (p, rest) => run St_stateEndValue stk rest (tkfold a (Tk scanBeginLiteral c p) rest) | None => None end.
  Proof.
    intros O T. rewrite run_cons, O, (run_tacc r x0 stk _ (or_introl T)). destruct (tacc x0 r) as [[p rest]|] eqn:Ta; [|reflexivity].
    cbn [tkfold]. now rewrite <- (tacc_split _ _ _ _ Ta).
  Qed.

  (* after the whole value: white space to the end of the text *)
  Fixpoint efold (a : A) (s : bytes) : A := match s with [] => a | c :: r => efold (f a scanEnd c r) r end.

  Lemma run_endtop : forall s a, run St_stateEndTop [] s a = match skip_ws s with [] => Some (efold a s) | _ => None end.
  Proof.
    induction s as [|c r IH]; intro a; [reflexivity|]. rewrite run_cons, top_o by auto. cbn [skip_ws efold].
    destruct (is_ws c); [apply IH | reflexivity].
  Qed.

  Lemma run_top s a : run St_stateEndValue [] s a = match skip_ws s with [] => Some (efold a s) | _ => None end.
  Proof.
    destruct s as [|c r]; [reflexivity|]. rewrite run_cons, top_o by auto. cbn [skip_ws efold].
    destruct (is_ws c); [apply run_endtop | reflexivity].
  Qed.

  (* ---- between tokens ----
     ok: what holds of the accumulator between two tokens (Compact: no byte of an escaped sequence is still to be
     skipped).  There white space adds nothing, and what a token adds does not depend on the text after it. *)
  Variable ok : A -> Prop.
  Definition F (a : A) (tk : token) : A := tkfold a tk [].
  Hypothesis ws_inert : forall a c r, ok a -> is_ws c = true -> f a scanSkipSpace c r = a.
  Hypothesis tok_look : forall a tk r, ok a -> tk_ok tk -> tkfold a tk r = F a tk.
  Hypothesis ok_F : forall a tk, ok a -> ok (F a tk).

  Definition tfold (tks : list token) (a : A) : A := fold_left F tks a.

  Lemma tfold_cons tk tks a : tfold (tk :: tks) a = tfold tks (F a tk).
  Proof. reflexivity. Qed.

  Lemma tfold_app u w a : tfold (u ++ w) a = tfold w (tfold u a).
  Proof. apply fold_left_app. Qed.

  Lemma ok_tfold tks : forall a, ok a -> ok (tfold tks a).
  Proof. induction tks as [|tk tks IH]; intros a Oa; [exact Oa | apply IH, ok_F, Oa]. Qed.

  Lemma F_pn a v c r : ok a -> plainb c = true -> f a v c r = F a (Pn v c).
  Proof. intros Oa K. apply (tok_look a (Pn v c) r Oa). cbn. now rewrite K. Qed.

  Lemma run_ws x stk a : ok a -> wsloop x stk -> forall s, run x stk s a = run x stk (skip_ws s) a.
  Proof.
    intros Oa L. induction s as [|c r IH]; [reflexivity|]. cbn [skip_ws]. destruct (is_ws c) eqn:W; [|reflexivity].
    now rewrite run_cons, (L c W), (ws_inert a c r Oa W).
  Qed.

  Lemma run_next x stk s a : ok a -> wsloop x stk -> afinal x stk [] = false ->
    run x stk s a =
    match skip_ws s with
    | [] => None
    | c :: r => match rstep x stk c with Some (x', stk', v) => run x' stk' r (f a v c r) | None => None end
    end.
  Proof.
    intros Oa L N. rewrite (run_ws x stk a Oa L). destruct (skip_ws s) as [|c r]; [apply run_nil_false, N | apply run_cons].
  Qed.

  Lemma after_value_run p l s a : ok a -> run St_stateEndValue (p :: l) s a =
    let '(k', x', p', v') := vnext p in
    let nx := match next_is k' s with Some r => run x' (p' :: l) r (F a (Pn v' k')) | None => None end in
    match vclose p with
    | Some (k, v) => match next_is k s with Some r => run St_stateEndValue l r (F a (Pn v k)) | None => nx end
    | None => nx
    end.
  Proof.
    intro Oa. rewrite (run_next _ _ s a Oa (wsloop_endvalue p l) (endvalue_nil p l)). unfold next_is.
    destruct (skip_ws s) as [|c r] eqn:W; [destruct p; reflexivity|].
    rewrite (sep_o p l c (skip_ws_hd _ _ _ W)). pose proof (sep_plain p) as [Pn' Pc].
    destruct (vnext p) as [[[k' x'] p'] v']. cbn [fst] in Pn'. cbv zeta.
    assert (N : match (if Byte.eqb c k' then Some (x', p' :: l, v') else None) with
                | Some (x1, stk1, v1) => run x1 stk1 r (f a v1 c r) | None => None end =
                match (if Byte.eqb c k' then Some r else None) with
                | Some r0 => run x' (p' :: l) r0 (F a (Pn v' k')) | None => None end).
    { destruct (Byte.eqb c k') eqn:E; [|reflexivity]. apply Byte.byte_dec_bl in E. subst c. now rewrite (F_pn a v' k' r Oa Pn'). }
    destruct (vclose p) as [[k v]|]; [|exact N]. destruct (Byte.eqb c k) eqn:E; [|exact N].
    apply Byte.byte_dec_bl in E. subst c. now rewrite run_popped, (F_pn a v k r Oa Pc).
  Qed.

  (* a string where a value or a name begins *)
  Lemma string_run x stk r a : ok a -> x = St_stateBeginValue \/ x = St_stateBeginString ->
    run x stk (x22 :: r) a =
    match scan_string r with Some (b, rest) => run St_stateEndValue stk rest (F a (TkS b)) | None => None end.
  Proof.
    intros Oa X. rewrite (run_token x stk x22 r a _ (quote_o x stk X) eq_refl), string_lex.
    destruct (scan_string r) as [[b rest]|]; [|reflexivity]. f_equal. exact (tok_look a (TkS b) rest Oa I).
  Qed.

  Lemma before_key_run stk s a : ok a -> run St_stateBeginString stk s a =
    match next_is x22 s with
    | Some r => match scan_string r with Some (b, rest) => run St_stateEndValue stk rest (F a (TkS b)) | None => None end
    | None => None
    end.
  Proof.
    intro Oa. rewrite (run_next _ _ s a Oa (wsloop_begin St_stateBeginString stk eq_refl) eq_refl). unfold next_is.
    destruct (skip_ws s) as [|c r] eqn:W; [reflexivity|]. destruct (Byte.eqb c x22) eqn:E.
    - apply Byte.byte_dec_bl in E. subst c. rewrite <- run_cons. apply string_run; auto.
    - now rewrite (bs_step stk c (skip_ws_hd _ _ _ W)), E.
  Qed.

  (* after an opening bracket: the closing one, or what BeginValue / BeginString reads *)
  Lemma after_open_run x x' k p v l s a : ok a ->
    (x, x', k, p, v) = (St_stateBeginValueOrEmpty, St_stateBeginValue, x5d, parseArrayValue, scanEndArray) \/
    (x, x', k, p, v) = (St_stateBeginStringOrEmpty, St_stateBeginString, x7d, parseObjectKey, scanEndObject) ->
    run x (p :: l) s a =
    match next_is k s with Some r => run St_stateEndValue l r (F a (Pn v k)) | None => run x' (p :: l) s a end.
  Proof.
    intros Oa E.
    assert (K : skips_ws x = true /\ skips_ws x' = true /\ plainb k = true /\ rstep x (p :: l) k = Some (popped l, l, v) /\
                forall c, is_ws c = false -> Byte.eqb c k = false -> rstep x (p :: l) c = rstep x' (p :: l) c).
    { destruct E as [E|E]; injection E as -> -> -> -> ->; repeat split;
        first [apply empty_arr_o | apply empty_obj_o | apply bvoe_other_o | apply bsoe_other_o]. }
    destruct K as (X & X' & Pk & O & Oth).
    rewrite (run_ws x _ a Oa (wsloop_begin x _ X)), (run_ws x' _ a Oa (wsloop_begin x' _ X')). unfold next_is.
    destruct (skip_ws s) as [|c r] eqn:W.
    - now rewrite !run_nil_false by (apply begin_nil; assumption).
    - destruct (Byte.eqb c k) eqn:Ek.
      + apply Byte.byte_dec_bl in Ek. subst c. now rewrite run_cons, O, run_popped, (F_pn a v k r Oa Pk).
      + now rewrite !run_cons, (Oth c (skip_ws_hd _ _ _ W) Ek).
  Qed.

  Definition after {T} (tk : T -> list token) (r : option (T * bytes)) (stk : list ps) (a : A) : option A :=
    match r with Some (t, rest) => run St_stateEndValue stk rest (tfold (tk t) a) | None => None end.

  Lemma lit_run stk c x pat r a : ok a -> rstep St_stateBeginValue stk c = Some (x, stk, scanBeginLiteral) -> intok x = true ->
    forallb plainb (c :: pat) = true -> (forall s, tacc x s = lit_res pat s) ->
    run St_stateBeginValue stk (c :: r) a =
    match strip_prefix pat r with Some rest => run St_stateEndValue stk rest (F a (Tk scanBeginLiteral c pat)) | None => None end.
  Proof.
    intros Oa O T Pl Lx. rewrite (run_token _ stk c r a x O T), Lx. unfold lit_res. destruct (strip_prefix pat r) as [rest|]; [|reflexivity].
    f_equal. exact (tok_look a (Tk scanBeginLiteral c pat) rest Oa Pl).
  Qed.

  Lemma number_run stk c r a : ok a -> special c = false ->
    run St_stateBeginValue stk (c :: r) a = after toks (match scan_number (c :: r) with Some (lit, rest) => Some (TNum lit, rest) | None => None end) stk a.
  Proof.
    intros Oa Sp. rewrite <- number_lex.
    assert (O : rstep St_stateBeginValue stk c = match num_start c with Some x => Some (x, stk, scanBeginLiteral) | None => None end).
    { unfold num_start. destruct (Byte.eqb c x2d) eqn:M; [apply Byte.byte_dec_bl in M; subst c; reflexivity | now apply BV_num_o]. }
    destruct (num_start c) as [x|] eqn:Ns; [|now rewrite run_cons, O].
    destruct (num_start_facts c x Ns) as (Nx & Tx & Pc).
    rewrite (run_token _ stk c r a x O Tx). destruct (tacc x r) as [[p rest]|] eqn:Ta; [|reflexivity].
    cbn [papp app after toks tfold fold_left]. f_equal. apply (tok_look a (Tk scanBeginLiteral c p) rest Oa). cbn [tk_ok forallb].
    now rewrite Pc, (tacc_plain r x p rest Nx Ta).
  Qed.

  Theorem struct_run : forall fu,
    (forall d s stk a, ok a -> dep stk d -> fv fu s ->
       run St_stateBeginValue stk s a = after toks (parse_value fu d s) stk a) /\
    (forall d s l a, ok a -> dep (parseArrayValue :: l) d -> fl fu s ->
       run St_stateBeginValue (parseArrayValue :: l) s a = after etoks (parse_elems fu d s) l a) /\
    (forall d s l a, ok a -> dep (parseObjectKey :: l) d -> fl fu s ->
       run St_stateBeginString (parseObjectKey :: l) s a = after otoks (parse_members fu d s) l a).
  Proof.
    induction fu as [|fu [IV [IE IM]]].
    { unfold fv, fl. repeat split; intros; lia. }
    repeat split.
    - (* values *)
      intros d s stk a Oa D Fu. unfold fv in Fu. rewrite (run_ws _ stk a Oa (wsloop_begin St_stateBeginValue stk eq_refl)), pv_ws.
      destruct (skip_ws s) as [|c r] eqn:W; [now rewrite parse_value_S|].
      pose proof (skip_ws_cons_len _ _ _ W) as L.
      destruct (lead_cases c (skip_ws_hd _ _ _ W)) as [->|[->|[->|[->|[->|[->|Sp]]]]]].
      + (* object *)
        rewrite run_cons, (push_o stk d _ _ _ _ (or_intror eq_refl) D), pv_obj. destruct (d =? 0)%N eqn:Z; [reflexivity|].
        rewrite (F_pn a scanBeginObject x7b r Oa eq_refl). pose proof (ok_F a (Pn scanBeginObject x7b) Oa) as Ob.
        rewrite (after_open_run _ _ _ _ _ stk r _ Ob (or_intror eq_refl)), (IM (d - 1)%N r stk _ Ob (dep_push _ stk d D Z)) by (unfold fl; lia).
        destruct (next_is x7d r); [reflexivity|]. destruct (parse_members fu (d - 1) r) as [[ms rest]|]; reflexivity.
      + (* array *)
        rewrite run_cons, (push_o stk d _ _ _ _ (or_introl eq_refl) D), pv_arr. destruct (d =? 0)%N eqn:Z; [reflexivity|].
        rewrite (F_pn a scanBeginArray x5b r Oa eq_refl). pose proof (ok_F a (Pn scanBeginArray x5b) Oa) as Ob.
        rewrite (after_open_run _ _ _ _ _ stk r _ Ob (or_introl eq_refl)), (IE (d - 1)%N r stk _ Ob (dep_push _ stk d D Z)) by (unfold fl; lia).
        destruct (next_is x5d r); [reflexivity|]. destruct (parse_elems fu (d - 1) r) as [[l rest]|]; reflexivity.
      + (* string *)
        rewrite pv_str, (string_run _ stk r a Oa (or_introl eq_refl)). destruct (scan_string r) as [[b rest]|]; reflexivity.
      + rewrite pv_true, (lit_run stk x74 St_stateT (B "rue") r a Oa eq_refl eq_refl eq_refl true_lex). destruct (strip_prefix _ r); reflexivity.
      + rewrite pv_false, (lit_run stk x66 St_stateF (B "alse") r a Oa eq_refl eq_refl eq_refl false_lex). destruct (strip_prefix _ r); reflexivity.
      + rewrite pv_null, (lit_run stk x6e St_stateN (B "ull") r a Oa eq_refl eq_refl eq_refl null_lex). destruct (strip_prefix _ r); reflexivity.
      + rewrite pv_num by exact Sp. apply number_run; assumption.
    - (* elements *)
      intros d s l a Oa D Fu. unfold fl in Fu. rewrite pe_S, (IV d s _ a Oa D) by (unfold fv; lia).
      destruct (parse_value fu d s) as [[v rest]|] eqn:Pv; [|reflexivity]. cbn [after].
      (* fuel: what the value leaves is an end of s (PrintParse.reads_suffix) and the comma makes r' strictly
         shorter, so fl fu r' follows from fl (S fu) s: two units a byte pay for a value and the list after it *)
      pose proof (ok_tfold (toks v) a Oa) as Ov. apply parse_value_reads, (proj1 reads_suffix), end_len in Pv. rewrite (after_value_run parseArrayValue l rest _ Ov). cbn [vnext vclose].
      destruct (next_is x5d rest); [cbn [after etoks map seq_toks seq_tail]; now rewrite tfold_app|].
      destruct (next_is x2c rest) as [r'|] eqn:N; [|reflexivity].
      apply next_is_len in N. rewrite (IE d r' l _ (ok_F _ _ Ov) D) by (unfold fl; lia).
      (* the list after a comma is x :: _ (reads_elems_nonempty): sep :: seq_toks sep close (x :: r) is
         seq_tail sep close (x :: r), whereas seq_toks sep close [] is [close], which is not what the run folded *)
      destruct (parse_elems fu d r') as [[[|v0 l0] rest0]|] eqn:Pe; [apply parse_elems_reads, reads_elems_nonempty in Pe; congruence | | reflexivity].
      cbn [after etoks map seq_toks seq_tail]. now rewrite (tfold_app (toks v)).
    - (* members *)
      intros d s l a Oa D Fu. unfold fl in Fu. rewrite pm_S, (before_key_run _ s a Oa).
      destruct (next_is x22 s) as [r|] eqn:N0; [|reflexivity]. apply next_is_len in N0.
      destruct (scan_string r) as [[k rest]|] eqn:Ss; [|reflexivity].
      apply scan_string_inv in Ss as [_ ->]. rewrite app_length in N0. cbn [length] in N0.
      pose proof (ok_F a (TkS k) Oa) as Ok. rewrite (after_value_run parseObjectKey l rest _ Ok). cbn [vnext vclose].
      destruct (next_is x3a rest) as [r1|] eqn:N1; [|reflexivity]. apply next_is_len in N1.
      pose proof (ok_F _ (Pn scanObjectKey x3a) Ok) as Oc.
      rewrite (IV d r1 (parseObjectValue :: l) _ Oc D) by (unfold fv; lia).
      destruct (parse_value fu d r1) as [[v rest']|] eqn:Pv; [|reflexivity]. cbn [after].
      (* fuel and the non-empty list after a comma: as for elements (r1 is strictly shorter than s already) *)
      pose proof (ok_tfold (toks v) _ Oc) as Ov. apply parse_value_reads, (proj1 reads_suffix), end_len in Pv. rewrite (after_value_run parseObjectValue l rest' _ Ov). cbn [vnext vclose].
      destruct (next_is x7d rest'); [cbn [after otoks map seq_toks seq_tail mtoks fst snd app]; now rewrite !tfold_cons, tfold_app|].
      destruct (next_is x2c rest') as [r3|] eqn:N3; [|reflexivity].
      apply next_is_len in N3. rewrite (IM d r3 l _ (ok_F _ _ Ov) D) by (unfold fl; lia).
      destruct (parse_members fu d r3) as [[[|m0 l0] rest0]|] eqn:Pm; [apply parse_members_reads, reads_members_nonempty in Pm; congruence | | reflexivity].
      cbn [after otoks map seq_toks seq_tail mtoks fst snd app]. now rewrite !tfold_cons, (tfold_app (toks v)).
  Qed.

  Theorem run_parse bs a : ok a ->
    run St_stateBeginValue [] bs a =
    match parse_value (parse_fuel bs) max_depth bs with
    | Some (t, rest) => match skip_ws rest with [] => Some (efold (tfold (toks t) a) rest) | _ => None end
    | None => None
    end.
  Proof.
    intro Oa. rewrite (proj1 (struct_run (parse_fuel bs)) max_depth bs [] a Oa); [| reflexivity | unfold fv, parse_fuel; lia].
    destruct (parse_value (parse_fuel bs) max_depth bs) as [[t rest]|]; [apply run_top | reflexivity].
  Qed.
End Run.

Definition is_error (x : st) : bool := match x with St_stateError => true | _ => false end.

Definition is_sp (c : byte) : bool := match c with x20 => true | _ => false end.

(* one step: an erroneous result either stops the loop (scanError) or poisons it (err set, state
   Error); endTop is set exactly on entering state EndTop.  The clause about x20 under err is for eof_aaccept
   alone: scanner_eof feeds x20 and reads endTop of the result before it looks at err, so a failed step on
   x20 must leave endTop as the state before it says *)
Definition step_ok (x : st) (c : byte) (r : scanner * Z) : bool :=
  (if err (fst r)
   then is_error (step (fst r)) && (negb (is_sp c) || Bool.eqb (endTop (fst r)) (is_endtop x))
   else Bool.eqb (endTop (fst r)) (is_endtop (step (fst r))) && negb (is_error (step (fst r)))) &&
  (negb (snd r =? scanError)%Z || err (fst r)).

Lemma end_value_ok x stk c : is_endtop x = false -> step_ok x c (ref_end_value (canon x stk) c) = true.
Proof.
  unfold canon. intros ->. destruct stk as [|p l]; [destruct c; reflexivity|].
  destruct p; destruct c; try reflexivity; destruct l as [|q l]; try reflexivity;
    cbn -[Z.eqb ps_len Z.add]; unfold scanner_popParseState; cbn -[Z.eqb ps_len Z.add]; rewrite pop_test; reflexivity.
Qed.

Lemma push_ok x c x' stk p op : is_sp c = false -> is_error x' = false -> is_endtop x' = false -> (op =? scanError)%Z = false ->
  step_ok x c (scanner_pushParseState (mkScanner x' false stk false) c p op) = true.
Proof.
  intros S A B C. unfold scanner_pushParseState, step_ok. cbn -[Z.leb ps_len maxNestingDepth].
  destruct (_ <=? _)%Z; cbn; now rewrite ?A, ?B, ?C, ?S.
Qed.

Lemma tstep_live x c x' : tstep x c = Some x' -> is_error x' = false /\ is_endtop x' = false.
Proof. intro H. destruct (tstep_next x c x' H) as [T| ->]; [destruct x'; try discriminate; split; reflexivity | split; reflexivity]. Qed.

(* inside a token by the table (ref_tok); the six states between tokens by evaluation *)
Lemma ref_step_ok x stk c : is_error x = false -> step_ok x c (ref_step (canon x stk) c) = true.
Proof.
  intro NE. destruct (intok x) eqn:T.
  - rewrite (ref_tok x stk c T). destruct (tstep x c) as [x'|] eqn:E.
    + destruct (tstep_live x c x' E) as [A B]. unfold step_ok, canon. cbn. now rewrite A, B.
    + destruct (isnum x) eqn:Nx; [apply end_value_ok; destruct x; try discriminate; reflexivity|]. unfold step_ok, canon. cbn. destruct (is_endtop x), (is_sp c); reflexivity.
  - (* between tokens: by evaluation, but for the brackets, whose outcome depends on the stack *)
    revert T NE. destruct x; try discriminate; intros _ _; try (apply end_value_ok; reflexivity).
    all: unfold canon; destruct c; try reflexivity; try (apply push_ok; reflexivity).
    + exact (end_value_ok St_stateBeginValueOrEmpty stk x5d eq_refl).
    + exact (end_value_ok St_stateBeginStringOrEmpty (ps_settop stk parseObjectValue) x7d eq_refl).
Qed.

Lemma ref_step_canon x stk c :
  is_error x = false ->
  let r := ref_step (canon x stk) c in
  (if err (fst r)
   then is_error (step (fst r)) = true /\ (c = x20 -> endTop (fst r) = is_endtop x)
   else swf (fst r) /\ is_error (step (fst r)) = false) /\
  ((snd r =? scanError)%Z = true -> err (fst r) = true).
Proof.
  intro NE. cbv zeta. pose proof (ref_step_ok x stk c NE) as H. unfold step_ok in H. apply andb_prop in H as [H1 H2].
  destruct (ref_step (canon x stk) c) as [s' op]. cbn [fst snd] in *. split.
  - destruct (err s') eqn:E; apply andb_prop in H1 as [H1 H3].
    + split; [exact H1 | intros ->; apply Bool.eqb_prop in H3; exact H3].
    + split; [split; [exact E | apply Bool.eqb_prop in H1; exact H1]|]. destruct (is_error (step s')); [discriminate | reflexivity].
  - intro Q. rewrite Q in H2. simpl in H2. exact H2.
Qed.

(* ---- the end of the input: eof accepts where the automaton does ---- *)
Lemma eof_aaccept s : swf s -> is_error (step s) = false ->
  negb (snd (scanner_eof s) =? scanError)%Z = aaccept (step s) (parseState s).
Proof.
  intros W NE. rewrite eof_eq_ref. unfold ref_accepts_at_eof, aaccept, astep.
  pose proof (swf_canon s W) as Cs. destruct W as [W1 W2]. rewrite W1, W2.
  destruct (is_endtop (step s)) eqn:ET; [reflexivity|]. cbn [orb].
  pose proof (ref_step_canon (step s) (parseState s) x20 NE) as [R1 _]. rewrite <- Cs in R1. cbv zeta in R1.
  rewrite <- Cs. destruct (err (fst (ref_step s x20))).
  - destruct R1 as [_ R1]. rewrite (R1 eq_refl). exact ET.
  - destruct R1 as [[_ R1] _]. exact R1.
Qed.

(* ---- a loop over the translated scanner with an arbitrary accumulator is a run of the automaton ---- *)
Section Generic.
  Variable A : Type.
  (* accumulator update: old value, op code, the byte, the input after the byte *)
  Variable f : A -> Z -> byte -> bytes -> A.

  Fixpoint gloop (s : scanner) (bs : bytes) (a : A) : option (scanner * A) :=
    match bs with
    | [] => Some (s, a)
    | c :: r =>
        let (s', v) := step_fn (step s) s c in
        if (v =? scanError)%Z then None else gloop s' r (f a v c r)
    end.

  Definition gfin (s : scanner) (bs : bytes) (a : A) : option A :=
    match gloop s bs a with
    | None => None
    | Some (s', a') => if (snd (scanner_eof s') =? scanError)%Z then None else Some a'
    end.

  (* whatever the accumulator does, the scanner evolves as in check_loop: the loop accepts what Valid accepts *)
  Lemma gloop_check : forall bs s a,
    match gloop s bs a with Some (s', _) => check_loop s bs = Some s' | None => check_loop s bs = None end.
  Proof.
    induction bs as [|c r IH]; intros s a; [reflexivity|]. cbn [gloop check_loop].
    destruct (step_fn (step s) s c) as [s' v]. destruct (v =? scanError)%Z; [reflexivity | apply IH].
  Qed.

  Lemma gfin_valid bs a : (exists a', gfin scanner0 bs a = Some a') <-> valid_gen bs = true.
  Proof.
    unfold gfin, valid_gen. pose proof (gloop_check bs scanner0 a) as H.
    destruct (gloop scanner0 bs a) as [[s' a']|]; rewrite H; [|split; [intros [o E]; discriminate E | discriminate]].
    destruct (snd (scanner_eof s') =? scanError)%Z; split; try discriminate; try reflexivity.
    - intros [o E]. discriminate E.
    - intros _. eexists. reflexivity.
  Qed.

  Lemma dead_g s bs a : err s = true -> step s = St_stateError -> gfin s bs a = None.
  Proof.
    intros E X. unfold gfin. destruct bs as [|c r].
    - cbn [gloop]. unfold scanner_eof. rewrite E. reflexivity.
    - cbn [gloop]. rewrite X. reflexivity.
  Qed.

  Lemma gfin_grun : forall bs s a, swf s -> is_error (step s) = false ->
    gfin s bs a = grun A f (step s) (parseState s) bs a.
  Proof.
    induction bs as [|c r IH]; intros s a W NE.
    - unfold gfin. cbn [gloop grun].
      rewrite <- (eof_aaccept s W NE). destruct (snd (scanner_eof s) =? scanError)%Z; reflexivity.
    - unfold gfin. cbn [gloop grun]. rewrite gen_eq_ref. unfold rstep.
      pose proof (swf_canon s W) as Cs.
      pose proof (ref_step_canon (step s) (parseState s) c NE) as [R1 R2]. rewrite <- Cs in R1, R2. cbv zeta in R1, R2.
      cbv zeta. rewrite <- Cs. destruct (ref_step s c) as [s' op] eqn:E. cbn [fst snd] in *.
      destruct (op =? scanError)%Z eqn:Op.
      + rewrite (R2 eq_refl). reflexivity.
      + destruct (err s') eqn:Es.
        * destruct R1 as [R1 _]. fold (gfin s' r (f a op c r)). apply dead_g; auto.
          destruct (step s'); try discriminate; reflexivity.
        * destruct R1 as [R1 R3]. fold (gfin s' r (f a op c r)). apply IH; auto.
  Qed.
End Generic.

Lemma avalid_afinal bs : avalid bs = afinal St_stateBeginValue [] bs.
Proof. reflexivity. Qed.

(* checkValid is the loop without an accumulator *)
Theorem valid_gen_avalid bs : valid_gen bs = avalid bs.
Proof.
  pose proof (gloop_check unit (fun _ _ _ _ => tt) bs scanner0 tt) as H.
  pose proof (gfin_grun unit (fun _ _ _ _ => tt) bs scanner0 tt (conj eq_refl eq_refl) eq_refl) as G. unfold gfin in G.
  rewrite avalid_afinal, (afinal_run unit (fun _ _ _ _ => tt) bs _ _ tt). change (step scanner0) with St_stateBeginValue in G. change (parseState scanner0) with (@nil ps) in G.
  rewrite <- G. unfold valid_gen. destruct (gloop _ _ scanner0 bs tt) as [[s' a']|]; rewrite H; [|reflexivity].
  destruct (snd (scanner_eof s') =? scanError)%Z; reflexivity.
Qed.

Theorem avalid_parse bs : avalid bs = match parse bs with Some _ => true | None => false end.
Proof.
  rewrite avalid_afinal, (afinal_run unit (fun _ _ _ _ => tt) bs _ _ tt), (run_parse unit _ (fun _ => True)); try exact I.
  - unfold parse. destruct (parse_value (parse_fuel bs) max_depth bs) as [[t rest]|]; [|reflexivity].
    destruct (skip_ws rest); reflexivity.
  - intros [] c r _ _. reflexivity.
  - intros [] tk r _ _. now destruct (tkfold unit _ tt tk r), (F unit _ tt tk).
  - intros; exact I.
Qed.

(* checkValid, as translated from scanner.go (gen/ScannerGen.v), accepts exactly what the reader reads *)
Theorem valid_gen_iff_parse bs : valid_gen bs = true <-> exists t, parse bs = Some t.
Proof.
  rewrite valid_gen_avalid, avalid_parse. destruct (parse bs) as [t|]; split.
  - intros _. now exists t.
  - reflexivity.
  - discriminate.
  - intros [t H]. discriminate H.
Qed.

Print Assumptions valid_gen_iff_parse.
