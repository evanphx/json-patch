(* ImplMergeFacts.v — the model of v5/merge.go (ImplMerge.v) refines the RFC 7396 reference:
   pruneNulls, merge/mergeDocs (MergePatch) and the mergeMerge mode (MergeMergePatches), on the
   values the nodes denote (Abs.aval), for every document, patch and nesting depth. *)
From Coq Require Import Lia.
From JP Require Import Bytes Json Text Strings Den ImplV5 ImplMerge Rfc7396 DecodeFacts JsonFacts MergeFacts Abs EqualFacts.

Notation or_null := Abs.or_null.

Lemma or_null_eq o : MergeFacts.or_null o = Abs.or_null o.
Proof. reflexivity. Qed.

(* ---- the reference on an empty target: drop null members, recursively ---- *)
Definition prune_spec (dms : list (bytes * ojson)) : list (bytes * ojson) :=
  flat_map (fun kv => match snd kv with ONull => [] | v => [(fst kv, merge_patch ONull v)] end) dms.

Lemma prune_spec_keys dms k : In k (map fst (prune_spec dms)) -> In k (map fst dms).
Proof.
  induction dms as [|[k' v] dms IH]; simpl; auto.
  rewrite map_app, in_app_iff. intros [H|H]; auto. left. destruct v; simpl in H; tauto.
Qed.

Lemma merge_members_fresh dms : forall acc,
  NoDup (map fst acc ++ map fst dms) ->
  merge_members dms acc = acc ++ prune_spec dms.
Proof.
  induction dms as [|[k v] dms IH]; intros acc N; simpl.
  - now rewrite app_nil_r.
  - assert (Hk : ~ In k (map fst acc)).
    { intro Hin. simpl in N. apply NoDup_remove_2 in N. apply N. apply in_or_app. now left. }
    assert (Hn : aget k acc = None) by (apply aget_None_notin; auto).
    destruct v; try (rewrite Hn; simpl MergeFacts.or_null; rewrite aset_notin by auto; rewrite IH;
                     [rewrite <- app_assoc; reflexivity | rewrite map_app; simpl; rewrite <- app_assoc; exact N]).
    rewrite adel_notin by auto. apply IH. simpl in N. apply NoDup_remove_1 in N. exact N.
Qed.

Lemma merge_patch_target_irrelevant t t' p :
  members_of t = members_of t' -> merge_patch t p = merge_patch t' p.
Proof.
  intro H. destruct (is_obj p) eqn:O.
  - apply is_obj_true in O as [ms ->]. rewrite !merge_patch_obj, H. reflexivity.
  - rewrite !merge_patch_nonobj by (apply is_obj_false; auto). reflexivity.
Qed.

Lemma den_null_iff t : den t = ONull <-> t = TNull.
Proof. destruct t; simpl; split; intro H; try discriminate; auto. Qed.

Fixpoint drop_nulls (entries : list (bytes * node)) (tms : list (bytes * ojson)) : list (bytes * ojson) :=
  match entries with
  | [] => tms
  | (k, NNil) :: r => drop_nulls r (adel k tms)
  | _ :: r => drop_nulls r tms
  end.

Lemma prune_entries_abs entries : forall keys obj,
  keys_agree keys obj -> NoDup (map fst entries) ->
  (forall k v, In (k, v) entries -> aget k obj = Some v) ->
  let (keys', obj') := prune_entries (fun n => n) entries keys obj in
  abs_members keys' obj' = drop_nulls entries (abs_members keys obj) /\ keys_agree keys' obj' /\
  (forall k v, aget k obj' = Some v -> aget k obj = Some v).
Proof.
  induction entries as [|[k v] entries IH]; intros keys obj Ag N H; simpl.
  - split; [reflexivity | split; [exact Ag | auto]].
  - inversion N; subst.
    assert (Hk : aget k obj = Some v) by (apply H; now left).
    destruct v; try (rewrite aset_same by auto; apply IH; auto; intros; apply H; now right).
    + (* a nil member: removed *)
      rewrite (kmem_agree keys obj k Ag). unfold amem. rewrite Hk. destruct (abs_del keys obj k Ag) as [A1 A2].
      specialize (IH (kdel1 k keys) (adel k obj) A2 H3).
      destruct (prune_entries (fun n => n) entries (kdel1 k keys) (adel k obj)) as [keys' obj'].
      destruct IH as [I1 [I2 I3]].
      * intros k' v' Hin. rewrite aget_adel_other; [apply H; now right|].
        apply bseq_neq. intro; subst. apply H2. apply in_map_iff. exists (k, v'); auto.
      * rewrite I1, A1. split; [reflexivity | split; [exact I2|]]. intros k' v' G. apply I3 in G.
        destruct (bseq k' k) eqn:E; [apply bseq_eq in E; subst; rewrite aget_adel_same in G; discriminate|].
        rewrite aget_adel_other in G; auto.
Qed.

Lemma drop_nulls_cons_notin entries : forall k x tms,
  ~ In k (map fst entries) -> drop_nulls entries ((k, x) :: tms) = (k, x) :: drop_nulls entries tms.
Proof.
  induction entries as [|[k' v] entries IH]; intros k x tms H; simpl; auto.
  simpl in H. assert (bseq k' k = false) by (apply bseq_neq; intro; subst; auto).
  destruct v; try (apply IH; auto). simpl. rewrite H0. apply IH; auto.
Qed.

Lemma drop_nulls_self (g : node -> ojson) entries :
  NoDup (map fst entries) ->
  drop_nulls entries (map (fun kv => (fst kv, g (snd kv))) entries) =
  map (fun kv => (fst kv, g (snd kv))) (filter (fun kv => negb (match snd kv with NNil => true | _ => false end)) entries).
Proof.
  induction entries as [|[k v] entries IH]; simpl; auto. intro N. inversion N; subst.
  destruct v; simpl; try (rewrite drop_nulls_cons_notin by auto; f_equal; auto).
  rewrite bseq_refl. rewrite adel_notin; auto. rewrite map_map. simpl. exact H1.
Qed.

Definition pchild (v : tjson) : node := match v with TNull => NNil | _ => prune_t v end.

Lemma prune_t_obj ms :
  prune_t (TObj ms) =
  let keys := map (fun kv => unquote (fst kv)) ms in
  let obj := build_with pchild ms [] in
  let (keys', obj') := prune_entries (fun n => n) obj keys obj in NDoc keys' obj'.
Proof.
  cbn [prune_t]. cbv zeta.
  assert (E : forall ms acc,
             (fix go (ms : list (bytes * tjson)) (acc : list (bytes * node)) :=
                match ms with
                | [] => acc
                | (k, v) :: r => go r (aset (unquote k) (match v with TNull => NNil | _ => prune_t v end) acc)
                end) ms acc = build_with pchild ms acc).
  { clear. induction ms as [|[k v] ms IH]; intro acc; simpl; auto. }
  rewrite E. reflexivity.
Qed.

Lemma prune_t_nonobj t : (forall ms, t <> TObj ms) -> prune_t t = NRaw t.
Proof. destruct t; auto. intro H. exfalso. eapply H; eauto. Qed.

Lemma match_nonnil {A} (c : node) (a b : A) :
  c <> NNil -> match c with NNil => a | _ => b end = b.
Proof. destruct c; auto. congruence. Qed.

Lemma pchild_nonnil v : v <> TNull -> pchild v <> NNil.
Proof.
  destruct v; cbn [pchild]; try congruence; try (intros _; rewrite prune_t_nonobj by (intros; discriminate); discriminate). intros _.
  rewrite prune_t_obj. cbv zeta.
  destruct (prune_entries (fun n => n) (build_with pchild ms []) (map (fun kv => unquote (fst kv)) ms) (build_with pchild ms [])).
  discriminate.
Qed.

Lemma tnull_dec (v : tjson) : {v = TNull} + {v <> TNull}.
Proof. destruct v; auto; right; discriminate. Qed.

Lemma pchild_eq v : v <> TNull -> pchild v = prune_t v.
Proof. destruct v; auto. congruence. Qed.

Lemma prune_one_nonnull (k : bytes) x :
  x <> ONull -> match x with ONull => [] | v => [(k, merge_patch ONull v)] end = [(k, merge_patch ONull x)].
Proof. destruct x; auto. congruence. Qed.

Lemma map_filter_flat_map {A B} (f : A -> B) (p : A -> bool) l :
  map f (filter p l) = flat_map (fun x => if p x then [f x] else []) l.
Proof. induction l as [|x l IH]; [reflexivity|]. cbn [filter flat_map]. destruct (p x); cbn [map app]; now rewrite IH. Qed.

Lemma flat_map_map {A B C} (g : A -> B) (f : B -> list C) l : flat_map f (map g l) = flat_map (fun x => f (g x)) l.
Proof. rewrite !flat_map_concat_map, map_map. reflexivity. Qed.

Lemma flat_map_ext_in {A B} (f g : A -> list B) l : (forall x, In x l -> f x = g x) -> flat_map f l = flat_map g l.
Proof. intro H. rewrite !flat_map_concat_map. f_equal. apply map_ext_in, H. Qed.

Theorem prune_t_spec t : tnodup t = true -> aval (prune_t t) = merge_patch ONull (den t) /\ nwf (prune_t t).
Proof.
  induction t using tjson_rect'; intro T;
    try (rewrite prune_t_nonobj by (intros; discriminate); split; [reflexivity | exact T]).
  pose proof (den_obj_nodup ms T) as D. apply tnodup_obj in T as [N F].
  rewrite prune_t_obj. cbv zeta.
  rewrite build_with_nodup by exact N. simpl app.
  set (obj := map (fun kv => (unquote (fst kv), pchild (snd kv))) ms).
  assert (K : map fst obj = map (fun kv => unquote (fst kv)) ms) by (unfold obj; rewrite map_map; reflexivity).
  rewrite <- K. assert (No : NoDup (map fst obj)) by (rewrite K; exact N).
  pose proof (prune_entries_abs obj (map fst obj) obj (keys_agree_self No) No
                (fun k v Hin => In_aget_nodup k v obj No Hin)) as PE.
  destruct (prune_entries (fun n => n) obj (map fst obj) obj) as [keys' obj'].
  destruct PE as [P1 [P2 P3]].
  rewrite Forall_forall in H, F.
  split.
  - rewrite aval_doc, P1, abs_members_self, drop_nulls_self by auto.
    rewrite D, merge_patch_obj. simpl members_of.
    rewrite merge_members_fresh by (simpl; rewrite den_members_keys; exact N). simpl app. f_equal.
    unfold obj, prune_spec, den_members. rewrite map_filter_flat_map, !flat_map_map. apply flat_map_ext_in.
    intros [k v] Hin. cbn [fst snd]. destruct (tnull_dec v) as [->|NNv]; [reflexivity|].
    rewrite (match_nonnil (pchild v)) by apply pchild_nonnil, NNv.
    destruct (H _ Hin (F _ Hin)) as [E _]. cbn [snd negb] in *. rewrite (pchild_eq v NNv), E.
    assert (DN : den v <> ONull) by (rewrite den_null_iff; exact NNv).
    destruct (den v); [destruct (DN eq_refl) | reflexivity..].
  - apply nwf_doc. split; auto. apply Forall_forall. intros [k v] Hin. simpl.
    assert (G : aget k obj = Some v) by (apply P3; destruct P2 as [_ [P2 _]]; apply In_aget_nodup; auto).
    apply aget_In in G. unfold obj in G. apply in_map_iff in G as [[k0 v0] [E Hin0]]. inversion E; subst.
    destruct (tnull_dec v0) as [->|NNv]; [exact I|]. rewrite (pchild_eq v0 NNv).
    apply (H (k0, v0) Hin0). apply (F _ Hin0).
Qed.

Lemma patch_entries_with pms : patch_entries pms = build_with (fun v => v) pms [].
Proof.
  unfold patch_entries. generalize (@nil (bytes * tjson)).
  induction pms as [|[k v] pms IH]; intro acc; simpl; auto.
Qed.

Lemma patch_entries_nodup pms :
  NoDup (map (fun kv => unquote (fst kv)) pms) ->
  patch_entries pms = map (fun kv => (unquote (fst kv), snd kv)) pms.
Proof. intro N. rewrite patch_entries_with. apply (build_with_nodup (fun v => v) pms []), N. Qed.

Lemma nnil_dec (c : node) : {c = NNil} + {c <> NNil}.
Proof. destruct c; auto; right; discriminate. Qed.

Lemma tsize_member_lt (ms : list (bytes * tjson)) kv : In kv ms -> (tsize (snd kv) < tsize (TObj ms))%nat.
Proof.
  simpl. induction ms as [|kv' ms IH]; [intros []|]. intros [E|Hin]; simpl.
  - subst. lia.
  - specialize (IH Hin). lia.
Qed.

(* the members merge ranges over, for a patch object that repeats no name *)
Lemma patch_entries_spec ms : tnodup (TObj ms) = true ->
  den (TObj ms) = OObj (den_members ms) /\ NoDup (map fst (patch_entries ms)) /\
  map (fun kv => (fst kv, den (snd kv))) (patch_entries ms) = den_members ms /\
  forall k v, In (k, v) (patch_entries ms) -> tnodup v = true /\ (tsize v < tsize (TObj ms))%nat.
Proof.
  intro T. split; [apply den_obj_nodup, T|]. apply tnodup_obj in T as [N F].
  rewrite patch_entries_nodup, !map_map by exact N. split; [exact N | split; [reflexivity|]].
  intros k v Hin. apply in_map_iff in Hin as [kv [E Hin]]. injection E as <- <-.
  rewrite Forall_forall in F. split; [apply (F _ Hin) | apply tsize_member_lt, Hin].
Qed.

(* mergeMerge mode never stores the raw text null: a deletion is kept as a nil member *)
Fixpoint nclean (n : node) : bool :=
  match n with
  | NRaw TNull => false
  | NDoc _ obj => forallb (fun kv => nclean (snd kv)) obj
  | NAry ns => forallb nclean ns
  | _ => true
  end.

Definition nodes_clean (obj : list (bytes * node)) : Prop := Forall (fun kv => nclean (snd kv) = true) obj.

Lemma nclean_doc keys obj : nclean (NDoc keys obj) = true <-> nodes_clean obj.
Proof. simpl. unfold nodes_clean. rewrite forallb_forall, Forall_forall. tauto. Qed.

Lemma nclean_child t : nclean (child t) = true.
Proof. destruct t; reflexivity. Qed.

Lemma nclean_raw v : v <> TNull -> nclean (NRaw v) = true.
Proof. destruct v; auto; congruence. Qed.

(* The member loop of mergeDocs, once for the two packages.  They differ in what a partialDoc is
   (v5: ordered key list and Go map; legacy: the Go map alone) and so in how a member is set or
   removed; D stands for a partialDoc, objof for its Go map, mem for the members it denotes, ok for
   its invariant, val / wf for the value and the invariant of a node. *)
Section MemberLoop.
  Variable D : Type.
  Variable objof : D -> list (bytes * node).
  Variables (dset : bytes -> node -> D -> D) (ddel : bytes -> D -> D).
  Variable prune : tjson -> node.

  Definition mstep (rec : node -> tjson -> node) (mm : bool) (d : D) (kv : bytes * tjson) : D :=
    let (k, v) := kv in
    match v with
    | TNull => if mm then dset k NNil d else ddel k d
    | _ =>
        match aget k (objof d) with
        | None | Some NNil => dset k (if mm then NRaw v else prune v) d
        | Some c => dset k (rec c v) d
        end
    end.

  Lemma mstep_nonnull rec mm d k v :
    v <> TNull ->
    mstep rec mm d (k, v) =
    dset k (match aget k (objof d) with
            | Some c => match c with NNil => if mm then NRaw v else prune v | _ => rec c v end
            | None => if mm then NRaw v else prune v
            end) d.
  Proof. intro H. destruct v; try congruence; cbn [mstep]; destruct (aget k (objof d)) as [[]|]; reflexivity. Qed.

  Variables (val : node -> ojson) (wf : node -> Prop) (mem : D -> list (bytes * ojson)) (ok : D -> Prop).
  Hypothesis objof_set : forall k v d, objof (dset k v d) = aset k v (objof d).
  Hypothesis objof_del : forall k d, objof (ddel k d) = adel k (objof d).
  Hypothesis mem_get : forall k d, ok d -> aget k (mem d) = option_map val (aget k (objof d)).
  Hypothesis mem_set : forall k v d, ok d -> mem (dset k v d) = aset k (val v) (mem d) /\ ok (dset k v d).
  Hypothesis mem_del : forall k d, ok d -> mem (ddel k d) = adel k (mem d) /\ ok (ddel k d).
  Hypothesis val_nil : val NNil = ONull.
  Hypothesis val_raw : forall t, val (NRaw t) = den t.
  Hypothesis wf_nil : wf NNil.
  Hypothesis wf_raw : forall t, wf (NRaw t) <-> tnodup t = true.
  Hypothesis prune_ok : forall t, tnodup t = true -> val (prune t) = merge_patch ONull (den t) /\ wf (prune t).

  Definition good (d : D) : Prop := ok d /\ Forall (fun kv => wf (snd kv)) (objof d).

  Lemma good_set k v d : good d -> wf v -> mem (dset k v d) = aset k (val v) (mem d) /\ good (dset k v d).
  Proof.
    intros [Ok W] Wv. destruct (mem_set k v d Ok) as [E Ok']. split; [exact E | split; [exact Ok'|]].
    rewrite objof_set. apply Forall_aset; auto.
  Qed.

  Lemma good_del k d : good d -> mem (ddel k d) = adel k (mem d) /\ good (ddel k d).
  Proof.
    intros [Ok W]. destruct (mem_del k d Ok) as [E Ok']. split; [exact E | split; [exact Ok'|]].
    rewrite objof_del. apply Forall_adel, W.
  Qed.

  (* what holds of every member of the Go map is kept, if it holds of what the loop stores *)
  Lemma mloop_Forall (P : bytes * node -> Prop) rec (mm : bool) es : forall d,
    Forall P (objof d) ->
    (forall k v, In (k, v) es ->
       P (k, NNil) /\ P (k, if mm then NRaw v else prune v) /\ forall c, P (k, c) -> P (k, rec c v)) ->
    Forall P (objof (fold_left (mstep rec mm) es d)).
  Proof.
    induction es as [|[k v] es IH]; intros d F H; [exact F|]. cbn [fold_left].
    apply IH; [|intros k0 v0 Hin; apply (H k0 v0); now right].
    destruct (H k v (or_introl eq_refl)) as [H1 [H2 H3]].
    destruct (tnull_dec v) as [->|NN].
    - cbn [mstep]. destruct mm; [rewrite objof_set; apply Forall_aset_key; assumption | rewrite objof_del; apply Forall_adel, F].
    - rewrite mstep_nonnull, objof_set by exact NN. apply Forall_aset_key; [exact F|].
      destruct (aget k (objof d)) as [c|] eqn:E; [|exact H2].
      destruct c; try exact H2; apply H3, (Forall_aget _ _ _ _ F E).
  Qed.

  (* MergePatch mode: one step is the reference's step on the members *)
  Lemma mstep_merge rec d k v :
    good d -> tnodup v = true ->
    (forall c, wf c -> val (rec c v) = merge_patch (val c) (den v) /\ wf (rec c v)) ->
    mem (mstep rec false d (k, v)) = kset k (merge_lookup (Some (den v)) (aget k (mem d))) (mem d) /\
    good (mstep rec false d (k, v)).
  Proof.
    intros G Tv R. destruct (tnull_dec v) as [->|NN]; [apply good_del, G|].
    rewrite mstep_nonnull, merge_lookup_nonnull by (rewrite ?den_null_iff; exact NN).
    rewrite mem_get by apply G. cbn [kset].
    match goal with |- context [dset k ?x d] => set (v' := x) end.
    assert (V : val v' = merge_patch (MergeFacts.or_null (option_map val (aget k (objof d)))) (den v) /\ wf v').
    { unfold v'. destruct (aget k (objof d)) as [c|] eqn:E; [|apply prune_ok, Tv].
      destruct (nnil_dec c) as [->|NC]; [cbn; rewrite val_nil; apply prune_ok, Tv|].
      rewrite (match_nonnil c) by exact NC. apply R, (Forall_aget _ _ _ _ (proj2 G) E). }
    destruct V as [E W]. rewrite <- E. apply good_set; assumption.
  Qed.

  Lemma mloop_merge rec es : forall d,
    good d ->
    (forall k v, In (k, v) es -> tnodup v = true /\
                 forall c, wf c -> val (rec c v) = merge_patch (val c) (den v) /\ wf (rec c v)) ->
    mem (fold_left (mstep rec false) es d) = merge_members (map (fun kv => (fst kv, den (snd kv))) es) (mem d) /\
    good (fold_left (mstep rec false) es d).
  Proof.
    induction es as [|[k v] es IH]; intros d G R; [split; [reflexivity | exact G]|].
    destruct (R k v (or_introl eq_refl)) as [Tv Rv]. destruct (mstep_merge rec d k v G Tv Rv) as [E G'].
    cbn [fold_left map fst snd]. rewrite merge_members_kfold. cbn [kfold]. rewrite <- E, <- merge_members_kfold.
    apply IH; [exact G' | intros k0 v0 Hin; apply (R k0 v0); now right].
  Qed.

  (* mergeMerge mode: the step of mm, for a compatible member *)
  Hypothesis val_clean : forall c, nclean c = true -> c <> NNil -> val c <> ONull.

  Definition clean (d : D) : Prop := nodes_clean (objof d).

  Lemma mstep_mm rec d k v :
    good d -> clean d -> tnodup v = true ->
    (forall c, wf c -> nclean c = true -> c <> NNil -> v <> TNull ->
               (is_obj (den v) = true -> compatible (val c) (den v) = true) ->
               val (rec c v) = mm (val c) (den v) /\ wf (rec c v) /\ nclean (rec c v) = true) ->
    (forall c, aget k (mem d) = Some c -> is_obj (den v) = true -> c <> ONull -> compatible c (den v) = true) ->
    mem (mstep rec true d (k, v)) = kset k (mm_lookup (Some (den v)) (aget k (mem d))) (mem d) /\
    good (mstep rec true d (k, v)) /\ clean (mstep rec true d (k, v)).
  Proof.
    intros G C Tv R Cp.
    assert (Set_ : forall v', wf v' -> nclean v' = true ->
              mem (dset k v' d) = kset k (Some (val v')) (mem d) /\ good (dset k v' d) /\ clean (dset k v' d)).
    { intros v' W Cv. destruct (good_set k v' d G W) as [E G']. split; [exact E | split; [exact G'|]].
      unfold clean. rewrite objof_set. apply Forall_aset; auto. }
    destruct (tnull_dec v) as [->|NN].
    { cbn [mstep den mm_lookup]. rewrite <- val_nil. apply Set_; [exact wf_nil | reflexivity]. }
    assert (DN : den v <> ONull) by (rewrite den_null_iff; exact NN).
    pose proof (Set_ (NRaw v) (proj2 (wf_raw v) Tv) (nclean_raw v NN)) as Fresh. rewrite val_raw in Fresh.
    rewrite mstep_nonnull by exact NN. rewrite mem_get in * by apply G.
    destruct (aget k (objof d)) as [c|] eqn:E; cbn [option_map];
      [|rewrite mm_lookup_fresh by auto; exact Fresh].
    destruct (nnil_dec c) as [->|NC]; [rewrite val_nil, mm_lookup_fresh by auto; exact Fresh|].
    rewrite (match_nonnil c) by exact NC.
    pose proof (Forall_aget _ _ _ _ (proj2 G) E) as Wc. pose proof (Forall_aget _ _ _ _ C E) as Cc.
    pose proof (val_clean c Cc NC) as VN.
    destruct (R c Wc Cc NC NN (fun O => Cp _ eq_refl O VN)) as [Q1 [Q2 Q3]].
    rewrite mm_lookup_both, <- Q1 by assumption. apply Set_; assumption.
  Qed.

  Lemma mloop_mm rec es : forall d,
    good d -> clean d -> NoDup (map fst es) ->
    (forall k v, In (k, v) es -> tnodup v = true /\
       forall c, wf c -> nclean c = true -> c <> NNil -> v <> TNull ->
                 (is_obj (den v) = true -> compatible (val c) (den v) = true) ->
                 val (rec c v) = mm (val c) (den v) /\ wf (rec c v) /\ nclean (rec c v) = true) ->
    (forall k v c, In (k, v) es -> aget k (mem d) = Some c -> is_obj (den v) = true ->
                   c <> ONull -> compatible c (den v) = true) ->
    mem (fold_left (mstep rec true) es d) = mm_members (map (fun kv => (fst kv, den (snd kv))) es) (mem d) /\
    good (fold_left (mstep rec true) es d) /\ clean (fold_left (mstep rec true) es d).
  Proof.
    induction es as [|[k v] es IH]; intros d G C N R Cp; [split; [reflexivity | split; assumption]|].
    inversion N as [|? ? Hk N']; subst. destruct (R k v (or_introl eq_refl)) as [Tv Rv].
    destruct (mstep_mm rec d k v G C Tv Rv (fun c => Cp k v c (or_introl eq_refl))) as [E [G' C']].
    cbn [fold_left map fst snd]. rewrite mm_members_kfold. cbn [kfold]. rewrite <- E, <- mm_members_kfold.
    apply IH; [exact G' | exact C' | exact N' | intros k0 v0 Hin; apply (R k0 v0); now right|].
    intros k0 v0 c Hin. rewrite E, aget_kset.
    replace (bseq k0 k) with false; [apply Cp; now right|].
    symmetry. apply bseq_neq. intros ->. apply Hk, in_map_iff. exists (k, v0). auto.
  Qed.

  (* merge(cur, patch) itself, given its unfolding in terms of the member loop *)
  Variables (into : node -> option D) (wrap : D -> node).
  Variable mrg : nat -> bool -> node -> tjson -> node.
  Hypothesis mrg_S : forall f mm cur p,
    mrg (S f) mm cur p =
    match into cur with
    | None => prune p
    | Some d =>
        match p with
        | TObj pms => wrap (fold_left (mstep (mrg f mm) mm) (patch_entries pms) d)
        | _ => NRaw p
        end
    end.
  Hypothesis prune_nonobj : forall t, (forall ms, t <> TObj ms) -> prune t = NRaw t.
  Hypothesis into_ok : forall cur, wf cur ->
    match into cur with
    | Some d => val cur = OObj (mem d) /\ good d
    | None => is_obj (val cur) = false
    end.
  Hypothesis wrap_ok : forall d, good d -> val (wrap d) = OObj (mem d) /\ wf (wrap d).
  Hypothesis into_clean : forall cur d, wf cur -> nclean cur = true -> into cur = Some d -> clean d.
  Hypothesis wrap_clean : forall d, clean d -> nclean (wrap d) = true.

  Lemma mrg_nonobj f mm cur p : is_obj (den p) = false -> mrg (S f) mm cur p = NRaw p.
  Proof.
    intro Op. rewrite mrg_S.
    destruct (into cur); destruct p; try reflexivity; try discriminate Op; apply prune_nonobj; intros; discriminate.
  Qed.

  Theorem gmerge_spec : forall fuel p cur,
    (tsize p < fuel)%nat -> tnodup p = true -> wf cur ->
    val (mrg fuel false cur p) = merge_patch (val cur) (den p) /\ wf (mrg fuel false cur p).
  Proof.
    induction fuel as [|f IH]; intros p cur Hf Tp Wc; [lia|].
    destruct (is_obj (den p)) eqn:Op.
    2:{ rewrite mrg_nonobj, val_raw, merge_patch_nonobj by (try apply is_obj_false; exact Op).
        split; [reflexivity | apply wf_raw, Tp]. }
    destruct p; try discriminate Op. clear Op.
    rewrite mrg_S. pose proof (into_ok cur Wc) as ID. destruct (into cur) as [d|].
    - destruct ID as [Ec G].
      destruct (patch_entries_spec ms Tp) as [Dp [_ [De Me]]].
      destruct (mloop_merge (mrg f false) (patch_entries ms) d G) as [M1 M2].
      + intros k v Hin. destruct (Me k v Hin) as [Tv Sv]. split; [exact Tv|].
        intros c Wc'. apply IH; auto. lia.
      + destruct (wrap_ok _ M2) as [V W]. split; [|exact W].
        rewrite V, M1, Ec, Dp, merge_patch_obj, De. reflexivity.
    - destruct (prune_ok _ Tp) as [P1 P2]. split; auto.
      rewrite P1. apply merge_patch_target_irrelevant. destruct (val cur); try reflexivity. discriminate.
  Qed.

  Theorem gmerge_mm_spec : forall fuel p cur,
    (tsize p < fuel)%nat -> tnodup p = true -> p <> TNull -> wf cur -> nclean cur = true ->
    (is_obj (den p) = true -> compatible (val cur) (den p) = true) ->
    val (mrg fuel true cur p) = mm (val cur) (den p) /\ wf (mrg fuel true cur p) /\
    nclean (mrg fuel true cur p) = true.
  Proof.
    induction fuel as [|f IH]; intros p cur Hf Tp NNp Wc Cc Cp; [lia|].
    destruct (is_obj (den p)) eqn:Op.
    - (* an object patch: cur is an object too *)
      destruct p; try discriminate. rewrite mrg_S. pose proof (into_ok cur Wc) as ID.
      destruct (patch_entries_spec ms Tp) as [Dp [Ne [De Me]]]. rewrite Dp in Cp. specialize (Cp eq_refl).
      apply compatible_obj in Cp as [ms1 [Ems1 Cp]].
      destruct (into cur) as [d|] eqn:Ei; [|rewrite Ems1 in ID; discriminate].
      destruct ID as [Ec G]. pose proof (into_clean cur d Wc Cc Ei) as Co.
      destruct (mloop_mm (mrg f true) (patch_entries ms) d G Co Ne) as [M1 [M2 M3]].
      + intros k v Hin. destruct (Me k v Hin) as [Tv Sv]. split; [exact Tv|].
        intros c Wc' Cc' NNc NNv Cpv. apply IH; auto. lia.
      + intros k v c Hin Gc O _. rewrite Ec in Ems1. inversion Ems1; subst ms1. apply (Cp k (den v)); auto.
        rewrite <- De. apply (in_map (fun kv => (fst kv, den (snd kv))) _ (k, v)), Hin.
      + destruct (wrap_ok _ M2) as [V W]. split; [|split; [exact W | apply wrap_clean, M3]].
        rewrite V, M1, Ec, Dp, mm_obj, De. reflexivity.
    - rewrite mrg_nonobj, val_raw, mm_nonobj2 by (try apply is_obj_false; exact Op).
      split; [reflexivity | split; [apply wf_raw, Tp | apply nclean_raw, NNp]].
  Qed.
End MemberLoop.

Arguments mstep {D}.
Arguments good {D}.
Arguments clean {D}.

(* ---- v5: a partialDoc is an ordered key list and a Go map ---- *)
Lemma prune_node_raw v : prune_node (NRaw v) = prune_t v.
Proof. reflexivity. Qed.

Definition doc5 : Type := list bytes * list (bytes * node).
Definition dset5 k v (d : doc5) : doc5 := doc_set (fst d) (snd d) k v.
Definition ddel5 k (d : doc5) : doc5 :=
  if amem k (snd d) then (if kmem k (fst d) then kdel1 k (fst d) else fst d, adel k (snd d)) else d.
Definition mem5 (d : doc5) : list (bytes * ojson) := abs_members (fst d) (snd d).
Definition ok5 (d : doc5) : Prop := keys_agree (fst d) (snd d).
Definition wrap5 (d : doc5) : node := NDoc (fst d) (snd d).

(* merge_n's inner loop, with rec for the recursive call.  It stands under a name because every step
   of a proof about the anonymous loop inside merge_n makes the kernel check that loop again. *)
Definition mloop5 (rec : node -> tjson -> node) (mm : bool) :=
  fix go (es : list (bytes * tjson)) (keys : list bytes) (obj : list (bytes * node)) :=
  match es with
  | [] => (keys, obj)
  | (k, v) :: r =>
      match v with
      | TNull =>
          if mm then go r (if kmem k keys then keys else keys ++ [k]) (aset k NNil obj)
          else if amem k obj
               then go r (if kmem k keys then kdel1 k keys else keys) (adel k obj)
               else go r keys obj
      | _ =>
          match aget k obj with
          | None | Some NNil =>
              let v' := if mm then NRaw v else prune_node (NRaw v) in
              let (k', o') := doc_set keys obj k v' in go r k' o'
          | Some c =>
              let (k', o') := doc_set keys obj k (rec c v) in go r k' o'
          end
      end
  end.

Lemma mloop5_fold rec mm es : forall keys obj,
  mloop5 rec mm es keys obj = fold_left (mstep snd dset5 ddel5 prune_t rec mm) es (keys, obj).
Proof.
  induction es as [|[k v] es IH]; intros keys obj; [reflexivity|]. cbn [mloop5 fold_left mstep snd].
  destruct v; try (destruct mm; [|unfold ddel5; cbn [fst snd]; destruct (amem k obj)]; apply IH);
    destruct (aget k obj) as [[]|]; apply IH.
Qed.

Lemma merge_n_fold f mm cur p :
  merge_n (S f) mm cur p =
  match into_doc cur with
  | None => prune_t p
  | Some d =>
      match p with
      | TObj pms => wrap5 (fold_left (mstep snd dset5 ddel5 prune_t (merge_n f mm) mm) (patch_entries pms) d)
      | _ => NRaw p
      end
  end.
Proof.
  change (merge_n (S f) mm cur p) with
    (match into_doc cur with
     | None => prune_t p
     | Some (keys, obj) =>
         match p with
         | TObj pms => let (keys', obj') := mloop5 (merge_n f mm) mm (patch_entries pms) keys obj in NDoc keys' obj'
         | _ => NRaw p
         end
     end).
  destruct (into_doc cur) as [[keys obj]|]; [|reflexivity]. destruct p; try reflexivity. rewrite mloop5_fold.
  destruct (fold_left _ _ _). reflexivity.
Qed.

Lemma objof_del5 k d : snd (ddel5 k d) = adel k (snd d).
Proof.
  unfold ddel5. destruct (amem k (snd d)) eqn:M; [reflexivity|].
  symmetry. apply adel_notin. rewrite <- amem_In, M. discriminate.
Qed.

Lemma mem_del5 k d : ok5 d -> mem5 (ddel5 k d) = adel k (mem5 d) /\ ok5 (ddel5 k d).
Proof.
  destruct d as [keys obj]. unfold ok5, mem5, ddel5. cbn [fst snd]. intro Ag.
  rewrite (kmem_agree keys obj k Ag). destruct (amem k obj) eqn:M; [apply abs_del, Ag|].
  split; [|exact Ag]. symmetry. apply adel_notin. cbn [fst snd]. rewrite <- amem_In, (amem_abs_members keys obj k Ag), M. discriminate.
Qed.

Lemma into_doc_spec cur : nwf cur ->
  match into_doc cur with
  | Some d => aval cur = OObj (mem5 d) /\ good snd nwf ok5 d
  | None => is_obj (aval cur) = false
  end.
Proof.
  intro W. pose proof (into_doc_view cur W) as V. destruct (into_doc cur); [exact V|].
  destruct (aval cur); try reflexivity. destruct (V ms eq_refl).
Qed.

Lemma wrap5_ok d : good snd nwf ok5 d -> aval (wrap5 d) = OObj (mem5 d) /\ nwf (wrap5 d).
Proof. intro G. split; [apply aval_doc | apply nwf_doc, G]. Qed.

(* C02: merge(cur, patch) computes RFC 7396's MergePatch on the values, at every depth *)
Theorem merge_n_spec : forall fuel p cur,
  (tsize p < fuel)%nat -> tnodup p = true -> nwf cur ->
  aval (merge_n fuel false cur p) = merge_patch (aval cur) (den p) /\ nwf (merge_n fuel false cur p).
Proof.
  apply (gmerge_spec doc5 snd dset5 ddel5 prune_t aval nwf mem5 ok5) with (into := into_doc) (wrap := wrap5);
    auto using objof_del5, mem_del5, nwf_raw, prune_t_spec, merge_n_fold, prune_t_nonobj, wrap5_ok.
  - intros k d. apply aget_abs_members_agree.
  - intros k v d. apply abs_doc_set.
  - exact into_doc_spec.
Qed.

(* ---- the mergeMerge mode (MergeMergePatches) refines mm, for compatible patches ---- *)
Lemma into_doc_clean cur d : nwf cur -> nclean cur = true -> into_doc cur = Some d -> clean snd d.
Proof.
  intros W C. destruct cur as [|t|ks ob|ns]; simpl; try discriminate.
  - destruct t; try discriminate. apply nwf_raw in W. apply tnodup_obj in W as [N _].
    rewrite doc_of_nodup by exact N. intro H; inversion H; subst.
    unfold clean, nodes_clean. cbn [snd]. rewrite Forall_map. apply Forall_forall. intros; apply nclean_child.
  - intro H; inversion H; subst. apply (proj1 (nclean_doc ks ob)). exact C.
Qed.

Lemma aval_clean_nonnull c : nclean c = true -> c <> NNil -> aval c <> ONull.
Proof.
  destruct c as [|t|ks ob|ns]; simpl; try congruence; try discriminate.
  destruct t; simpl; try discriminate; congruence.
Qed.

Theorem merge_n_mm_spec : forall fuel p cur,
  (tsize p < fuel)%nat -> tnodup p = true -> p <> TNull -> nwf cur -> nclean cur = true ->
  (is_obj (den p) = true -> compatible (aval cur) (den p) = true) ->
  aval (merge_n fuel true cur p) = mm (aval cur) (den p) /\ nwf (merge_n fuel true cur p) /\
  nclean (merge_n fuel true cur p) = true.
Proof.
  apply (gmerge_mm_spec doc5 snd dset5 ddel5 prune_t aval nwf mem5 ok5) with (into := into_doc) (wrap := wrap5);
    eauto using nwf_raw, aval_clean_nonnull, merge_n_fold, prune_t_nonobj, wrap5_ok, into_doc_clean.
  - intros k d. apply aget_abs_members_agree.
  - intros k v d. apply abs_doc_set.
  - exact I.
  - exact into_doc_spec.
  - intros d C. apply nclean_doc, C.
Qed.

(* ---- the exported functions, on bytes ---- *)
Definition scalar_text (t : tjson) : bool :=
  match t with TObj _ | TArr _ => false | _ => true end.

Lemma render_raw esc t : render esc (NRaw t) = t.
Proof. reflexivity. Qed.

Definition merge_node (mm : bool) (td tp : tjson) : node :=
  match tp with
  | TObj pms =>
      match td with
      | TObj _ => merge_n (S (tsize tp)) mm (NRaw td) tp
      | _ => if mm then (let (k, o) := doc_of pms in NDoc k o) else prune_node (NRaw tp)
      end
  | _ => NRaw tp
  end.

Lemma api_merge_node mm doc patch td tp :
  parse doc = Some td -> parse patch = Some tp -> td <> TNull -> scalar_text tp = false ->
  api_merge mm doc patch = MOut (marshal_node (merge_node mm td tp)).
Proof.
  intros Pd Pp NN Sc. unfold api_merge. rewrite Pd, Pp.
  destruct tp; try discriminate Sc; destruct td; try congruence; try reflexivity; destruct mm; reflexivity.
Qed.

Lemma api_merge_scalar mm doc patch td tp :
  parse doc = Some td -> parse patch = Some tp -> td <> TNull -> scalar_text tp = true ->
  api_merge mm doc patch = MOut patch.
Proof.
  intros Pd Pp NN Sc. unfold api_merge. rewrite Pd, Pp.
  destruct tp; try discriminate Sc; destruct td; try congruence; reflexivity.
Qed.

(* MergePatch's own test whether the document is an object adds nothing: merge makes it again (cur is
   no partialDoc), with the same outcome *)
Lemma merge_node_merge td pms :
  merge_node false td (TObj pms) = merge_n (S (tsize (TObj pms))) false (NRaw td) (TObj pms).
Proof. destruct td; reflexivity. Qed.

Lemma merge_node_spec td tp :
  td <> TNull -> tnodup td = true -> tnodup tp = true -> scalar_text tp = false ->
  nwf (merge_node false td tp) /\ aval (merge_node false td tp) = merge_patch (den td) (den tp).
Proof.
  intros _ Td Tp Sc. destruct tp; try discriminate Sc; [split; [exact Tp | reflexivity]|].
  rewrite merge_node_merge. destruct (merge_n_spec (S (tsize (TObj ms))) (TObj ms) (NRaw td)) as [S1 S2]; [lia | exact Tp | exact Td|].
  split; [exact S2 | exact S1].
Qed.

Lemma merge_node_mm_spec ms1 t2 :
  tnodup (TObj ms1) = true -> tnodup t2 = true -> compatible (den (TObj ms1)) (den t2) = true -> scalar_text t2 = false ->
  nwf (merge_node true (TObj ms1) t2) /\ aval (merge_node true (TObj ms1) t2) = mm (den (TObj ms1)) (den t2).
Proof.
  intros T1 T2 C Sc. unfold merge_node. destruct t2; try discriminate Sc.
  - split; [exact T2 | reflexivity].
  - assert (G : aval (merge_n (S (tsize (TObj ms))) true (NRaw (TObj ms1)) (TObj ms)) = mm (aval (NRaw (TObj ms1))) (den (TObj ms)) /\
                nwf (merge_n (S (tsize (TObj ms))) true (NRaw (TObj ms1)) (TObj ms)) /\
                nclean (merge_n (S (tsize (TObj ms))) true (NRaw (TObj ms1)) (TObj ms)) = true)
      by (apply merge_n_mm_spec; auto; try lia; try discriminate).
    destruct G as [G1 [G2 _]]. split; [exact G2 | exact G1].
Qed.

(* MergePatch: the result is a scalar/null patch verbatim, or the encoding of a node whose value
   is RFC 7396's MergePatch(document, patch) — ordered as the reference orders it *)
Theorem api_merge_spec doc patch td tp :
  parse doc = Some td -> parse patch = Some tp -> td <> TNull -> tnodup td = true -> tnodup tp = true ->
  (scalar_text tp = true /\ api_merge false doc patch = MOut patch) \/
  (scalar_text tp = false /\ exists n, api_merge false doc patch = MOut (marshal_node n) /\ nwf n /\
                                       aval n = merge_patch (den td) (den tp)).
Proof.
  intros Pd Pp NNd Td Tp. destruct (scalar_text tp) eqn:Sc; [left | right]; (split; [reflexivity|]).
  - apply (api_merge_scalar false doc patch td tp); assumption.
  - exists (merge_node false td tp). split; [apply api_merge_node; assumption | apply merge_node_spec; assumption].
Qed.

(* MergeMergePatches on an object P1: a scalar/null P2 verbatim, or the encoding of a node whose
   value is mm P1 P2 — the combined patch of the composition law *)
Theorem api_mergemerge_spec p1 p2 ms1 t2 :
  parse p1 = Some (TObj ms1) -> parse p2 = Some t2 -> tnodup (TObj ms1) = true -> tnodup t2 = true ->
  compatible (den (TObj ms1)) (den t2) = true ->
  (scalar_text t2 = true /\ api_merge true p1 p2 = MOut p2) \/
  (scalar_text t2 = false /\ exists n, api_merge true p1 p2 = MOut (marshal_node n) /\ nwf n /\
                                       aval n = mm (den (TObj ms1)) (den t2)).
Proof.
  intros P1 P2 T1 T2 C. destruct (scalar_text t2) eqn:Sc; [left | right]; (split; [reflexivity|]).
  - apply (api_merge_scalar true p1 p2 (TObj ms1) t2); auto; discriminate.
  - exists (merge_node true (TObj ms1) t2).
    split; [apply api_merge_node; auto; discriminate | apply merge_node_mm_spec; assumption].
Qed.
