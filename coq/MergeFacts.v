(* MergeFacts.v — laws of the RFC 7396 reference (Rfc7396.v): lookup characterisations of
   merge_patch / mm / diff on objects without duplicate names, preservation of "no duplicate
   names", the composition law (C07) and the round trip of diff (C03). *)
From Coq Require Import Lia.
From JP Require Import Bytes Json JsonFacts Rfc7396.

Definition members_of (j : ojson) : list (bytes * ojson) := match j with OObj ms => ms | _ => [] end.
Definition or_null (o : option ojson) : ojson := match o with Some c => c | None => ONull end.
Definition is_null (j : ojson) : bool := match j with ONull => true | _ => false end.

Fixpoint merge_members (pms tms : list (bytes * ojson)) : list (bytes * ojson) :=
  match pms with
  | [] => tms
  | (k, v) :: rest =>
      match v with
      | ONull => merge_members rest (adel k tms)
      | _ => merge_members rest (aset k (merge_patch (or_null (aget k tms)) v) tms)
      end
  end.

Lemma merge_patch_obj t pms : merge_patch t (OObj pms) = OObj (merge_members pms (members_of t)).
Proof. reflexivity. Qed.

Lemma merge_patch_nonobj t p : (forall ms, p <> OObj ms) -> merge_patch t p = p.
Proof. destruct p; simpl; auto. intro H. exfalso. eapply H; eauto. Qed.

Definition merge_lookup (p t : option ojson) : option ojson :=
  match p with
  | None => t
  | Some ONull => None
  | Some v => Some (merge_patch (or_null t) v)
  end.

Lemma merge_members_kfold pms : forall tms,
  merge_members pms tms = kfold (fun v => merge_lookup (Some v)) pms tms.
Proof. induction pms as [|[k v] pms IH]; intro tms; [reflexivity|]. destruct v; apply IH. Qed.

Lemma merge_members_lookup k pms tms :
  NoDup (map fst pms) ->
  aget k (merge_members pms tms) = merge_lookup (aget k pms) (aget k tms).
Proof. intro N. rewrite merge_members_kfold, kfold_lookup by exact N. destruct (aget k pms); reflexivity. Qed.

Lemma merge_members_nodup pms tms : NoDup (map fst tms) -> NoDup (map fst (merge_members pms tms)).
Proof. rewrite merge_members_kfold. apply kfold_nodup. Qed.

Lemma merge_lookup_nonnull v t : v <> ONull -> merge_lookup (Some v) t = Some (merge_patch (or_null t) v).
Proof. destruct v; simpl; congruence. Qed.

Lemma null_dec (j : ojson) : {j = ONull} + {j <> ONull}.
Proof. destruct j; auto; right; discriminate. Qed.

Lemma onodup_members j : onodup j = true ->
  NoDup (map fst (members_of j)) /\ Forall (fun kv => onodup (snd kv) = true) (members_of j).
Proof.
  destruct j; simpl; intro H; try (split; constructor).
  apply onodup_obj in H. exact H.
Qed.

Lemma onodup_or_null ms k :
  Forall (fun kv => onodup (snd kv) = true) ms -> onodup (or_null (aget k ms)) = true.
Proof. intro H. destruct (aget k ms) eqn:E; [exact (Forall_aget _ _ _ _ H E) | reflexivity]. Qed.

Lemma merge_patch_nodup p : forall t, onodup t = true -> onodup p = true -> onodup (merge_patch t p) = true.
Proof.
  induction p using ojson_rect'; intros t Nt Np; try exact Np.
  rewrite merge_patch_obj. apply onodup_obj in Np as [Np1 Np2]. apply onodup_members in Nt as [Nt1 Nt2].
  apply onodup_obj. split; [apply merge_members_nodup, Nt1|].
  rewrite merge_members_kfold. apply kfold_Forall; [exact Nt2|]. intros k v o x Hin Ho E.
  destruct (null_dec v) as [->|NN]; [discriminate E|]. rewrite merge_lookup_nonnull in E by exact NN.
  injection E as <-. rewrite Forall_forall in H, Np2. apply (H _ Hin); [|apply (Np2 _ Hin)].
  destruct o; [apply (Ho _ eq_refl) | reflexivity].
Qed.

Fixpoint mm_members (ms2 acc : list (bytes * ojson)) : list (bytes * ojson) :=
  match ms2 with
  | [] => acc
  | (k, v) :: rest =>
      match v with
      | ONull => mm_members rest (aset k ONull acc)
      | _ =>
          match aget k acc with
          | Some ONull | None => mm_members rest (aset k v acc)
          | Some c => mm_members rest (aset k (mm c v) acc)
          end
      end
  end.

Lemma mm_obj ms1 ms2 : mm (OObj ms1) (OObj ms2) = OObj (mm_members ms2 ms1).
Proof. reflexivity. Qed.

Lemma mm_nonobj2 p1 p2 : (forall ms, p2 <> OObj ms) -> mm p1 p2 = p2.
Proof. destruct p2; simpl; auto. intro H. exfalso. eapply H; eauto. Qed.

Lemma mm_nonobj1 p1 ms2 : (forall ms, p1 <> OObj ms) -> mm p1 (OObj ms2) = OObj ms2.
Proof. destruct p1; simpl; auto. intro H. exfalso. eapply H; eauto. Qed.

Definition mm_lookup (v2 v1 : option ojson) : option ojson :=
  match v2 with
  | None => v1
  | Some ONull => Some ONull
  | Some v =>
      match v1 with
      | Some ONull | None => Some v
      | Some c => Some (mm c v)
      end
  end.

Lemma mm_members_kfold ms2 : forall acc,
  mm_members ms2 acc = kfold (fun v => mm_lookup (Some v)) ms2 acc.
Proof.
  induction ms2 as [|[k v] ms2 IH]; intro acc; [reflexivity|].
  destruct v; try apply IH; cbn [mm_members kfold mm_lookup]; destruct (aget k acc) as [[]|]; apply IH.
Qed.

Lemma mm_members_lookup k ms2 acc :
  NoDup (map fst ms2) -> aget k (mm_members ms2 acc) = mm_lookup (aget k ms2) (aget k acc).
Proof. intro N. rewrite mm_members_kfold, kfold_lookup by exact N. destruct (aget k ms2); reflexivity. Qed.

Lemma mm_members_nodup ms2 acc : NoDup (map fst acc) -> NoDup (map fst (mm_members ms2 acc)).
Proof. rewrite mm_members_kfold. apply kfold_nodup. Qed.

Lemma mm_lookup_fresh v v1 : v1 = None \/ v1 = Some ONull -> mm_lookup (Some v) v1 = Some v.
Proof. intros [->| ->]; destruct v; reflexivity. Qed.
Lemma mm_lookup_both v c : v <> ONull -> c <> ONull -> mm_lookup (Some v) (Some c) = Some (mm c v).
Proof. intros H1 H2. destruct v; try congruence; destruct c; simpl; congruence. Qed.

Lemma mm_nodup p2 : forall p1, onodup p1 = true -> onodup p2 = true -> onodup (mm p1 p2) = true.
Proof.
  induction p2 using ojson_rect'; intros p1 N1 N2; try exact N2.
  destruct p1; try exact N2.
  rewrite mm_obj. apply onodup_obj in N2 as [Na Nb]. apply onodup_obj in N1 as [Nc Nd]. apply onodup_obj.
  split; [apply mm_members_nodup, Nc|].
  rewrite mm_members_kfold. apply kfold_Forall; [exact Nd|]. intros k v o x Hin Ho E.
  rewrite Forall_forall in H, Nb. pose proof (Nb _ Hin) as Nv. cbn [snd] in *.
  destruct (null_dec v) as [->|NN]; [injection E as <-; reflexivity|].
  destruct o as [c|]; [|rewrite mm_lookup_fresh in E by auto; injection E as <-; exact Nv].
  destruct (null_dec c) as [->|NC]; [rewrite mm_lookup_fresh in E by auto; injection E as <-; exact Nv|].
  rewrite mm_lookup_both in E by assumption. injection E as <-. apply (H _ Hin); [apply (Ho _ eq_refl) | exact Nv].
Qed.

Lemma mm_nonnull c v : v <> ONull -> mm c v <> ONull.
Proof. destruct v; simpl; try congruence. destruct c; congruence. Qed.

Arguments merge_patch : simpl never.
Arguments mm : simpl never.
Arguments compatible : simpl never.

(* ---- C07: the composition law ---- *)
Definition is_obj (j : ojson) : bool := match j with OObj _ => true | _ => false end.
Lemma is_obj_false j : is_obj j = false -> forall ms, j <> OObj ms.
Proof. destruct j; simpl; congruence. Qed.
Lemma is_obj_true j : is_obj j = true -> exists ms, j = OObj ms.
Proof. destruct j; simpl; try discriminate. eauto. Qed.

Lemma compatible_obj p1 ms2 : compatible p1 (OObj ms2) = true ->
  exists ms1, p1 = OObj ms1 /\
    forall k v c, In (k, v) ms2 -> aget k ms1 = Some c -> is_obj v = true -> compatible c v = true.
Proof.
  destruct p1; simpl; try discriminate. intro H. exists ms. split; auto.
  induction ms2 as [|[k v] ms2 IH]; intros k' v' c Hin Hc Hv; [destruct Hin|].
  apply andb_prop in H as [H1 H2]. destruct Hin as [E|Hin].
  - inversion E; subst. rewrite Hc in H1. apply is_obj_true in Hv as [ms' ->]. exact H1.
  - eapply IH; eauto.
Qed.

Lemma compatible_nonobj p1 p2 : is_obj p2 = false -> compatible p1 p2 = true.
Proof. destruct p2; simpl; auto. discriminate. Qed.

Theorem compose_law p2 : forall d p1,
  onodup d = true -> onodup p1 = true -> onodup p2 = true -> compatible p1 p2 = true ->
  jeq (merge_patch d (mm p1 p2)) (merge_patch (merge_patch d p1) p2) = true.
Proof.
  induction p2 using ojson_rect'; intros d p1 Nd N1 N2 C;
    try (rewrite mm_nonobj2 by (intros; discriminate); rewrite !merge_patch_nonobj by (intros; discriminate);
         apply jeq_refl; exact N2).
  apply compatible_obj in C as [ms1 [-> C]].
  rewrite mm_obj, !merge_patch_obj. simpl members_of at 2.
  pose proof (onodup_members d Nd) as [Nd1 Nd2]. set (dms := members_of d) in *.
  apply onodup_obj in N1 as [N1a N1b]. apply onodup_obj in N2 as [N2a N2b].
  apply jeq_obj_char; [apply merge_members_nodup, Nd1 | do 2 apply merge_members_nodup; exact Nd1 |]. intro k.
  rewrite !merge_members_lookup, mm_members_lookup by auto using mm_members_nodup.
  assert (Ndk : onodup (or_null (aget k dms)) = true) by apply onodup_or_null, Nd2.
  (* what P1 alone does to D at k is the same on both sides *)
  assert (P1only : lookup_rel (fun x y => jeq x y = true)
                     (merge_lookup (aget k ms1) (aget k dms)) (merge_lookup (aget k ms1) (aget k dms))).
  { destruct (aget k ms1) as [c|] eqn:E1.
    - pose proof (Forall_aget _ _ _ _ N1b E1) as Nc. destruct (null_dec c) as [->|NNc]; [exact I|].
      rewrite merge_lookup_nonnull by exact NNc. apply jeq_refl, merge_patch_nodup; assumption.
    - cbn [merge_lookup]. destruct (aget k dms) eqn:Ed; [|exact I]. apply jeq_refl, (Forall_aget _ _ _ _ Nd2 Ed). }
  destruct (aget k ms) as [v2|] eqn:E2; [|exact P1only]. clear P1only.
  pose proof (Forall_aget _ _ _ _ N2b E2) as Nv2. pose proof (Forall_aget _ _ _ _ H E2) as IHv.
  apply aget_In in E2. cbn [snd] in Nv2, IHv.
  destruct (null_dec v2) as [->|NN2]; [exact I|].
  rewrite (merge_lookup_nonnull v2) by exact NN2.
  destruct (aget k ms1) as [c|] eqn:E1;
    [destruct (null_dec c) as [->|NNc]|]; try (rewrite mm_lookup_fresh by auto); try (rewrite mm_lookup_both by auto);
    rewrite !merge_lookup_nonnull by auto using mm_nonnull; cbn [lookup_rel merge_lookup or_null].
  - (* P1 deletes k: P2's value lands on nothing, so it must not be an object *)
    destruct (is_obj v2) eqn:O2; [apply is_obj_true in O2 as [ms0 ->]; discriminate (C _ _ _ E2 E1 eq_refl)|].
    rewrite !merge_patch_nonobj by (apply is_obj_false; exact O2). apply jeq_refl, Nv2.
  - pose proof (Forall_aget _ _ _ _ N1b E1) as Nc. apply IHv; auto.
    destruct (is_obj v2) eqn:O2; [eapply C; eauto | apply compatible_nonobj, O2].
  - apply jeq_refl, merge_patch_nodup; assumption.
Qed.

(* the side condition cannot be dropped: a witness *)
Example compose_law_needs_compat :
  let d := OObj [(B "a", OObj [(B "x", ONum (B "1"))])] in
  let p1 := OObj [(B "a", ONull)] in
  let p2 := OObj [(B "a", OObj [(B "y", ONum (B "2"))])] in
  compatible p1 p2 = false /\
  jeq (merge_patch d (mm p1 p2)) (merge_patch (merge_patch d p1) p2) = false.
Proof. vm_compute. split; reflexivity. Qed.

(* ---- C03: diff ---- *)
Arguments jeq : simpl never.

Fixpoint diff_members (ams bms : list (bytes * ojson)) : list (bytes * ojson) :=
  match bms with
  | [] => []
  | (k, bv) :: rest =>
      match aget k ams with
      | None => (k, bv) :: diff_members ams rest
      | Some av =>
          match av, bv with
          | OObj _, OObj _ =>
              match diff av bv with
              | OObj [] => diff_members ams rest
              | dd => (k, dd) :: diff_members ams rest
              end
          | _, _ => if jeq av bv then diff_members ams rest else (k, bv) :: diff_members ams rest
          end
      end
  end.

Definition diff_dels (ams bms : list (bytes * ojson)) : list (bytes * ojson) :=
  map (fun kv => (fst kv, ONull)) (filter (fun kv => negb (amem (fst kv) bms)) ams).

Lemma diff_obj ams bms : diff (OObj ams) (OObj bms) = OObj (diff_members ams bms ++ diff_dels ams bms).
Proof.
  (* the inner loop of diff is diff_members ams: the same body, so no case of it need be looked at *)
  unfold diff_dels. cbn [diff]. do 2 f_equal.
  induction bms as [|[k bv] bms IH]; [reflexivity|]. cbn [diff_members]. now rewrite IH.
Qed.

Lemma diff_nonobj a b : is_obj a && is_obj b = false -> diff a b = b.
Proof. destruct a, b; simpl; auto; discriminate. Qed.

Arguments diff : simpl never.

(* what the difference says about one name *)
Definition diff_entry (av : option ojson) (bv : ojson) : option ojson :=
  match av with
  | None => Some bv
  | Some a =>
      if is_obj a && is_obj bv then
        match diff a bv with OObj [] => None | dd => Some dd end
      else if jeq a bv then None else Some bv
  end.

Lemma diff_members_cons ams k bv bms :
  diff_members ams ((k, bv) :: bms) =
  match diff_entry (aget k ams) bv with
  | Some x => (k, x) :: diff_members ams bms
  | None => diff_members ams bms
  end.
Proof.
  cbn [diff_members]. unfold diff_entry. destruct (aget k ams) as [av|]; [|reflexivity].
  destruct av, bv; cbn [is_obj andb]; try (destruct (jeq _ _); reflexivity).
  destruct (diff (OObj ms) (OObj ms0)) as [| | | | |[|]]; reflexivity.
Qed.

Lemma diff_entry_Some o bv x :
  diff_entry o bv = Some x ->
  x = bv \/ exists av, o = Some av /\ is_obj av = true /\ is_obj bv = true /\ x = diff av bv.
Proof.
  unfold diff_entry. destruct o as [av|]; [|intro E; injection E as <-; now left].
  destruct (is_obj av && is_obj bv) eqn:OO.
  - apply andb_prop in OO as [O1 O2]. intro E. right. exists av. repeat split; auto.
    destruct (diff av bv) as [| | | | |[|]]; congruence.
  - destruct (jeq av bv); intro E; [discriminate | injection E as <-; now left].
Qed.

Lemma diff_members_keys ams bms k : In k (map fst (diff_members ams bms)) -> In k (map fst bms).
Proof.
  induction bms as [|[k' bv] bms IH]; [exact (fun H => H)|]. rewrite diff_members_cons.
  destruct (diff_entry (aget k' ams) bv); cbn [map fst In]; tauto.
Qed.

Lemma diff_members_nodup ams bms : NoDup (map fst bms) -> NoDup (map fst (diff_members ams bms)).
Proof.
  induction bms as [|[k' bv] bms IH]; intro N; [constructor|]. inversion N; subst. rewrite diff_members_cons.
  destruct (diff_entry (aget k' ams) bv); auto. constructor; auto. intro Hin. apply diff_members_keys in Hin. auto.
Qed.

Lemma diff_members_lookup ams bms k :
  NoDup (map fst bms) ->
  aget k (diff_members ams bms) =
  match aget k bms with Some bv => diff_entry (aget k ams) bv | None => None end.
Proof.
  induction bms as [|[k' bv] bms IH]; intro N; [reflexivity|]. inversion N as [|? ? Hk N']; subst.
  rewrite diff_members_cons. cbn [aget]. destruct (bseq k k') eqn:E.
  - apply bseq_eq in E. subst k'. destruct (diff_entry (aget k ams) bv); cbn [aget]; [now rewrite bseq_refl|].
    apply aget_None_notin. intro Hin. apply Hk. eapply diff_members_keys, Hin.
  - rewrite <- (IH N'). destruct (diff_entry (aget k' ams) bv); cbn [aget]; [now rewrite E | reflexivity].
Qed.

Lemma diff_dels_lookup ams bms k :
  aget k (diff_dels ams bms) =
  match aget k ams with Some _ => if amem k bms then None else Some ONull | None => None end.
Proof.
  unfold diff_dels. rewrite (aget_map_snd (fun _ => ONull)), (aget_filter_key (fun k => negb (amem k bms))).
  destruct (amem k bms), (aget k ams); reflexivity.
Qed.

Lemma diff_dels_keys ams bms k : In k (map fst (diff_dels ams bms)) -> In k (map fst ams) /\ ~ In k (map fst bms).
Proof.
  rewrite In_keys_aget, diff_dels_lookup, (In_keys_aget k ams), <- amem_In.
  destruct (aget k ams), (amem k bms); intro H; split; congruence.
Qed.

Lemma diff_dels_nodup ams bms : NoDup (map fst ams) -> NoDup (map fst (diff_dels ams bms)).
Proof. intro N. unfold diff_dels. rewrite map_map. apply (NoDup_keys_filter _ ams N). Qed.

Lemma diff_patch_nodup ams bms :
  NoDup (map fst ams) -> NoDup (map fst bms) -> NoDup (map fst (diff_members ams bms ++ diff_dels ams bms)).
Proof.
  intros Na Nb. rewrite map_app. apply NoDup_app_intro.
  - apply diff_members_nodup; auto.
  - apply diff_dels_nodup; auto.
  - intros k H1 H2. apply diff_members_keys in H1. apply diff_dels_keys in H2 as [_ H2]. auto.
Qed.

Lemma no_null_member_obj ms :
  no_null_member (OObj ms) = true <->
  Forall (fun kv => snd kv <> ONull /\ no_null_member (snd kv) = true) ms.
Proof.
  cbn [no_null_member]. rewrite forallb_forall, Forall_forall. split; intros H kv Hin; specialize (H kv Hin).
  - apply andb_prop in H as [H1 H2]. split; auto. intro E. rewrite E in H1. discriminate.
  - destruct H as [H1 H2]. rewrite H2. destruct (snd kv); try reflexivity. congruence.
Qed.

Lemma merge_fresh v : forall t, onodup v = true -> no_null_member v = true -> is_obj t = false ->
  jeq (merge_patch t v) v = true.
Proof.
  induction v using ojson_rect'; intros t N NN T;
    try (rewrite merge_patch_nonobj by (intros; discriminate); apply jeq_refl; exact N).
  rewrite merge_patch_obj. replace (members_of t) with (@nil (bytes * ojson)) by (destruct t; simpl in *; auto; discriminate).
  apply onodup_obj in N as [N1 N2]. apply no_null_member_obj in NN.
  apply jeq_obj_char; auto. { apply merge_members_nodup. constructor. }
  intro k. rewrite merge_members_lookup by auto. simpl (aget k []).
  destruct (aget k ms) as [v'|] eqn:E; [|exact I].
  apply aget_In in E. rewrite Forall_forall in H, N2, NN. destruct (NN _ E) as [Q1 Q2]. simpl in Q1, Q2.
  rewrite merge_lookup_nonnull by auto. simpl. apply (H _ E); auto; apply (N2 _ E).
Qed.

Lemma merge_empty_patch ams : merge_patch (OObj ams) (OObj []) = OObj ams.
Proof. reflexivity. Qed.

Lemma diff_is_obj ams bms : exists ms, diff (OObj ams) (OObj bms) = OObj ms.
Proof. rewrite diff_obj. eauto. Qed.

Lemma diff_patch_lookup ams bms k :
  NoDup (map fst bms) ->
  aget k (diff_members ams bms ++ diff_dels ams bms) =
  match aget k bms with
  | Some bv => diff_entry (aget k ams) bv
  | None => match aget k ams with Some _ => Some ONull | None => None end
  end.
Proof.
  intro Nb. rewrite aget_app, diff_members_lookup, diff_dels_lookup by auto.
  unfold amem. destruct (aget k bms) as [bv|].
  - destruct (diff_entry (aget k ams) bv); auto. destruct (aget k ams); auto.
  - reflexivity.
Qed.

(* C03: applying the difference to A gives B *)
Theorem diff_roundtrip b : forall a,
  onodup a = true -> onodup b = true -> no_null_member b = true -> is_obj a = true -> is_obj b = true ->
  jeq (merge_patch a (diff a b)) b = true.
Proof.
  induction b using ojson_rect'; intros a Na Nb NN Oa Ob; try discriminate.
  apply is_obj_true in Oa as [ams ->]. rename ms into bms.
  rewrite diff_obj, merge_patch_obj. simpl members_of.
  apply onodup_obj in Na as [Na1 Na2]. apply onodup_obj in Nb as [Nb1 Nb2]. apply no_null_member_obj in NN.
  pose proof (diff_patch_nodup ams bms Na1 Nb1) as NP.
  apply jeq_obj_char; auto. { apply merge_members_nodup; auto. }
  intro k. rewrite merge_members_lookup by auto. rewrite diff_patch_lookup by auto.
  rewrite Forall_forall in H, Na2, Nb2, NN.
  destruct (aget k bms) as [bv|] eqn:Eb.
  - apply aget_In in Eb. destruct (NN _ Eb) as [Q1 Q2]. pose proof (Nb2 _ Eb) as Q3. simpl in Q1, Q2, Q3.
    unfold diff_entry. destruct (aget k ams) as [av|] eqn:Ea.
    + apply aget_In in Ea. pose proof (Na2 _ Ea) as Q4. simpl in Q4.
      destruct (is_obj av && is_obj bv) eqn:OO.
      * apply andb_prop in OO as [O1 O2].
        pose proof (H _ Eb av Q4 Q3 Q2 O1 O2) as IH. simpl in IH.
        apply is_obj_true in O1 as [ams' ->]. apply is_obj_true in O2 as [bms' ->].
        destruct (diff_is_obj ams' bms') as [dm Ed]. rewrite Ed in *.
        destruct dm as [|e dm].
        -- simpl. rewrite merge_empty_patch in IH. exact IH.
        -- rewrite merge_lookup_nonnull by discriminate. exact IH.
      * destruct (jeq av bv) eqn:J; [exact J|].
        rewrite merge_lookup_nonnull by auto. simpl.
        destruct (is_obj bv) eqn:O2.
        -- rewrite andb_true_r in OO. apply merge_fresh; auto.
        -- rewrite merge_patch_nonobj by (apply is_obj_false; auto). apply jeq_refl; auto.
    + rewrite merge_lookup_nonnull by auto. simpl. apply merge_fresh; auto.
  - destruct (aget k ams); exact I.
Qed.

Lemma all_none_nil {A} (l : list (bytes * A)) : (forall k, aget k l = None) -> l = [].
Proof. destruct l as [|[k v] l]; auto. intro H. specialize (H k). simpl in H. rewrite bseq_refl in H. discriminate. Qed.

(* the difference says nothing about a name exactly when A and B agree under it *)
Lemma diff_entry_None_if av bv :
  (is_obj av = true -> is_obj bv = true -> (diff av bv = OObj [] <-> jeq av bv = true)) ->
  (diff_entry (Some av) bv = None <-> jeq av bv = true).
Proof.
  intro IH. unfold diff_entry. destruct (is_obj av && is_obj bv) eqn:OO.
  - apply andb_prop in OO as [O1 O2]. specialize (IH O1 O2).
    destruct (diff av bv) as [| | | | |[|]]; split; intro G; try discriminate G; try reflexivity;
      try (apply IH in G; discriminate G). apply IH. reflexivity.
  - destruct (jeq av bv); split; congruence.
Qed.

(* C03: minimality.  The patch is {} exactly when A and B are equal *)
Theorem diff_empty_iff b : forall a,
  onodup a = true -> onodup b = true -> is_obj a = true -> is_obj b = true ->
  (diff a b = OObj [] <-> jeq a b = true).
Proof.
  induction b using ojson_rect'; intros a Na Nb Oa Ob; try discriminate.
  apply is_obj_true in Oa as [ams ->]. rename ms into bms.
  apply onodup_obj in Na as [Na1 Na2]. apply onodup_obj in Nb as [Nb1 Nb2].
  rewrite diff_obj. rewrite jeq_obj_char by auto.
  assert (Step : forall k, aget k (diff_members ams bms ++ diff_dels ams bms) = None <->
                           lookup_rel (fun x y => jeq x y = true) (aget k ams) (aget k bms)).
  { intro k. rewrite diff_patch_lookup by auto.
    destruct (aget k bms) as [bv|] eqn:Eb, (aget k ams) as [av|] eqn:Ea; cbn [lookup_rel diff_entry];
      try (split; [discriminate | contradiction]); [|tauto].
    apply diff_entry_None_if. apply (Forall_aget _ _ _ _ H Eb).
    - apply (Forall_aget _ _ _ _ Na2 Ea).
    - apply (Forall_aget _ _ _ _ Nb2 Eb). }
  split.
  - intros E k. apply Step. inversion E as [E']. rewrite E'. reflexivity.
  - intro G. f_equal. apply all_none_nil. intro k. apply Step. apply G.
Qed.

Lemma diff_entry_None av bv :
  onodup av = true -> onodup bv = true -> (diff_entry (Some av) bv = None <-> jeq av bv = true).
Proof. intros Na Nb. apply diff_entry_None_if, diff_empty_iff; assumption. Qed.

(* every member the patch mentions differs between A and B; removed members are null; the
   values it carries are B's own values, verbatim (so number literals are unchanged), or the
   difference of two objects *)
Theorem diff_mentions ams bms k v :
  NoDup (map fst ams) -> NoDup (map fst bms) ->
  Forall (fun kv => onodup (snd kv) = true) ams -> Forall (fun kv => onodup (snd kv) = true) bms ->
  aget k (members_of (diff (OObj ams) (OObj bms))) = Some v ->
  ~ lookup_rel (fun x y => jeq x y = true) (aget k ams) (aget k bms) /\
  (   (aget k bms = None /\ v = ONull /\ aget k ams <> None)
   \/ (aget k bms = Some v)
   \/ (exists av bv, aget k ams = Some av /\ aget k bms = Some bv /\ is_obj av = true /\ is_obj bv = true /\
                     v = diff av bv)).
Proof.
  intros Na1 Nb1 Na2 Nb2. rewrite diff_obj. simpl members_of. rewrite diff_patch_lookup by auto.
  destruct (aget k bms) as [bv|] eqn:Eb, (aget k ams) as [av|] eqn:Ea; cbn [lookup_rel]; intro G;
    try discriminate G.
  - split.
    + intro J. apply diff_entry_None in J; [congruence | apply (Forall_aget _ _ _ _ Na2 Ea) | apply (Forall_aget _ _ _ _ Nb2 Eb)].
    + apply diff_entry_Some in G as [->|[av' [E [O1 [O2 ->]]]]]; [right; left; reflexivity|].
      injection E as <-. right; right. exists av, bv. auto.
  - injection G as <-. split; auto.
  - injection G as <-. split; auto. left. repeat split; congruence.
Qed.
