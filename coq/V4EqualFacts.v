(* V4EqualFacts.v — the legacy Equal (ImplV4.equal4 / node_equal4 / api_equal4) against structural
   equality (Json.jeq) of the denoted values.  The legacy lazyNode.equal compares scalars by their
   compacted bytes, so two strings are equal only if they are SPELLED alike: the naive statement
   (equal4 = jeq on decoded values) is false (counterexamples below); it is true for texts whose
   string values are spelled exactly as they decode (no escapes, valid UTF-8).  Without that
   hypothesis one direction still holds: legacy-equal nodes denote jeq-equal values. *)
From Coq Require Import Lia.
From JP Require Import Bytes Json Text Strings Den ImplV5 ImplMerge ImplV4 DecodeFacts JsonFacts MergeFacts
  Abs ImplMergeFacts EqualFacts ParseFacts Codec V4MergeFacts.

(* ---- counterexamples to the naive statement ---- *)
(* an escaped and an unescaped spelling of the same string *)
Example equal4_naive_false_strings :
  node_equal4 (NRaw (TStr (B "\/"))) (NRaw (TStr (B "/"))) = false /\
  jeq (aval4 (NRaw (TStr (B "\/")))) (aval4 (NRaw (TStr (B "/")))) = true /\
  api_equal4 (B "{""a"":""\/""}") (B "{""a"":""/""}") = Some false.
Proof. vm_compute. repeat split; reflexivity. Qed.

(* a nil node against a node with a nil raw message, or against the raw text null: isNull holds of all
   three (the package says true, see V4NullWalk.v) *)
Example equal4_null_kinds :
  node_equal4 NNil (NRaw TNull) = true /\ node_equal4 raw_null4 (NRaw TNull) = true /\
  node_equal4 nil_doc4 (NRaw TNull) = false /\ node_equal4 nil_doc4 (NRaw (TObj [])) = true /\
  jeq (aval4 NNil) (aval4 (NRaw TNull)) = true.
Proof. vm_compute. repeat split; reflexivity. Qed.

(* member NAMES are compared decoded: escapes in names are harmless *)
Example equal4_names_decoded : api_equal4 (B "{""\/"":1}") (B "{""/"":1}") = Some true.
Proof. vm_compute. reflexivity. Qed.

(* ---- strings spelled exactly as they decode ---- *)
Fixpoint tplain (t : tjson) : bool :=
  match t with
  | TStr b => bseq (unquote b) b
  | TArr l => forallb tplain l
  | TObj ms => forallb (fun kv => tplain (snd kv)) ms
  | _ => true
  end.

Fixpoint nplain (n : node) : Prop :=
  match n with
  | NNil => True
  | NRaw t => tplain t = true
  | NDoc _ obj => (fix all (m : list (bytes * node)) : Prop := match m with [] => True | kv :: r => nplain (snd kv) /\ all r end) obj
  | NAry ns => (fix all (l : list node) : Prop := match l with [] => True | x :: r => nplain x /\ all r end) ns
  end.

Lemma nplain_doc keys obj : nplain (NDoc keys obj) <-> Forall (fun kv => nplain (snd kv)) obj.
Proof. exact (all_fix_Forall (fun kv => nplain (snd kv)) obj). Qed.

Lemma nplain_ary ns : nplain (NAry ns) <-> Forall nplain ns.
Proof. exact (all_fix_Forall nplain ns). Qed.
Arguments nplain : simpl never.

Lemma nplain_child t : tplain t = true -> nplain (child t).
Proof. destruct t; intro H; try exact I; exact H. Qed.

(* a sufficient syntactic condition: ASCII bytes other than the backslash *)
Definition plain_byte (c : byte) : bool := negb (Byte.eqb c x5c) && (bn c <? 128).

Lemma unquote_nil : unquote [] = [].
Proof. reflexivity. Qed.

Lemma unquote_ascii_plain b : forallb plain_byte b = true -> unquote b = b.
Proof.
  induction b as [|c r IH]; intro H; [reflexivity|].
  simpl in H. apply andb_prop in H as [Hc Hr]. unfold plain_byte in Hc. apply andb_prop in Hc as [H1 H2].
  rewrite unquote_plain; [f_equal; auto | | exact H2].
  destruct (Byte.eqb c x5c); [discriminate | reflexivity].
Qed.

(* ---- everything the comparison needs of a node ---- *)
(* pl = true: string values are moreover spelled as they decode (needed for completeness only) *)
Definition goodp (pl : bool) (n : node) : Prop :=
  nwf4 n /\ nlit n /\ (pl = true -> nplain n) /\ nclean n = true.
Notation good4 := (goodp true).
Notation good4w := (goodp false).

Lemma goodp_weaken pl n : goodp pl n -> good4w n.
Proof. intros [W [L [_ C]]]. split; [exact W|]. split; [exact L|]. split; [discriminate | exact C]. Qed.

(* what the proofs below use of it: nothing is asked of the nil raw message (nclean) *)
Definition cmp_ok (pl : bool) (n : node) : Prop := nwf4 n /\ nlit n /\ (pl = true -> nplain n).

Lemma goodp_cmp_ok pl n : goodp pl n -> cmp_ok pl n.
Proof. intros [W [L [P _]]]. split; [exact W|]. split; [exact L | exact P]. Qed.

(* ---- the value with string VALUES as spelled (member names decoded): what the legacy Equal compares ---- *)
Fixpoint sden (t : tjson) : ojson :=
  match t with
  | TStr b => OStr b
  | TArr l => OArr (map sden l)
  | TObj ms => OObj (map (fun kv => (unquote (fst kv), sden (snd kv))) ms)
  | _ => den t
  end.

Fixpoint aval4s (n : node) : ojson :=
  match n with
  | NNil => ONull
  | NRaw t => sden t
  | NDoc _ obj => OObj (map (fun kv => (fst kv, aval4s (snd kv))) obj)
  | NAry ns => OArr (map aval4s ns)
  end.

(* decoding the strings of a value *)
Fixpoint ustr (j : ojson) : ojson :=
  match j with
  | OStr s => OStr (unquote s)
  | OArr l => OArr (map ustr l)
  | OObj ms => OObj (map (fun kv => (fst kv, ustr (snd kv))) ms)
  | _ => j
  end.

Lemma ustr_sden t : tnodup t = true -> ustr (sden t) = den t.
Proof.
  induction t using tjson_rect'; intro T; try reflexivity.
  - apply tnodup_arr in T. cbn [sden ustr den]. f_equal. rewrite map_map. apply map_ext_in.
    rewrite Forall_forall in *. auto.
  - rewrite (den_obj_nodup ms T). apply tnodup_obj in T as [_ F]. cbn [sden ustr]. f_equal. rewrite map_map.
    apply map_ext_in. rewrite Forall_forall in *. intros kv Hin. cbn [fst snd]. f_equal. auto.
Qed.

Lemma ustr_aval4s n : nwf4 n -> ustr (aval4s n) = aval4 n.
Proof.
  induction n using node_rect'; intro W; try reflexivity.
  - apply ustr_sden, W.
  - apply nwf4_doc in W as [_ [_ W]]. cbn [aval4s ustr aval4]. f_equal. rewrite map_map. apply map_ext_in.
    unfold nodes_wf4 in W. rewrite Forall_forall in *. intros kv Hin. cbn [fst snd]. f_equal. auto.
  - apply nwf4_ary in W. cbn [aval4s ustr aval4]. f_equal. rewrite map_map. apply map_ext_in. rewrite Forall_forall in *. auto.
Qed.

Lemma ustr_sden_plain t : tplain t = true -> ustr (sden t) = sden t.
Proof.
  induction t using tjson_rect'; intro P; try reflexivity; cbn [tplain] in P.
  - cbn [sden ustr]. f_equal. apply bseq_eq, P.
  - rewrite forallb_forall in P. cbn [sden ustr]. f_equal. rewrite map_map. apply map_ext_in. rewrite Forall_forall in *. auto.
  - rewrite forallb_forall in P. cbn [sden ustr]. f_equal. rewrite map_map. apply map_ext_in.
    rewrite Forall_forall in *. intros kv Hin. cbn [fst snd]. f_equal. auto.
Qed.

Lemma ustr_aval4s_plain n : nplain n -> ustr (aval4s n) = aval4s n.
Proof.
  induction n using node_rect'; intro P; try reflexivity.
  - apply ustr_sden_plain, P.
  - apply nplain_doc in P. cbn [aval4s ustr]. f_equal. rewrite map_map. apply map_ext_in.
    rewrite Forall_forall in *. intros kv Hin. cbn [fst snd]. f_equal. auto.
  - apply nplain_ary in P. cbn [aval4s ustr]. f_equal. rewrite map_map. apply map_ext_in. rewrite Forall_forall in *. auto.
Qed.

Lemma jeq_ustr a : forall b, jeq a b = true -> jeq (ustr a) (ustr b) = true.
Proof.
  induction a using ojson_rect'; intros b' E; destruct b'; try discriminate E; try exact E.
  - cbn [ustr]. unfold jeq in *. apply bseq_eq in E. subst. apply bseq_refl.
  - cbn [ustr]. rewrite jeq_arr in *. revert l0 E. induction H as [|x l Hx _ IH]; intros [|y l0] E; try discriminate E; [reflexivity|].
    cbn [map jeq_list] in *. apply andb_prop in E as [E1 E2]. rewrite (Hx _ E1). apply IH, E2.
  - cbn [ustr]. rewrite jeq_obj in *. rewrite !map_length. apply andb_prop in E as [E1 E2]. rewrite E1. cbn [andb].
    clear E1. induction H as [|[k x] l Hx _ IH]; [reflexivity|]. cbn [map jeq_members fst snd] in *.
    rewrite aget_map_snd. destruct (aget k ms0) as [y|]; [|discriminate E2]. apply andb_prop in E2 as [E2 E3].
    cbn [option_map]. rewrite (Hx _ E2). apply IH, E3.
Qed.

Lemma bseq_app_tail a b s : bseq (a ++ s) (b ++ s) = bseq a b.
Proof.
  apply Bool.eq_true_iff_eq. rewrite !bseq_iff. split; intro H; [eapply app_inv_tail; eauto | now subst].
Qed.

Lemma leaf4_spelled a b : leaf_ok a -> leaf_ok b -> bseq (print false a) (print false b) = jeq (sden a) (sden b).
Proof.
  intros Ha Hb.
  destruct a, b; try exact (leaf_equal_spec _ _ Ha Hb); try (destruct Ha as [[] _]).
  cbn [print spell sden jeq bseq]. change (Byte.eqb x22 x22) with true. apply bseq_app_tail.
Qed.

Lemma ustr_sden_leaf t : leaf_ok t -> ustr (sden t) = den t.
Proof. intros [H _]. destruct t; try contradiction; reflexivity. Qed.

Lemma leaf4_spec a b :
  leaf_ok a -> leaf_ok b -> tplain a = true -> tplain b = true ->
  bseq (print false a) (print false b) = jeq (den a) (den b).
Proof.
  intros Ha Hb Pa Pb. rewrite (leaf4_spelled a b Ha Hb), <- (ustr_sden_leaf a Ha), <- (ustr_sden_leaf b Hb).
  now rewrite !ustr_sden_plain.
Qed.

Lemma leaf4_sound a b :
  leaf_ok a -> leaf_ok b -> bseq (print false a) (print false b) = true -> jeq (den a) (den b) = true.
Proof.
  intros Ha Hb E. rewrite leaf4_spelled in E by assumption. apply jeq_ustr in E.
  now rewrite !ustr_sden_leaf in E.
Qed.

Lemma leaf_sden_scalar t : leaf_ok t -> is_container (sden t) = false.
Proof. intros [H _]. destruct t; try contradiction; reflexivity. Qed.

Lemma equal4_unfold f n o :
  equal4 (S f) n o =
  if null4 n || null4 o then null4 n && null4 o else
  match shape4 n, shape4 o with
  | SLeaf a, SLeaf b => bseq (print false a) (print false b)
  | SLeaf _, _ => false
  | SDoc m, SDoc m' =>
      (length m =? length m')%nat &&
      forallb (fun kv => match aget (fst kv) m' with Some ov => equal4 f (snd kv) ov | None => false end) m
  | SDoc _, _ => false
  | SAry l, SAry l' => (length l =? length l')%nat && ary_go (equal4 f) l l'
  | SAry _, _ => false
  end.
Proof.
  cbn [equal4]. destruct (null4 n || null4 o); auto.
  destruct (shape4 n), (shape4 o); auto. f_equal.
  revert ns0. induction ns as [|x l IH]; intros [|y l']; simpl; auto. now rewrite IH.
Qed.

Lemma null4_onull n : nwf4 n -> null4 n = onull (aval4 n).
Proof.
  destruct n as [|t|keys obj|ns]; intro W; try reflexivity.
  - destruct t; reflexivity.
  - apply nwf4_doc in W as [-> _]. reflexivity.
Qed.

Lemma null4_onull_s n : nwf4 n -> null4 n = onull (aval4s n).
Proof. intro W. rewrite (null4_onull n W), <- (ustr_aval4s n W). destruct (aval4s n); reflexivity. Qed.

Lemma aval4s_child t : aval4s (child t) = sden t.
Proof. destruct t; reflexivity. Qed.

Lemma shape4_parts n : nlit n -> null4 n = false -> parts_ok n (shape4 n).
Proof.
  intros L NN. replace (shape4 n) with (shape_of n) by (destruct n as [|[]| |]; reflexivity).
  apply shape_parts; [exact L|]. destruct n as [|[]| |]; try discriminate; reflexivity.
Qed.

Lemma shape4_ok n : nwf4 n -> null4 n = false -> shape_ok aval4s nwf4 sden n (shape4 n).
Proof.
  intros W NN.
  assert (Doc : forall m, NoDup (map fst m) -> nodes_wf4 m -> aval4s n = OObj (map (fun kv => (fst kv, aval4s (snd kv))) m) ->
                shape_ok aval4s nwf4 sden n (SDoc m)).
  { intros m N F E. apply ShDoc with (ms := map (fun kv => (fst kv, aval4s (snd kv))) m); auto.
    - rewrite map_map. exact N.
    - intro k. apply aget_map_snd.
    - intros k v Hin. unfold nodes_wf4 in F. rewrite Forall_forall in F. apply (F _ Hin). }
  destruct n as [|t|keys obj|ns]; try discriminate; cbn [shape4] in *.
  - apply nwf4_raw in W. destruct t; try discriminate; try (apply ShLeaf; reflexivity).
    + apply tnodup_arr in W. rewrite Forall_forall in W. apply ShAry.
      * cbn [aval4s sden]. f_equal. rewrite map_map. apply map_ext. intro t. symmetry. apply aval4s_child.
      * intros v Hin. apply in_map_iff in Hin as [t [<- Hin]]. apply nwf4_child, W, Hin.
    + destruct (parsed_obj4 ms W) as [_ [N F]]. apply Doc; auto.
      apply tnodup_obj in W as [N' _]. rewrite obj_of_nodup by exact N'. cbn [aval4s sden]. f_equal. rewrite map_map.
      apply map_ext. intro kv. cbn [fst snd]. now rewrite aval4s_child.
  - apply nwf4_doc in W as [_ [N F]]. apply Doc; auto.
  - apply nwf4_ary in W. rewrite Forall_forall in W. apply ShAry; [reflexivity | exact W].
Qed.

(* the legacy Equal is structural equality of the values with strings as spelled *)
Theorem equal4_spelled : forall fuel n o,
  (nsize n + nsize o <= fuel)%nat -> nwf4 n -> nlit n -> nwf4 o -> nlit o ->
  equal4 fuel n o = jeq (aval4s n) (aval4s o).
Proof.
  exact (equal_engine _ _ _ _ equal4_unfold aval4s nwf4 sden null4_onull_s shape4_ok shape4_parts leaf4_spelled leaf_sden_scalar).
Qed.

Theorem equal4_spec : forall fuel n o,
  (nsize n + nsize o <= fuel)%nat -> cmp_ok true n -> cmp_ok true o ->
  equal4 fuel n o = jeq (aval4 n) (aval4 o).
Proof.
  intros fuel n o Hf [Wn [Ln Pn]] [Wo [Lo Po]]. rewrite equal4_spelled by assumption.
  rewrite <- (ustr_aval4s n Wn), <- (ustr_aval4s o Wo), !ustr_aval4s_plain by auto. reflexivity.
Qed.

Theorem node_equal4_spec n o : good4 n -> good4 o -> node_equal4 n o = jeq (aval4 n) (aval4 o).
Proof. intros Gn Go. unfold node_equal4. apply equal4_spec; auto using goodp_cmp_ok. Qed.

(* soundness needs no hypothesis on the spelling of strings: equal spellings decode alike.  A
   comparison that succeeds has not run out of fuel. *)
Lemma equal4_more_fuel f : forall n o, equal4 f n o = true -> equal4 (S f) n o = true.
Proof.
  induction f as [|f IH]; intros n o; [discriminate|]. rewrite (equal4_unfold (S f)), (equal4_unfold f).
  destruct (null4 n || null4 o); auto. destruct (shape4 n) as [a|m|l], (shape4 o) as [b|m'|l']; auto;
    intro E; apply andb_prop in E as [E1 E2]; rewrite E1; cbn [andb].
  - rewrite forallb_forall in *. intros kv Hin. specialize (E2 kv Hin). destruct (aget (fst kv) m'); auto.
  - clear E1. revert l' E2. induction l as [|x l IHl]; intros [|y l'] E2; auto. cbn [ary_go] in *.
    apply andb_prop in E2 as [E2 E3]. rewrite (IH _ _ E2). apply IHl, E3.
Qed.

Theorem equal4_sound : forall fuel n o,
  cmp_ok false n -> cmp_ok false o -> equal4 fuel n o = true -> jeq (aval4 n) (aval4 o) = true.
Proof.
  intros fuel n o [Wn [Ln _]] [Wo [Lo _]] E.
  assert (E' : equal4 (nsize n + nsize o + fuel) n o = true).
  { induction (nsize n + nsize o)%nat; [exact E | apply equal4_more_fuel; assumption]. }
  rewrite equal4_spelled in E' by (auto; lia). apply jeq_ustr in E'. now rewrite !ustr_aval4s in E'.
Qed.

Theorem node_equal4_sound n o : good4w n -> good4w o -> node_equal4 n o = true -> jeq (aval4 n) (aval4 o) = true.
Proof. intros Gn Go. unfold node_equal4. apply equal4_sound; auto using goodp_cmp_ok. Qed.

(* the raw text null at the root (below the root a null member is a nil node) *)
Lemma node_equal4_null_l tb : tlit tb = true -> node_equal4 (NRaw TNull) (NRaw tb) = jeq ONull (den tb).
Proof.
  intros _. unfold node_equal4. cbn [nsize tsize]. rewrite Nat.add_1_l. rewrite equal4_unfold.
  destruct tb; reflexivity.
Qed.

Lemma node_equal4_null_r ta : tlit ta = true -> node_equal4 (NRaw ta) (NRaw TNull) = jeq (den ta) ONull.
Proof.
  intros _. unfold node_equal4. cbn [nsize tsize]. rewrite Nat.add_1_r. rewrite equal4_unfold.
  destruct ta; reflexivity.
Qed.

Lemma goodp_raw pl t :
  t <> TNull -> tnodup t = true -> tlit t = true -> (pl = true -> tplain t = true) -> goodp pl (NRaw t).
Proof.
  intros NN T L P. split; [exact T|]. split; [exact L|]. split; [exact P|]. destruct t; try reflexivity. congruence.
Qed.

Lemma good4_raw t : t <> TNull -> tnodup t = true -> tlit t = true -> tplain t = true -> good4 (NRaw t).
Proof. intros NN T L P. apply goodp_raw; auto. Qed.

(* C19 (Equal): on texts without duplicate names whose string values are spelled as they decode,
   the legacy Equal decides structural equality of the decoded values *)
Theorem api_equal4_spec a b ta tb :
  parse a = Some ta -> parse b = Some tb -> tnodup ta = true -> tnodup tb = true ->
  tplain ta = true -> tplain tb = true ->
  api_equal4 a b = Some (jeq (den ta) (den tb)).
Proof.
  intros Pa Pb Ta Tb Sa Sb. unfold api_equal4. rewrite Pa, Pb. f_equal.
  pose proof (parse_tlit _ _ Pa) as La. pose proof (parse_tlit _ _ Pb) as Lb.
  destruct (tnull_dec ta) as [->|Na]; [apply node_equal4_null_l; auto|].
  destruct (tnull_dec tb) as [->|Nb]; [apply node_equal4_null_r; auto|].
  apply (node_equal4_spec (NRaw ta) (NRaw tb)); apply good4_raw; auto.
Qed.

(* consequently the legacy Equal is reflexive and symmetric on that domain *)
Corollary api_equal4_refl a ta : parse a = Some ta -> tnodup ta = true -> tplain ta = true -> api_equal4 a a = Some true.
Proof.
  intros Pa Ta Sa. rewrite (api_equal4_spec a a ta ta) by auto. f_equal. apply jeq_refl. exact Ta.
Qed.

Corollary api_equal4_sym a b ta tb :
  parse a = Some ta -> parse b = Some tb -> tnodup ta = true -> tnodup tb = true ->
  tplain ta = true -> tplain tb = true ->
  api_equal4 a b = Some true -> api_equal4 b a = Some true.
Proof.
  intros Pa Pb Ta Tb Sa Sb. rewrite (api_equal4_spec a b ta tb), (api_equal4_spec b a tb ta) by auto.
  intro H. inversion H as [H']. rewrite H'. f_equal. apply jeq_sym; auto.
Qed.

(* soundness on texts, with no hypothesis on how strings are spelled: texts the legacy Equal
   accepts denote structurally equal values *)
Theorem api_equal4_sound a b ta tb :
  parse a = Some ta -> parse b = Some tb -> tnodup ta = true -> tnodup tb = true ->
  api_equal4 a b = Some true -> jeq (den ta) (den tb) = true.
Proof.
  intros Pa Pb Ta Tb. unfold api_equal4. rewrite Pa, Pb. intro H.
  assert (H' : node_equal4 (NRaw ta) (NRaw tb) = true) by congruence. clear H.
  pose proof (parse_tlit _ _ Pa) as La. pose proof (parse_tlit _ _ Pb) as Lb.
  destruct (tnull_dec ta) as [->|Na]; [rewrite node_equal4_null_l in H' by auto; exact H'|].
  destruct (tnull_dec tb) as [->|Nb]; [rewrite node_equal4_null_r in H' by auto; exact H'|].
  apply (node_equal4_sound (NRaw ta) (NRaw tb)); [apply goodp_raw | apply goodp_raw |]; auto; discriminate.
Qed.

(* non-vacuity of the domain of api_equal4_spec: ASCII strings without a backslash *)
Example tplain_example :
  tplain (TObj [(B "k", TArr [TStr (B "plain text"); TNum (B "1")])]) = true.
Proof. vm_compute. reflexivity. Qed.
