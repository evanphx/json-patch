(* CreateFacts.v — the model of CreateMergePatch (ImplMerge.v: encode_sorted, create_object,
   api_create) against the reference difference function diff (Rfc7396.v).
   1. encode_sorted (Go's encoding of a map[string]interface{}: members sorted by name, strings
      quoted with HTML escaping, numbers by their literal) decodes back to the value it encodes,
      up to member order, whenever strings and member names are valid UTF-8.
   2. api_create is print (encode_sorted (diff ..)) on objects; element-wise on arrays of equal
      length; the error cases.
   3. the laws of diff (MergeFacts.diff_roundtrip, diff_empty_iff) transported to the model's
      output tree: applying the output to A gives B, the output is {} exactly when A and B are
      equal, and what the output holds under each member name.
   4. the output tree is well formed: every string body encode_sorted writes is one the scanner
      accepts (encode_sorted_tsb), and every number literal in it is a number literal of B
      (create_output_numbers).
   5. the above put together for two objects and for two arrays of objects of equal length
      (api_create_correct, api_create_arr_correct). *)
From Coq Require Import Lia.
From JP Require Import Bytes Json Text Strings Den ImplV5 ImplMerge Rfc7396 DecodeFacts JsonFacts MergeFacts
  MergeOrder Abs Codec StrInv V4MergeFacts.

Fixpoint outf8 (j : ojson) : Prop :=
  match j with
  | OStr s => utf8 s
  | OArr l => (fix all (l : list ojson) : Prop := match l with [] => True | x :: r => outf8 x /\ all r end) l
  | OObj ms => (fix all (m : list (bytes * ojson)) : Prop :=
                  match m with [] => True | kv :: r => (utf8 (fst kv) /\ outf8 (snd kv)) /\ all r end) ms
  | _ => True
  end.

Lemma outf8_arr l : outf8 (OArr l) <-> Forall outf8 l.
Proof. apply all_fix_Forall. Qed.

Lemma outf8_obj ms : outf8 (OObj ms) <-> Forall (fun kv => utf8 (fst kv) /\ outf8 (snd kv)) ms.
Proof. apply (all_fix_Forall (fun kv => utf8 (fst kv) /\ outf8 (snd kv))). Qed.
Arguments outf8 : simpl never.

Lemma outf8_null : outf8 ONull. Proof. exact I. Qed.

Lemma outf8_members j : outf8 j -> Forall (fun kv => utf8 (fst kv) /\ outf8 (snd kv)) (members_of j).
Proof. destruct j; intro H; try constructor. apply outf8_obj. exact H. Qed.

Lemma resolve_dups_P {A} (P : bytes * A -> Prop) (m : list (bytes * A)) :
  (forall k v w, P (k, v) -> In w (map snd m) -> P (k, w)) ->
  Forall P m -> Forall P (resolve_dups m).
Proof. intros _ F. rewrite Forall_forall in *. intros kv H. apply F, resolve_dups_incl, H. Qed.

(* decoding a text whose string bodies are well formed gives valid UTF-8 everywhere *)
Theorem tsb_outf8 t : tsb t -> outf8 (den t).
Proof.
  induction t using tjson_rect'; intro S; try exact I.
  - cbn [den]. apply sbody_unquote_utf8, S.
  - cbn [den]. apply outf8_arr. rewrite Forall_map. apply tsb_arr in S.
    rewrite Forall_forall in *. intros x Hx. apply (H x Hx). apply (S x Hx).
  - cbn [den]. apply outf8_obj. apply tsb_obj in S. rewrite Forall_forall in *. intros kv0 Hin.
    apply resolve_dups_incl, in_map_iff in Hin as [kv [<- Hin]]. cbn [fst snd].
    destruct (S kv Hin) as [S1 S2]. split; [apply sbody_unquote_utf8, S1 | apply (H kv Hin); exact S2].
Qed.

Lemma diff_members_P (P : bytes * ojson -> Prop) ams bms :
  (forall k bv, In (k, bv) bms -> P (k, bv)) ->
  (forall k av bv, In (k, bv) bms -> aget k ams = Some av -> is_obj av = true -> is_obj bv = true -> P (k, diff av bv)) ->
  Forall P (diff_members ams bms).
Proof.
  induction bms as [|[k bv] bms IH]; intros H1 H2; [constructor|]. rewrite diff_members_cons.
  assert (R : Forall P (diff_members ams bms)).
  { apply IH; [intros; apply H1; now right | intros; eapply H2; eauto; now right]. }
  destruct (diff_entry (aget k ams) bv) as [x|] eqn:E; [constructor; [|exact R] | exact R].
  apply diff_entry_Some in E as [->|[av [Ea [O1 [O2 ->]]]]]; [apply H1 | eapply H2; eauto]; now left.
Qed.

Lemma diff_dels_P (P : bytes * ojson -> Prop) ams bms :
  (forall k av, In (k, av) ams -> P (k, ONull)) -> Forall P (diff_dels ams bms).
Proof.
  intro H. unfold diff_dels. rewrite Forall_map. apply Forall_forall. intros [k av] Hin.
  apply filter_In in Hin as [Hin _]. cbn [fst]. eapply H; eauto.
Qed.

Theorem diff_nodup b a : onodup a = true -> onodup b = true -> onodup (diff a b) = true.
Proof. intros Na Nb. apply (diff_OJ b b a a); apply OJ_refl; assumption. Qed.

Theorem diff_outf8 b : forall a, outf8 a -> outf8 b -> outf8 (diff a b).
Proof.
  induction b using ojson_rect'; intros a Ua Ub;
    try (rewrite diff_nonobj by (destruct a; reflexivity); exact Ub).
  destruct (is_obj a) eqn:Oa; [|rewrite diff_nonobj by (rewrite Oa; reflexivity); exact Ub].
  apply is_obj_true in Oa as [ams ->]. rename ms into bms. rewrite diff_obj.
  apply outf8_obj in Ua. apply outf8_obj in Ub. apply outf8_obj.
  rewrite Forall_forall in H, Ua, Ub. apply Forall_app. split.
  - apply diff_members_P.
    + intros k bv Hin. apply (Ub _ Hin).
    + intros k av bv Hin Ea _ _. cbn [fst snd]. split; [apply (Ub _ Hin)|]. apply (H _ Hin).
      * apply aget_In in Ea. apply (Ua _ Ea).
      * apply (Ub _ Hin).
  - apply diff_dels_P. intros k av Hin. split; [apply (Ua _ Hin) | exact I].
Qed.

Theorem merge_patch_outf8 p : forall t, outf8 t -> outf8 p -> outf8 (merge_patch t p).
Proof.
  induction p using ojson_rect'; intros t Ut Up; try exact Up.
  rewrite merge_patch_obj, merge_members_kfold. apply outf8_obj. apply outf8_obj in Up.
  rewrite Forall_forall in H, Up.
  apply kfold_Forall; [apply outf8_members, Ut|]. intros k v o x Hin Ho E.
  destruct (null_dec v) as [->|NN]; [discriminate E|]. rewrite merge_lookup_nonnull in E by exact NN. injection E as <-.
  destruct (Up _ Hin) as [U1 U2]. split; [exact U1|]. apply (H _ Hin); [|exact U2].
  destruct o; [apply (Ho _ eq_refl) | exact I].
Qed.

(* ---- 1. encode_sorted decodes back to the value, members reordered ---- *)
Lemma encode_sorted_obj ms :
  encode_sorted (OObj ms) =
  TObj (map (fun kv => (quote true (fst kv), snd kv)) (sort4 (map (fun kv => (fst kv, encode_sorted (snd kv))) ms))).
Proof. reflexivity. Qed.

Lemma encode_sorted_arr l : encode_sorted (OArr l) = TArr (map encode_sorted l).
Proof. reflexivity. Qed.

Lemma encode_sorted_num lit : encode_sorted (ONum lit) = TNum lit.
Proof. reflexivity. Qed.

Lemma encode_sorted_str s : encode_sorted (OStr s) = TStr (quote true s).
Proof. reflexivity. Qed.

Lemma jeq_list_map_refl (f : ojson -> ojson) l :
  Forall (fun x => jeq (f x) x = true) l -> jeq_list (map f l) l = true.
Proof. induction 1 as [|x l Hx _ IH]; simpl; auto. rewrite Hx. exact IH. Qed.

Lemma In_insert_sorted {A} (kv : bytes * A) l x : In x (insert_sorted kv l) -> x = kv \/ In x l.
Proof.
  induction l as [|kv' l IHl]; intro Hin; cbn [insert_sorted] in Hin.
  - destruct Hin as [<-|[]]. now left.
  - destruct (bytes_ltb (fst kv) (fst kv')).
    + destruct Hin as [<-|Hin]; [now left | now right].
    + destruct (bseq (fst kv) (fst kv')).
      * destruct Hin as [<-|Hin]; [now left | right; now right].
      * destruct Hin as [<-|Hin]; [right; now left|]. destruct (IHl Hin) as [->|Hl]; [now left | right; now right].
Qed.

Lemma In_sort4_go {A} (l : list (bytes * A)) : forall acc x,
  In x (fold_left (fun a kv => insert_sorted kv a) l acc) -> In x l \/ In x acc.
Proof.
  induction l as [|kv l IHl]; intros acc x Hin; cbn [fold_left] in Hin; [now right|].
  destruct (IHl _ _ Hin) as [Hl|Ha]; [left; now right|].
  destruct (In_insert_sorted _ _ _ Ha) as [->|Ha']; [left; now left | now right].
Qed.

Lemma In_sort4 {A} (l : list (bytes * A)) x : In x (sort4 l) -> In x l.
Proof. intro H. destruct (In_sort4_go l [] x H) as [H'|[]]. exact H'. Qed.

(* the decoded members of the encoding of an object: the sorted list, names decoded back *)
Lemma encode_sorted_obj_den ms :
  NoDup (map fst ms) -> Forall (fun kv => utf8 (fst kv)) ms ->
  exists D, den (encode_sorted (OObj ms)) = OObj D /\ NoDup (map fst D) /\
            forall k, aget k D = option_map (fun v => den (encode_sorted v)) (aget k ms).
Proof.
  intros N K. destruct (sorted_members encode_sorted den ms N K) as [ND GD].
  rewrite encode_sorted_obj. refine (ex_intro _ _ (conj _ (conj ND GD))).
  cbn [den]. rewrite resolve_dups_nodup by exact ND. reflexivity.
Qed.

Theorem encode_sorted_den j : onodup j = true -> outf8 j ->
  onodup (den (encode_sorted j)) = true /\ jeq (den (encode_sorted j)) j = true.
Proof.
  induction j using ojson_rect'; intros N U.
  - split; reflexivity.
  - destruct b; split; reflexivity.
  - split; [reflexivity|]. cbn [encode_sorted den]. unfold jeq. apply bseq_refl.
  - cbn [encode_sorted den]. rewrite unquote_quote by exact U. split; [reflexivity|]. unfold jeq. apply bseq_refl.
  - apply onodup_arr in N. apply outf8_arr in U. rewrite Forall_forall in H, N, U.
    rewrite encode_sorted_arr. cbn [den]. rewrite map_map. split.
    + apply onodup_arr. rewrite Forall_map. apply Forall_forall. intros x Hin. apply (H x Hin); auto.
    + rewrite jeq_arr. apply (jeq_list_map_refl (fun x => den (encode_sorted x))).
      apply Forall_forall. intros x Hin. apply (H x Hin); auto.
  - apply onodup_obj in N as [N1 N2]. apply outf8_obj in U. rewrite Forall_forall in H, N2, U.
    rewrite encode_sorted_obj. apply (den_sorted_obj encode_sorted (fun v => v) ms ms N1); [|exact N1| |].
    + intros k Hin. apply in_map_iff in Hin as [kv [<- Hin]]. apply (U _ Hin).
    + intro k. destruct (aget k ms); reflexivity.
    + intros k v G. apply (H _ G); [apply (N2 _ G) | apply (U _ G)].
Qed.

(* the encoding is the empty object only for the empty object *)
Lemma insert_sorted_nonempty {A} (kv : bytes * A) l : insert_sorted kv l <> [].
Proof.
  destruct l as [|kv' r]; cbn [insert_sorted]; [discriminate|].
  destruct (bytes_ltb (fst kv) (fst kv')); [discriminate|]. destruct (bseq (fst kv) (fst kv')); discriminate.
Qed.

Lemma sort4_go_nonempty {A} (l : list (bytes * A)) : forall acc,
  acc <> [] -> fold_left (fun a kv => insert_sorted kv a) l acc <> [].
Proof.
  induction l as [|kv l IH]; intros acc H; cbn [fold_left]; [exact H|]. apply IH. apply insert_sorted_nonempty.
Qed.

Lemma sort4_nil_iff {A} (l : list (bytes * A)) : sort4 l = [] <-> l = [].
Proof.
  split; [|intros ->; reflexivity]. destruct l as [|kv l]; [reflexivity|].
  unfold sort4. cbn [fold_left]. intro E. exfalso. revert E. apply sort4_go_nonempty. apply insert_sorted_nonempty.
Qed.

Lemma encode_sorted_empty_iff j : encode_sorted j = TObj [] <-> j = OObj [].
Proof.
  split; [|intros ->; reflexivity].
  destruct j as [| [|] | | | |ms]; try discriminate. rewrite encode_sorted_obj. intro E.
  inversion E as [E']. apply map_eq_nil in E'. apply (proj1 (sort4_nil_iff _)) in E'. apply map_eq_nil in E'. now subst.
Qed.

(* ---- 2. api_create ---- *)
(* the value CreateMergePatch works on: an object's decoded map; null is read as the empty map *)
Definition as_obj (t : tjson) : option ojson :=
  match t with
  | TObj _ => Some (den t)
  | TNull => Some (OObj [])
  | _ => None
  end.

Lemma create_object_spec x y :
  create_object x y =
  match as_obj x, as_obj y with
  | Some oa, Some ob => Some (encode_sorted (diff oa ob))
  | _, _ => None
  end.
Proof. reflexivity. Qed.

(* element-wise patches of two arrays (as far as both have elements) *)
Fixpoint create_elems (la lb : list tjson) : option (list tjson) :=
  match la, lb with
  | x :: ra, y :: rb =>
      match create_object x y with
      | Some p => match create_elems ra rb with Some ps => Some (p :: ps) | None => None end
      | None => None
      end
  | _, _ => Some []
  end.

Fixpoint create_go (la lb : list tjson) (acc : list tjson) : mres :=
  match la, lb with
  | x :: ra, y :: rb =>
      match create_object x y with
      | Some p => create_go ra rb (acc ++ [p])
      | None => MErr MBadDoc
      end
  | _, _ => MOut (print true (TArr acc))
  end.

Lemma create_go_spec la : forall lb acc,
  create_go la lb acc =
  match create_elems la lb with
  | Some ps => MOut (print true (TArr (acc ++ ps)))
  | None => MErr MBadDoc
  end.
Proof.
  induction la as [|x la IH]; intros lb acc; cbn [create_go create_elems].
  - rewrite app_nil_r. reflexivity.
  - destruct lb as [|y lb]; [rewrite app_nil_r; reflexivity|].
    destruct (create_object x y) as [p|]; [|reflexivity].
    rewrite IH. destruct (create_elems la lb) as [ps|]; [|reflexivity].
    rewrite <- app_assoc. reflexivity.
Qed.

Lemma api_create_unfold a b :
  api_create a b =
  match parse a, parse b with
  | Some ta, Some tb =>
      match ta, tb with
      | TArr la, TArr lb => if (length la =? length lb)%nat then create_go la lb [] else MErr MBadDoc
      | TArr _, _ | _, TArr _ => MErr MBadTypes
      | _, _ =>
          match create_object ta tb with
          | Some p => MOut (print true p)
          | None => MErr MBadDoc
          end
      end
  | _, _ => MErr MBadDoc
  end.
Proof.
  unfold api_create. destruct (parse a) as [ta|]; [|reflexivity]. destruct (parse b) as [tb|]; [|reflexivity].
  destruct ta; try reflexivity; destruct tb; reflexivity.
Qed.

(* two objects: the printed, sorted encoding of the reference difference of the decoded maps *)
Theorem api_create_obj a b ams bms :
  parse a = Some (TObj ams) -> parse b = Some (TObj bms) ->
  api_create a b = MOut (print true (encode_sorted (diff (den (TObj ams)) (den (TObj bms))))).
Proof. intros Ha Hb. rewrite api_create_unfold, Ha, Hb. reflexivity. Qed.

(* null is read as the empty object (Go: unmarshalling null leaves the map nil) *)
Theorem api_create_null_left a b bms :
  parse a = Some TNull -> parse b = Some (TObj bms) ->
  api_create a b = MOut (print true (encode_sorted (diff (OObj []) (den (TObj bms))))).
Proof. intros Ha Hb. rewrite api_create_unfold, Ha, Hb. reflexivity. Qed.

Theorem api_create_null_right a b ams :
  parse a = Some (TObj ams) -> parse b = Some TNull ->
  api_create a b = MOut (print true (encode_sorted (diff (den (TObj ams)) (OObj [])))).
Proof. intros Ha Hb. rewrite api_create_unfold, Ha, Hb. reflexivity. Qed.

Theorem api_create_null_null a b :
  parse a = Some TNull -> parse b = Some TNull -> api_create a b = MOut (B "{}").
Proof. intros Ha Hb. rewrite api_create_unfold, Ha, Hb. reflexivity. Qed.

(* roots that are objects or null on both sides, in general *)
Theorem api_create_objlike a b ta tb oa ob :
  parse a = Some ta -> parse b = Some tb -> as_obj ta = Some oa -> as_obj tb = Some ob ->
  api_create a b = MOut (print true (encode_sorted (diff oa ob))).
Proof.
  intros Ha Hb Oa Ob. rewrite api_create_unfold, Ha, Hb.
  destruct ta; try discriminate; destruct tb; try discriminate;
    cbn [as_obj] in Oa, Ob; inversion Oa; inversion Ob; subst; reflexivity.
Qed.

(* two arrays: equal lengths are required; then element by element, every element an object (or
   null); the first element pair that is not makes the call fail *)
Theorem api_create_arr a b la lb :
  parse a = Some (TArr la) -> parse b = Some (TArr lb) ->
  api_create a b =
  if (length la =? length lb)%nat then
    match create_elems la lb with
    | Some ps => MOut (print true (TArr ps))
    | None => MErr MBadDoc
    end
  else MErr MBadDoc.
Proof.
  intros Ha Hb. rewrite api_create_unfold, Ha, Hb. rewrite create_go_spec. reflexivity.
Qed.

Lemma create_elems_objs la : forall lb oas obs,
  map as_obj la = map Some oas -> map as_obj lb = map Some obs -> length la = length lb ->
  create_elems la lb = Some (map (fun ab => encode_sorted (diff (fst ab) (snd ab))) (combine oas obs)).
Proof.
  induction la as [|x la IH]; intros lb oas obs Ea Eb L.
  - destruct oas; [reflexivity | discriminate].
  - destruct lb as [|y lb]; [discriminate|]. destruct oas as [|oa oas]; [discriminate|].
    destruct obs as [|ob obs]; [discriminate|]. cbn [map] in Ea, Eb. inversion Ea as [[E1 E2]]. inversion Eb as [[E3 E4]].
    cbn [create_elems]. rewrite create_object_spec, E1, E3. rewrite (IH lb oas obs E2 E4) by (simpl in L; lia).
    reflexivity.
Qed.

Theorem api_create_arr_objs a b la lb oas obs :
  parse a = Some (TArr la) -> parse b = Some (TArr lb) ->
  map as_obj la = map Some oas -> map as_obj lb = map Some obs -> length la = length lb ->
  api_create a b =
  MOut (print true (TArr (map (fun ab => encode_sorted (diff (fst ab) (snd ab))) (combine oas obs)))).
Proof.
  intros Ha Hb Ea Eb L. rewrite (api_create_arr a b la lb Ha Hb).
  rewrite (proj2 (Nat.eqb_eq _ _) L). rewrite (create_elems_objs la lb oas obs Ea Eb L). reflexivity.
Qed.

Theorem api_create_arr_length a b la lb :
  parse a = Some (TArr la) -> parse b = Some (TArr lb) -> length la <> length lb ->
  api_create a b = MErr MBadDoc.
Proof.
  intros Ha Hb L. rewrite (api_create_arr a b la lb Ha Hb).
  rewrite (proj2 (Nat.eqb_neq _ _) L). reflexivity.
Qed.

Lemma create_elems_bad la : forall lb,
  length la = length lb ->
  (exists i x y, nth_error la i = Some x /\ nth_error lb i = Some y /\ (as_obj x = None \/ as_obj y = None)) ->
  create_elems la lb = None.
Proof.
  induction la as [|x la IH]; intros lb L [i [x' [y' [Hx [Hy Hbad]]]]].
  - destruct i; discriminate.
  - destruct lb as [|y lb]; [discriminate|]. cbn [create_elems]. rewrite create_object_spec.
    destruct i as [|i].
    + cbn [nth_error] in Hx, Hy. inversion Hx; inversion Hy; subst.
      destruct Hbad as [-> | E]; [reflexivity|]. rewrite E. destruct (as_obj x'); reflexivity.
    + destruct (as_obj x); [|reflexivity]. destruct (as_obj y); [|reflexivity].
      rewrite IH; [reflexivity | simpl in L; lia | exists i, x', y'; auto].
Qed.

Theorem api_create_arr_bad_elem a b la lb i x y :
  parse a = Some (TArr la) -> parse b = Some (TArr lb) ->
  nth_error la i = Some x -> nth_error lb i = Some y -> as_obj x = None \/ as_obj y = None ->
  api_create a b = MErr MBadDoc.
Proof.
  intros Ha Hb Hx Hy Hbad. rewrite (api_create_arr a b la lb Ha Hb).
  destruct (length la =? length lb)%nat eqn:L; [|reflexivity]. apply Nat.eqb_eq in L.
  rewrite create_elems_bad; [reflexivity | exact L | exists i, x, y; auto].
Qed.

Definition is_tarr (t : tjson) : bool := match t with TArr _ => true | _ => false end.

Theorem api_create_unparsable a b : parse a = None \/ parse b = None -> api_create a b = MErr MBadDoc.
Proof.
  intros [H|H]; rewrite api_create_unfold, H; [reflexivity|]. destruct (parse a); reflexivity.
Qed.

Theorem api_create_mixed a b ta tb :
  parse a = Some ta -> parse b = Some tb -> is_tarr ta <> is_tarr tb -> api_create a b = MErr MBadTypes.
Proof.
  intros Ha Hb D. rewrite api_create_unfold, Ha, Hb.
  destruct ta, tb; try reflexivity; exfalso; apply D; reflexivity.
Qed.

Theorem api_create_nonobject a b ta tb :
  parse a = Some ta -> parse b = Some tb -> is_tarr ta = false -> is_tarr tb = false ->
  as_obj ta = None \/ as_obj tb = None -> api_create a b = MErr MBadDoc.
Proof.
  intros Ha Hb A1 A2 D. rewrite api_create_unfold, Ha, Hb.
  destruct ta; try discriminate; destruct tb; try discriminate; try reflexivity;
    destruct D as [D|D]; discriminate.
Qed.

Theorem merge_patch_jeq_patch p : forall p' d,
  onodup d = true -> onodup p = true -> onodup p' = true -> jeq p p' = true ->
  jeq (merge_patch d p) (merge_patch d p') = true.
Proof. intros p' d Nd Np Np' E. apply merge_patch_jeq_congr; auto using jeq_refl. Qed.

(* ---- 3. the model's output tree ---- *)
Section Output.
  Variables ta tb : tjson.
  Hypothesis Oa : is_obj (den ta) = true.
  Hypothesis Ob : is_obj (den tb) = true.
  Hypothesis Na : tnodup ta = true.
  Hypothesis Nb : tnodup tb = true.
  Hypothesis Sa : tsb ta.
  Hypothesis Sb : tsb tb.

  Let p := encode_sorted (diff (den ta) (den tb)).

  (* the tree that is printed decodes to the reference difference, members reordered *)
  Theorem create_output_den :
    onodup (den p) = true /\ jeq (den p) (diff (den ta) (den tb)) = true.
  Proof.
    apply encode_sorted_den.
    - apply diff_nodup; assumption.
    - apply diff_outf8; apply tsb_outf8; assumption.
  Qed.

  (* applying the output to A per RFC 7396 gives B *)
  Theorem create_output_roundtrip :
    no_null_member (den tb) = true -> jeq (merge_patch (den ta) (den p)) (den tb) = true.
  Proof.
    intro NN. destruct create_output_den as [P1 P2].
    assert (ND : onodup (diff (den ta) (den tb)) = true) by (apply diff_nodup; assumption).
    apply (jeq_trans _ (merge_patch (den ta) (diff (den ta) (den tb)))).
    - apply merge_patch_nodup; assumption.
    - apply merge_patch_nodup; assumption.
    - exact Nb.
    - apply merge_patch_jeq_patch; assumption.
    - apply diff_roundtrip; assumption.
  Qed.

  (* the output is {} exactly when A and B are equal *)
  Theorem create_output_empty_iff : p = TObj [] <-> jeq (den ta) (den tb) = true.
  Proof.
    unfold p. rewrite encode_sorted_empty_iff. apply diff_empty_iff; assumption.
  Qed.
End Output.

(* ---- what the output tree holds under each (decoded) member name ---- *)
Definition tget (k : bytes) (pms : list (bytes * tjson)) : option tjson :=
  aget k (map (fun kv => (unquote (fst kv), snd kv)) pms).

Lemma encode_sorted_members ms :
  NoDup (map fst ms) -> Forall (fun kv => utf8 (fst kv)) ms ->
  exists pms, encode_sorted (OObj ms) = TObj pms /\
              forall k, tget k pms = option_map encode_sorted (aget k ms).
Proof.
  intros N K. rewrite encode_sorted_obj. eexists. split; [reflexivity|].
  exact (proj2 (sorted_members encode_sorted (fun v => v) ms N K)).
Qed.

Section OutputMembers.
  Variables (ams bms : list (bytes * tjson)).
  Hypothesis Na : tnodup (TObj ams) = true.
  Hypothesis Nb : tnodup (TObj bms) = true.
  Hypothesis Sa : tsb (TObj ams).
  Hypothesis Sb : tsb (TObj bms).

  Let A := members_of (den (TObj ams)).
  Let Bm := members_of (den (TObj bms)).

  Lemma den_obj_members ms : den (TObj ms) = OObj (members_of (den (TObj ms))).
  Proof. reflexivity. Qed.

  (* the output is an object; under the name k it holds the encoding of what diff holds under k *)
  Theorem create_output_members :
    exists pms, encode_sorted (diff (den (TObj ams)) (den (TObj bms))) = TObj pms /\
      forall k, tget k pms = option_map encode_sorted (aget k (members_of (diff (den (TObj ams)) (den (TObj bms))))).
  Proof.
    assert (ND : onodup (diff (den (TObj ams)) (den (TObj bms))) = true) by (apply diff_nodup; assumption).
    assert (UD : outf8 (diff (den (TObj ams)) (den (TObj bms)))) by (apply diff_outf8; apply tsb_outf8; assumption).
    rewrite (den_obj_members ams), (den_obj_members bms) in *.
    destruct (diff_is_obj (members_of (den (TObj ams))) (members_of (den (TObj bms)))) as [dm Ed].
    rewrite Ed in *. apply onodup_obj in ND as [ND _]. apply outf8_obj in UD.
    apply encode_sorted_members; [exact ND|]. eapply Forall_impl; [|exact UD]. intros kv [Hk _]. exact Hk.
  Qed.

  Lemma create_output_tget pms k :
    encode_sorted (diff (den (TObj ams)) (den (TObj bms))) = TObj pms ->
    tget k pms = option_map encode_sorted (aget k (members_of (diff (den (TObj ams)) (den (TObj bms))))).
  Proof. intro Ep. destruct create_output_members as [pms' [Ep' L]]. rewrite Ep in Ep'. injection Ep' as <-. apply L. Qed.

  Lemma members_nodup ms : tnodup (TObj ms) = true ->
    NoDup (map fst (members_of (den (TObj ms)))) /\ Forall (fun kv => onodup (snd kv) = true) (members_of (den (TObj ms))).
  Proof. intro N. apply onodup_obj. rewrite <- den_obj_members. exact N. Qed.

  (* every member of the output: a null for a member of A that B lacks, or the encoding of B's
     own value (a number is B's literal, verbatim), or the output for two nested objects; and the
     member differs between A and B *)
  Theorem create_output_mentions pms k v :
    encode_sorted (diff (den (TObj ams)) (den (TObj bms))) = TObj pms -> tget k pms = Some v ->
    ~ lookup_rel (fun x y => jeq x y = true) (aget k A) (aget k Bm) /\
    (   (aget k Bm = None /\ v = TNull /\ aget k A <> None)
     \/ (exists bv, aget k Bm = Some bv /\ v = encode_sorted bv)
     \/ (exists av bv, aget k A = Some av /\ aget k Bm = Some bv /\ is_obj av = true /\ is_obj bv = true /\
                       v = encode_sorted (diff av bv))).
  Proof.
    intros Ep G. rewrite (create_output_tget pms k Ep) in G.
    destruct (aget k (members_of (diff (den (TObj ams)) (den (TObj bms))))) as [w|] eqn:Gw; [|discriminate].
    injection G as <-.
    destruct (members_nodup ams Na) as [Na1 Na2]. destruct (members_nodup bms Nb) as [Nb1 Nb2].
    destruct (diff_mentions A Bm k w Na1 Nb1 Na2 Nb2 Gw) as [D1 D2]. split; [exact D1|].
    destruct D2 as [[E1 [E2 E3]]|[E|[av [bv [E1 [E2 [E3 [E4 E5]]]]]]]].
    - left. subst w. auto.
    - right; left. eauto.
    - right; right. exists av, bv. subst w. auto.
  Qed.

  (* what the output holds under k, by what A and B hold under k *)
  Lemma create_output_lookup pms k :
    encode_sorted (diff (den (TObj ams)) (den (TObj bms))) = TObj pms ->
    tget k pms = option_map encode_sorted
                   match aget k Bm with
                   | Some bv => diff_entry (aget k A) bv
                   | None => match aget k A with Some _ => Some ONull | None => None end
                   end.
  Proof.
    intro Ep. rewrite (create_output_tget pms k Ep), (den_obj_members ams), (den_obj_members bms). fold A Bm.
    rewrite diff_obj. cbn [members_of]. rewrite diff_patch_lookup by apply (members_nodup bms Nb). reflexivity.
  Qed.

  (* number literals are carried over unchanged: a number of B that A does not already hold
     (structurally equal) under the same name is in the output, verbatim *)
  Theorem create_output_number_verbatim pms k lit :
    encode_sorted (diff (den (TObj ams)) (den (TObj bms))) = TObj pms ->
    aget k Bm = Some (ONum lit) -> aget k A <> Some (ONum lit) ->
    tget k pms = Some (TNum lit).
  Proof.
    intros Ep Gb Ga. rewrite (create_output_lookup pms k Ep), Gb.
    unfold diff_entry. destruct (aget k A) as [av|] eqn:Ea; [|reflexivity].
    replace (is_obj av && is_obj (ONum lit)) with false by (cbn [is_obj]; rewrite andb_false_r; reflexivity).
    destruct (jeq av (ONum lit)) eqn:J; [|reflexivity].
    exfalso. apply Ga. destruct av; try discriminate J. unfold jeq in J. apply bseq_eq in J. now subst.
  Qed.

  Theorem create_output_removed pms k :
    encode_sorted (diff (den (TObj ams)) (den (TObj bms))) = TObj pms ->
    aget k A <> None -> aget k Bm = None -> tget k pms = Some TNull.
  Proof.
    intros Ep Ga Gb. rewrite (create_output_lookup pms k Ep), Gb. destruct (aget k A); [reflexivity | contradiction].
  Qed.
End OutputMembers.

(* ---- the encoding is well formed: every string body it writes is one the scanner accepts ---- *)
Theorem sbody_quote esc s : utf8 s -> sbody (quote esc s).
Proof. intros _. apply StrInv.quote_sbody. Qed.

Fixpoint onums (j : ojson) : list bytes :=
  match j with
  | ONum lit => [lit]
  | OArr l => flat_map onums l
  | OObj ms => flat_map (fun kv => onums (snd kv)) ms
  | _ => []
  end.

(* the encoding has every predicate on the leaves (StrInv.spelled) that its number literals have *)
Theorem sp_encode_sorted {P Pk} (SP : spelled P Pk) j : (forall lit, In lit (onums j) -> P (TNum lit)) -> P (encode_sorted j).
Proof.
  induction j as [|b|lit|s|l IH|ms IH] using ojson_rect'; intro U.
  - exact (sp_null P Pk SP).
  - destruct b; apply (sp_bool P Pk SP).
  - rewrite encode_sorted_num. apply U. left. reflexivity.
  - rewrite encode_sorted_str. apply (sp_str P Pk SP), (sp_quote P Pk SP).
  - rewrite encode_sorted_arr. apply (sp_arr P Pk SP). rewrite Forall_map. rewrite Forall_forall in *.
    intros x Hin. apply (IH x Hin). intros lit Hl. apply U. cbn [onums]. apply in_flat_map. eauto.
  - rewrite encode_sorted_obj. apply (sp_obj P Pk SP). rewrite Forall_map. cbn [fst snd].
    rewrite Forall_forall in IH. apply Forall_forall. intros kv Hin. apply In_sort4 in Hin.
    apply in_map_iff in Hin as [kv0 [<- Hin0]]. cbn [fst snd].
    split; [apply (sp_quote P Pk SP) | apply (IH _ Hin0)]. intros lit Hl. apply U. cbn [onums]. apply in_flat_map. eauto.
Qed.

Theorem encode_sorted_tsb j : outf8 j -> tsb (encode_sorted j).
Proof. intros _. apply (sp_encode_sorted tsb_spelled). intros lit _. exact I. Qed.

(* ---- number literals: every number literal in the output is a number literal of B ---- *)
Fixpoint tnums (t : tjson) : list bytes :=
  match t with
  | TNum lit => [lit]
  | TArr l => flat_map tnums l
  | TObj ms => flat_map (fun kv => tnums (snd kv)) ms
  | _ => []
  end.

Lemma tnums_encode_sorted j lit : In lit (tnums (encode_sorted j)) -> In lit (onums j).
Proof.
  induction j using ojson_rect'.
  - intros [].
  - destruct b; intros [].
  - intro Hin. exact Hin.
  - intros [].
  - rewrite encode_sorted_arr. cbn [tnums onums]. rewrite !in_flat_map. intros [t [H1 H2]].
    apply in_map_iff in H1 as [x [<- Hx]]. exists x. split; [exact Hx|].
    rewrite Forall_forall in H. apply (H x Hx). exact H2.
  - rewrite encode_sorted_obj. cbn [tnums onums]. rewrite !in_flat_map. intros [kv [H1 H2]].
    apply in_map_iff in H1 as [kv1 [<- H1]]. cbn [snd] in H2. apply In_sort4 in H1.
    apply in_map_iff in H1 as [kv0 [<- H0]]. cbn [snd] in H2. exists kv0. split; [exact H0|].
    rewrite Forall_forall in H. apply (H kv0 H0). exact H2.
Qed.

Lemma onums_diff b : forall a lit, In lit (onums (diff a b)) -> In lit (onums b).
Proof.
  induction b using ojson_rect'; intros a lit;
    try (rewrite diff_nonobj by (destruct a; reflexivity); intro Hin; exact Hin).
  destruct (is_obj a) eqn:Oa; [|rewrite diff_nonobj by (rewrite Oa; reflexivity); intro Hin; exact Hin].
  apply is_obj_true in Oa as [ams ->]. rename ms into bms. rewrite diff_obj.
  cbn [onums]. rewrite flat_map_app, in_app_iff. intros [Hin|Hin].
  - assert (F : Forall (fun kv => forall l, In l (onums (snd kv)) -> In l (flat_map (fun kv => onums (snd kv)) bms))
                       (diff_members ams bms)).
    { rewrite Forall_forall in H. apply diff_members_P.
      - intros k bv Hb l Hl. apply in_flat_map. exists (k, bv). auto.
      - intros k av bv Hb _ _ _ l Hl. cbn [snd] in Hl. apply in_flat_map. exists (k, bv). split; [exact Hb|].
        apply (H _ Hb av l Hl). }
    apply in_flat_map in Hin as [kv [H1 H2]]. rewrite Forall_forall in F. apply (F kv H1 lit H2).
  - exfalso. apply in_flat_map in Hin as [kv [H1 H2]]. unfold diff_dels in H1.
    apply in_map_iff in H1 as [kv0 [<- _]]. exact H2.
Qed.

Theorem create_output_numbers a b lit :
  In lit (tnums (encode_sorted (diff a b))) -> In lit (onums b).
Proof. intro H. apply (onums_diff b a). apply tnums_encode_sorted. exact H. Qed.

(* ---- CreateMergePatch on two objects, end to end ---- *)
Theorem api_create_correct a b ams bms :
  parse a = Some (TObj ams) -> parse b = Some (TObj bms) ->
  tnodup (TObj ams) = true -> tnodup (TObj bms) = true -> tsb (TObj ams) -> tsb (TObj bms) ->
  exists p,
    api_create a b = MOut (print true p) /\
    p = encode_sorted (diff (den (TObj ams)) (den (TObj bms))) /\
    tsb p /\ tnodup p = true /\
    jeq (den p) (diff (den (TObj ams)) (den (TObj bms))) = true /\
    (no_null_member (den (TObj bms)) = true -> jeq (merge_patch (den (TObj ams)) (den p)) (den (TObj bms)) = true) /\
    (p = TObj [] <-> jeq (den (TObj ams)) (den (TObj bms)) = true).
Proof.
  intros Ha Hb Na Nb Sa Sb. eexists. split; [apply (api_create_obj a b ams bms Ha Hb)|].
  split; [reflexivity|].
  destruct (create_output_den (TObj ams) (TObj bms) Na Nb Sa Sb) as [P1 P2].
  split; [apply encode_sorted_tsb; apply diff_outf8; apply tsb_outf8; assumption|].
  split; [exact P1|]. split; [exact P2|]. split.
  - intro NN. apply create_output_roundtrip; auto.
  - apply create_output_empty_iff; auto.
Qed.

(* the same for two arrays of objects of equal length, element by element *)
Theorem api_create_arr_correct a b la lb :
  parse a = Some (TArr la) -> parse b = Some (TArr lb) -> length la = length lb ->
  Forall (fun x => is_obj (den x) = true /\ tnodup x = true /\ tsb x) la ->
  Forall (fun x => is_obj (den x) = true /\ tnodup x = true /\ tsb x) lb ->
  exists ps,
    api_create a b = MOut (print true (TArr ps)) /\
    Forall2 (fun p xy =>
               p = encode_sorted (diff (den (fst xy)) (den (snd xy))) /\
               tsb p /\ tnodup p = true /\
               (no_null_member (den (snd xy)) = true ->
                jeq (merge_patch (den (fst xy)) (den p)) (den (snd xy)) = true) /\
               (p = TObj [] <-> jeq (den (fst xy)) (den (snd xy)) = true))
            ps (combine la lb).
Proof.
  intros Ha Hb L Fa Fb.
  assert (AO : forall l, Forall (fun x => is_obj (den x) = true /\ tnodup x = true /\ tsb x) l ->
                         map as_obj l = map Some (map den l)).
  { induction 1 as [|x l [Hx _] _ IH]; [reflexivity|]. cbn [map]. rewrite IH. f_equal.
    destruct x; try discriminate Hx. reflexivity. }
  eexists. split.
  - apply (api_create_arr_objs a b la lb (map den la) (map den lb) Ha Hb (AO _ Fa) (AO _ Fb) L).
  - clear Ha Hb AO. revert lb L Fb. induction Fa as [|x la [X1 [X2 X3]] Fa IH]; intros lb L Fb.
    + destruct lb; [constructor | discriminate].
    + destruct lb as [|y lb]; [discriminate|]. inversion Fb as [|? ? [Y1 [Y2 Y3]] Fb']; subst.
      cbn [map combine fst snd]. constructor; [|apply IH; [simpl in L; lia | exact Fb']].
      cbn [fst snd]. split; [reflexivity|].
      split; [apply encode_sorted_tsb; apply diff_outf8; apply tsb_outf8; assumption|].
      split; [apply (create_output_den x y); assumption|].
      split; [intro NN; apply create_output_roundtrip; assumption | apply create_output_empty_iff; assumption].
Qed.
