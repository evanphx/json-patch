(* EqualFacts.v — the model of lazyNode.equal (ImplV5.equal) decides structural equality (Json.jeq)
   of the values the two nodes denote, whatever their parse state (equal_spec; node_equal_spec for the fuel
   node_equal runs it on).  Equal on texts (api_equal) is in EqualDup.v and Properties/C06.v. *)
From Coq Require Import Lia.
From JP Require Import Bytes Json Text Strings Den ImplV5 ImplMerge DecodeFacts JsonFacts Abs.

(* number literals start with '-' or a digit (true of every literal the reader produces); needed
   because scalars are compared by their compacted bytes *)
Definition lit_ok (l : bytes) : bool :=
  match l with c :: _ => Byte.eqb c x2d || is_digit c | [] => false end.

Fixpoint tlit (t : tjson) : bool :=
  match t with
  | TNum l => lit_ok l
  | TArr l => forallb tlit l
  | TObj ms => forallb (fun kv => tlit (snd kv)) ms
  | _ => true
  end.

Fixpoint nlit (n : node) : Prop :=
  match n with
  | NNil => True
  | NRaw t => tlit t = true
  | NDoc _ obj => (fix all (m : list (bytes * node)) : Prop := match m with [] => True | kv :: r => nlit (snd kv) /\ all r end) obj
  | NAry ns => (fix all (l : list node) : Prop := match l with [] => True | x :: r => nlit x /\ all r end) ns
  end.

Lemma nlit_doc keys obj : nlit (NDoc keys obj) <-> Forall (fun kv => nlit (snd kv)) obj.
Proof. apply (all_fix_Forall (fun kv => nlit (snd kv))). Qed.

Lemma nlit_ary ns : nlit (NAry ns) <-> Forall nlit ns.
Proof. apply all_fix_Forall. Qed.
Arguments nlit : simpl never.

Lemma nlit_child t : tlit t = true -> nlit (child t).
Proof. destruct t; intro H; try exact I; exact H. Qed.

Lemma tsize_pos t : (0 < tsize t)%nat.
Proof. destruct t; simpl; lia. Qed.

Lemma nsize_child t : nsize (child t) = tsize t.
Proof. destruct t; reflexivity. Qed.

Definition leaf_ok (t : tjson) : Prop :=
  (match t with TObj _ | TArr _ | TNull => False | _ => True end) /\ tlit t = true.

Lemma lit_first l : lit_ok l = true -> exists c r, l = c :: r /\ (c = x2d \/ is_digit c = true).
Proof.
  destruct l as [|c r]; simpl; try discriminate. intro H. exists c, r. split; auto.
  apply orb_prop in H as [H|H]; auto. left. now apply Byte.byte_dec_bl.
Qed.

Lemma bseq_head_diff (c d : byte) r s : c <> d -> bseq (c :: r) (d :: s) = false.
Proof. intro H. simpl. destruct (Byte.eqb c d) eqn:E; auto. apply Byte.byte_dec_bl in E. contradiction. Qed.

Lemma lit_not (l : bytes) (d : byte) s :
  lit_ok l = true -> d <> x2d -> is_digit d = false -> bseq l (d :: s) = false /\ bseq (d :: s) l = false.
Proof.
  intros L D1 D2. apply lit_first in L as [c [r [-> [->|Hc]]]].
  - split; apply bseq_head_diff; congruence.
  - split; apply bseq_head_diff; intro; subst; congruence.
Qed.

Lemma leaf_equal_spec a b : leaf_ok a -> leaf_ok b -> leaf_equal a b = jeq (den a) (den b).
Proof.
  intros [Ha La] [Hb Lb]. destruct a; try contradiction; destruct b; try contradiction; try reflexivity;
    cbn [leaf_equal den print jeq tlit] in *;
    try (apply (lit_not _ _ _ La); [discriminate | reflexivity]);
    try (apply (lit_not _ _ _ Lb); [discriminate | reflexivity]).
Qed.

Lemma is_null_iff n : is_null n = true <-> aval n = ONull.
Proof.
  destruct n as [|t|keys obj|ns]; simpl; split; intro H; try reflexivity; try discriminate.
  - destruct t; try discriminate. reflexivity.
  - destruct t; simpl in H; try discriminate. reflexivity.
Qed.

Definition onull (x : ojson) : bool := match x with ONull => true | _ => false end.
Lemma jeq_null_l x : jeq ONull x = onull x. Proof. destruct x; reflexivity. Qed.
Lemma jeq_null_r x : jeq x ONull = onull x. Proof. destruct x; reflexivity. Qed.
Lemma is_null_onull n : is_null n = onull (aval n).
Proof.
  destruct (is_null n) eqn:E.
  - apply is_null_iff in E. now rewrite E.
  - destruct (aval n) eqn:A; auto. apply is_null_iff in A. congruence.
Qed.

Fixpoint ary_go (f : node -> node -> bool) (l l' : list node) : bool :=
  match l, l' with
  | x :: r, y :: r' => f x y && ary_go f r r'
  | _, _ => true
  end.

Lemma is_container_jeq x y : is_container x = false -> is_container y = true -> jeq x y = false /\ jeq y x = false.
Proof. destruct x; try discriminate; destruct y; try discriminate; split; reflexivity. Qed.

(* what one level exposes of a node with well-formed number literals: a scalar that can be compared, or
   parts that are smaller and have well-formed number literals again *)
Definition parts_ok (n : node) (s : shape) : Prop :=
  match s with
  | SLeaf t => leaf_ok t
  | SDoc m => forall k v, In (k, v) m -> nlit v /\ (nsize v < nsize n)%nat
  | SAry l => forall v, In v l -> nlit v /\ (nsize v < nsize n)%nat
  end.

(* lazyNode.equal of either package: a null test, one level of tryDoc / tryAry (shape), a comparison of
   scalars, and the recursion eqf.  It is proved once to be structural equality of the values val
   reads off the nodes, for any reading val and invariant wf under which one level exposes the same
   members and elements (shape_ok); that the parts get smaller and keep their literals (parts_ok)
   does not depend on the reading. *)
Section EqualEngine.
  Variables (isnull : node -> bool) (shape : node -> shape) (leafeq : tjson -> tjson -> bool).
  Variable eqf : nat -> node -> node -> bool.
  Hypothesis eqf_S : forall f n o,
    eqf (S f) n o =
    if isnull n || isnull o then isnull n && isnull o else
    match shape n, shape o with
    | SLeaf a, SLeaf b => leafeq a b
    | SDoc m, SDoc m' =>
        (length m =? length m')%nat &&
        forallb (fun kv => match aget (fst kv) m' with Some ov => eqf f (snd kv) ov | None => false end) m
    | SAry l, SAry l' => (length l =? length l')%nat && ary_go (eqf f) l l'
    | _, _ => false
    end.

  Variables (val : node -> ojson) (wf : node -> Prop) (lden : tjson -> ojson).

  Inductive shape_ok : node -> ImplV5.shape -> Prop :=
  | ShLeaf n t : val n = lden t -> shape_ok n (SLeaf t)
  | ShDoc n m ms : val n = OObj ms -> NoDup (map fst m) -> NoDup (map fst ms) ->
                   (forall k, aget k ms = option_map val (aget k m)) ->
                   (forall k v, In (k, v) m -> wf v) ->
                   shape_ok n (SDoc m)
  | ShAry n l : val n = OArr (map val l) -> (forall v, In v l -> wf v) -> shape_ok n (SAry l).

  Hypothesis null_val : forall n, wf n -> isnull n = onull (val n).
  Hypothesis shape_val : forall n, wf n -> isnull n = false -> shape_ok n (shape n).
  Hypothesis shape_lit : forall n, nlit n -> isnull n = false -> parts_ok n (shape n).
  Hypothesis leaf_val : forall a b, leaf_ok a -> leaf_ok b -> leafeq a b = jeq (lden a) (lden b).
  Hypothesis lden_scalar : forall t, leaf_ok t -> is_container (lden t) = false.

  Theorem equal_engine : forall fuel n o,
    (nsize n + nsize o <= fuel)%nat -> wf n -> nlit n -> wf o -> nlit o -> eqf fuel n o = jeq (val n) (val o).
  Proof.
    induction fuel as [|f IH]; intros n o Hf Wn Ln Wo Lo.
    { destruct n; simpl in Hf; try lia; pose proof (tsize_pos t); lia. }
    rewrite eqf_S, (null_val n Wn), (null_val o Wo).
    destruct (onull (val n)) eqn:Nn.
    { destruct (val n); try discriminate. cbn [orb andb]. symmetry. apply jeq_null_l. }
    destruct (onull (val o)) eqn:No.
    { destruct (val o); try discriminate. cbn [orb andb]. rewrite jeq_null_r. symmetry. exact Nn. }
    cbn [orb]. rewrite <- null_val in Nn, No by assumption.
    pose proof (shape_val n Wn Nn) as Sn. pose proof (shape_val o Wo No) as So.
    pose proof (shape_lit n Ln Nn) as Pn. pose proof (shape_lit o Lo No) as Po.
    inversion Sn as [n1 a Ea Eq1 Sa|n1 m ms Ea Nm Nms Gm Cm Eq1 Sa|n1 l Ea Cl Eq1 Sa]; subst n1; rewrite <- Sa in Pn;
      inversion So as [o1 b Eb Eq2 Sb|o1 m' ms' Eb Nm' Nms' Gm' Cm' Eq2 Sb|o1 l' Eb Cl' Eq2 Sb]; subst o1; rewrite <- Sb in Po;
      rewrite Ea, Eb; try reflexivity;
      try (symmetry; apply (is_container_jeq (lden a)); [apply lden_scalar, Pn | reflexivity]);
      try (symmetry; apply (is_container_jeq (lden b)); [apply lden_scalar, Po | reflexivity]).
    - apply leaf_val; assumption.
    - (* two objects: both sides say that the two maps hold equal values under the same names *)
      apply Bool.eq_true_iff_eq.
      rewrite andb_true_iff, Nat.eqb_eq, forallb_forall, (jeq_obj_char ms ms' Nms Nms').
      assert (Q : (forall k, lookup_rel (fun x y => jeq x y = true) (aget k ms) (aget k ms')) <->
                  (forall k, orel (fun v ov => eqf f v ov = true) (aget k m) (aget k m'))).
      { split; intros HR k; specialize (HR k); rewrite Gm, Gm' in *;
          destruct (aget k m) as [v|] eqn:G1, (aget k m') as [ov|] eqn:G2; cbn in *; auto;
          apply aget_In in G1, G2; destruct (Pn _ _ G1) as [L1 S1]; destruct (Po _ _ G2) as [L2 S2];
          [rewrite IH | rewrite <- IH]; eauto; lia. }
      rewrite Q, <- (members_rel_char _ m m' Nm Nm'). split; intros [L A]; (split; [exact L|]).
      + intros k x Hin. specialize (A (k, x) Hin). cbn in A. destruct (aget k m'); [eauto | discriminate].
      + intros [k x] Hin. destruct (A k x Hin) as [y [E1 E2]]. cbn. rewrite E1. exact E2.
    - (* two arrays *)
      rewrite jeq_arr.
      assert (IHc : forall v ov, In v l -> In ov l' -> eqf f v ov = jeq (val v) (val ov)).
      { intros v ov H1 H2. destruct (Pn _ H1) as [L1 S1]. destruct (Po _ H2) as [L2 S2]. apply IH; auto. lia. }
      clear - IHc. revert l' IHc. induction l as [|x l IHl]; intros [|y l'] IHc; simpl; auto.
      rewrite (IHc x y) by (now left).
      destruct (jeq (val x) (val y)); simpl.
      + rewrite <- IHl by (intros; apply IHc; now right). reflexivity.
      + now rewrite andb_false_r.
  Qed.
End EqualEngine.

Lemma equal_unfold f n o :
  equal (S f) n o =
  if is_null n || is_null o then is_null n && is_null o else
  match shape_of n, shape_of o with
  | SLeaf a, SLeaf b => leaf_equal a b
  | SLeaf _, _ => false
  | SDoc m, SDoc m' =>
      (length m =? length m')%nat &&
      forallb (fun kv => match aget (fst kv) m' with Some ov => equal f (snd kv) ov | None => false end) m
  | SDoc _, _ => false
  | SAry l, SAry l' => (length l =? length l')%nat && ary_go (equal f) l l'
  | SAry _, _ => false
  end.
Proof.
  cbn [equal]. destruct (is_null n || is_null o); auto.
  destruct (shape_of n), (shape_of o); auto. f_equal.
  revert ns0. induction ns as [|x l IH]; intros [|y l']; simpl; auto. now rewrite IH.
Qed.

(* ---- what one level exposes, whatever the reading: literals and sizes of the parts ---- *)
Lemma sum_in {A} (f : A -> nat) l x : In x l -> (f x <= fold_right (fun y a => f y + a) 0 l)%nat.
Proof. induction l as [|y l IH]; [intros []|]. intros [E|H]; simpl; [subst; lia | specialize (IH H); lia]. Qed.

(* the members of the Go map built from an object text are children of members of the text *)
Lemma build_obj_parts (P : node -> Prop) ms :
  (forall kv, In kv ms -> P (child (snd kv))) -> forall k v, In (k, v) (build_obj ms []) -> P v.
Proof.
  intros H k v Hin. rewrite build_obj_with in Hin.
  refine (proj1 (Forall_forall _ _) (build_with_Forall child (fun kv => P (snd kv)) ms [] (Forall_nil _) _) (k, v) Hin).
  apply Forall_forall. exact H.
Qed.

Lemma shape_parts n : nlit n -> is_null n = false -> parts_ok n (shape_of n).
Proof.
  intros L NN. destruct n as [|t|keys obj|ns]; try discriminate; cbn [shape_of parts_ok].
  - unfold nlit in L. destruct t; try discriminate; try (split; [exact I | exact L]);
      cbn [tlit] in L; rewrite forallb_forall in L; cbn [shape_of parts_ok].
    + intros v Hin. apply in_map_iff in Hin as [t [<- Hin]]. rewrite nsize_child.
      split; [apply nlit_child, L, Hin | pose proof (sum_in tsize l t Hin); simpl; lia].
    + unfold doc_of. cbn [snd]. apply (build_obj_parts (fun v => nlit v /\ (nsize v < nsize (NRaw (TObj ms)))%nat)).
      intros kv Hkv. rewrite nsize_child.
      split; [apply nlit_child, L, Hkv | pose proof (sum_in (fun x => tsize (snd x)) ms kv Hkv); simpl in *; lia].
  - apply nlit_doc in L. rewrite Forall_forall in L. intros k v Hin.
    split; [apply (L _ Hin) | pose proof (sum_in (fun x => nsize (snd x)) obj (k, v) Hin); simpl in *; lia].
  - apply nlit_ary in L. rewrite Forall_forall in L. intros v Hin.
    split; [apply (L _ Hin) | pose proof (sum_in nsize ns v Hin); simpl; lia].
Qed.

(* ---- v5, raw parts without repeated names: the reading is Abs.aval ---- *)
(* one level of tryDoc / tryAry on a well-formed node: what merge's intoDoc and equal's shape_of expose *)
Lemma shape_of_into n :
  shape_of n = match into_doc n with
               | Some d => SDoc (snd d)
               | None => match n with NAry ns => SAry ns | NRaw (TArr l) => SAry (map child l) | NRaw t => SLeaf t | _ => SLeaf TNull end
               end.
Proof. destruct n as [|[]| |]; reflexivity. Qed.

Lemma into_doc_view cur : nwf cur ->
  match into_doc cur with
  | Some d => aval cur = OObj (abs_members (fst d) (snd d)) /\ keys_agree (fst d) (snd d) /\
              Forall (fun kv => nwf (snd kv)) (snd d)
  | None => forall ms, aval cur <> OObj ms
  end.
Proof.
  intro W. destruct cur as [|t|keys obj|ns]; simpl into_doc; try discriminate.
  - destruct t; try discriminate. apply nwf_raw in W. pose proof (parsed_obj ms W) as P.
    destruct (doc_of ms) as [keys obj]. destruct P as [P1 P2]. apply nwf_doc in P2.
    split; [|exact P2]. change (aval (NRaw (TObj ms))) with (den (TObj ms)). rewrite <- P1. apply aval_doc.
  - apply nwf_doc in W. split; [apply aval_doc | exact W].
Qed.

Lemma shape_of_ok n : nwf n -> is_null n = false -> shape_ok aval nwf den n (shape_of n).
Proof.
  intros W NN. pose proof (into_doc_view n W) as V.
  rewrite shape_of_into. destruct (into_doc n) as [[keys obj]|] eqn:E; cbn [fst snd] in *.
  - destruct V as [Ev [Ag Wo]]. apply ShDoc with (ms := abs_members keys obj); [exact Ev | apply Ag | | |].
    + unfold abs_members. rewrite map_map, map_id. apply Ag.
    + intro k. apply aget_abs_members_agree, Ag.
    + intros k v Hin. exact (Forall_aget _ _ _ _ Wo (In_aget_nodup _ _ _ (proj1 (proj2 Ag)) Hin)).
  - destruct n as [|t|keys obj|ns]; try discriminate.
    + destruct t; try discriminate; try (apply ShLeaf; reflexivity).
      apply nwf_raw in W. destruct (parsed_arr l W) as [P1 P2]. apply nwf_ary in P2. rewrite Forall_forall in P2.
      apply ShAry; [symmetry; exact P1 | exact P2].
    + apply nwf_ary in W. rewrite Forall_forall in W. apply ShAry; [reflexivity | exact W].
Qed.

Lemma leaf_den_scalar t : leaf_ok t -> is_container (den t) = false.
Proof. intros [H _]. destruct t; try contradiction; reflexivity. Qed.

Theorem equal_spec : forall fuel n o,
  (nsize n + nsize o <= fuel)%nat -> nwf n -> nlit n -> nwf o -> nlit o ->
  equal fuel n o = jeq (aval n) (aval o).
Proof.
  exact (equal_engine _ _ _ _ equal_unfold aval nwf den (fun n _ => is_null_onull n) shape_of_ok shape_parts leaf_equal_spec leaf_den_scalar).
Qed.

Theorem node_equal_spec n o : nwf n -> nlit n -> nwf o -> nlit o -> node_equal n o = jeq (aval n) (aval o).
Proof. intros. unfold node_equal. apply equal_spec; auto. Qed.
