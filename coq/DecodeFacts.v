(* DecodeFacts.v — the Go map a decoder fills from the members of an object text (build_with), and
   DecodePatch's model (for C11). *)
From JP Require Import Bytes Json Text Strings Den ImplV5 JsonFacts.

Fixpoint lookup_last (name : bytes) (ms : list (bytes * tjson)) (acc : option tjson) : option tjson :=
  match ms with
  | [] => acc
  | (k, v) :: r => lookup_last name r (if bseq name (unquote k) then Some v else acc)
  end.

Definition nullify (v : tjson) : option tjson := match v with TNull => None | _ => Some v end.

(* the Go map a decoder fills from the members of an object text, in order: m[unquote k] = f v.
   ImplV5.build_obj, ImplV5.operation_of, ImplMerge.patch_entries and the first pass of
   ImplMerge.prune_t are instances. *)
Fixpoint build_with {A} (f : tjson -> A) (ms : list (bytes * tjson)) (acc : list (bytes * A)) : list (bytes * A) :=
  match ms with
  | [] => acc
  | (k, v) :: r => build_with f r (aset (unquote k) (f v) acc)
  end.

Lemma lookup_last_acc name ms a :
  lookup_last name ms a = match lookup_last name ms None with Some x => Some x | None => a end.
Proof.
  revert a. induction ms as [|[k v] ms IH]; intro a; simpl; auto.
  rewrite IH. rewrite (IH (if bseq name (unquote k) then Some v else None)).
  destruct (lookup_last name ms None); auto. destruct (bseq name (unquote k)); auto.
Qed.

Lemma aget_build_with {A} (f : tjson -> A) name ms : forall acc,
  aget name (build_with f ms acc) =
  match lookup_last name ms None with Some v => Some (f v) | None => aget name acc end.
Proof.
  induction ms as [|[k v] ms IH]; intro acc; simpl; auto.
  rewrite IH, (lookup_last_acc name ms (if bseq name (unquote k) then Some v else None)).
  destruct (lookup_last name ms None); auto.
  destruct (bseq name (unquote k)) eqn:E.
  - apply bseq_eq in E; subst. now rewrite aget_aset_same.
  - now rewrite aget_aset_other.
Qed.

Lemma build_with_NoDup {A} (f : tjson -> A) ms : forall acc,
  NoDup (map fst acc) -> NoDup (map fst (build_with f ms acc)).
Proof. induction ms as [|[k v] ms IH]; intros acc N; [exact N|]. apply IH, NoDup_keys_aset, N. Qed.

Lemma build_with_Forall {A} (f : tjson -> A) (P : bytes * A -> Prop) ms : forall acc,
  Forall P acc -> Forall (fun kv => P (unquote (fst kv), f (snd kv))) ms -> Forall P (build_with f ms acc).
Proof.
  induction ms as [|[k v] ms IH]; intros acc Ha Hf; [exact Ha|].
  inversion Hf as [|? ? Hv Hr]; subst. apply IH; [|exact Hr]. apply Forall_aset_key; assumption.
Qed.

Lemma build_with_nodup {A} (f : tjson -> A) ms : forall acc,
  NoDup (map fst acc ++ map (fun kv => unquote (fst kv)) ms) ->
  build_with f ms acc = acc ++ map (fun kv => (unquote (fst kv), f (snd kv))) ms.
Proof.
  induction ms as [|[k v] ms IH]; intros acc N; simpl.
  - now rewrite app_nil_r.
  - simpl in N. rewrite aset_notin.
    + rewrite IH.
      * rewrite <- app_assoc. reflexivity.
      * rewrite map_app. simpl. rewrite <- app_assoc. exact N.
    + intro Hin. apply NoDup_remove_2 in N. apply N. apply in_or_app. now left.
Qed.

Lemma build_obj_with ms : forall acc, build_obj ms acc = build_with child ms acc.
Proof. induction ms as [|[k v] ms IH]; intro acc; simpl; auto. Qed.

Lemma operation_of_with ms : operation_of ms = build_with nullify ms [].
Proof.
  unfold operation_of. generalize (@nil (bytes * option tjson)).
  induction ms as [|[k v] ms IH]; intro acc; [reflexivity|]. rewrite IH. destruct v; reflexivity.
Qed.

Lemma deep_t_obj ms :
  deep_t (TObj ms) = NDoc (map (fun kv => unquote (fst kv)) ms) (build_with deep_t ms []).
Proof.
  cbn [deep_t]. f_equal.
  assert (E : forall ms acc,
             (fix go (ms : list (bytes * tjson)) (acc : list (bytes * node)) :=
                match ms with [] => acc | (k, v) :: r => go r (aset (unquote k) (deep_t v) acc) end) ms acc
             = build_with deep_t ms acc).
  { clear. induction ms as [|[k v] ms IH]; intro acc; simpl; auto. }
  apply E.
Qed.

Lemma operation_of_spec name ms :
  aget name (operation_of ms) = option_map nullify (lookup_last name ms None).
Proof. rewrite operation_of_with, aget_build_with. destruct (lookup_last name ms None); reflexivity. Qed.

(* ---- the kind of an operation is read off its "op" member ---- *)
Definition kind_name (k : opk) : bytes :=
  match k with
  | KAdd => B "add" | KRemove => B "remove" | KReplace => B "replace"
  | KMove => B "move" | KCopy => B "copy" | KTest => B "test"
  | KUnknown => []
  end.

Lemma op_kind_name op k : k <> KUnknown -> (op_kind op = k <-> op_str op (B "op") = Ok (kind_name k)).
Proof.
  intro NK. unfold op_kind. destruct (op_str op (B "op")) as [s|e|];
    [|split; [congruence | discriminate] | split; [congruence | discriminate]].
  split.
  - destruct (bseq s (B "add")) eqn:E1; [apply bseq_eq in E1; intros <-; now subst|].
    destruct (bseq s (B "remove")) eqn:E2; [apply bseq_eq in E2; intros <-; now subst|].
    destruct (bseq s (B "replace")) eqn:E3; [apply bseq_eq in E3; intros <-; now subst|].
    destruct (bseq s (B "move")) eqn:E4; [apply bseq_eq in E4; intros <-; now subst|].
    destruct (bseq s (B "copy")) eqn:E5; [apply bseq_eq in E5; intros <-; now subst|].
    destruct (bseq s (B "test")) eqn:E6; [apply bseq_eq in E6; intros <-; now subst | congruence].
  - intro E. injection E as ->. destruct k; reflexivity.
Qed.

(* ---- the raw messages an operation holds ---- *)
Definition op_vals (P : tjson -> Prop) (op : operation) : Prop :=
  Forall (fun kv : bytes * option tjson => match snd kv with Some t => P t | None => True end) op.

Lemma op_vals_get P op k t : op_vals P op -> aget k op = Some (Some t) -> P t.
Proof. intros F E. exact (Forall_aget _ _ _ _ F E). Qed.

Lemma operation_of_vals P ms : Forall (fun kv => P (snd kv)) ms -> op_vals P (operation_of ms).
Proof.
  intro H. rewrite operation_of_with. apply build_with_Forall; [constructor|].
  revert H. apply Forall_impl. intros [k v] Hv. cbn [snd] in *. destruct v; simpl; auto.
Qed.

(* ---- DecodePatch: a decoded patch is the list of its operation objects, each valid; the text null
   is the empty patch ---- *)
Theorem decode_patch_spec t p : decode_patch_t t = Some p <->
  (t = TNull /\ p = []) \/
  exists mss, t = TArr (map TObj mss) /\ p = map operation_of mss /\
              Forall (fun ms => validate_operation (operation_of ms) = true) mss.
Proof.
  split.
  - destruct t as [| | |lit|body|els|ms]; cbn [decode_patch_t]; try discriminate.
    + intro H. injection H as <-. auto.
    + destruct (forallb _ els); [|discriminate]. cbv zeta.
      destruct (forallb validate_operation _) eqn:V; [|discriminate]. intro H. injection H as <-. right.
      induction els as [|e els IH]; [exists []; repeat split; constructor|].
      cbn [map forallb] in V. apply andb_prop in V as [V1 V2]. destruct (IH V2) as (mss & E1 & E2 & F).
      destruct e as [| | |?|?|?|ms]; try discriminate V1.
      exists (ms :: mss). injection E1 as ->. cbn [map]. rewrite E2. repeat split. constructor; assumption.
  - intros [[-> ->]|(mss & -> & -> & F)]; [reflexivity|]. cbn [decode_patch_t]. rewrite !map_map.
    replace (forallb _ (map TObj mss)) with true
      by (symmetry; apply forallb_forall; intros e He; apply in_map_iff in He as (ms & <- & _); reflexivity).
    replace (forallb validate_operation _) with true; [reflexivity|].
    symmetry. apply forallb_forall. intros op Hop. apply in_map_iff in Hop as (ms & <- & Hm).
    rewrite Forall_forall in F. exact (F ms Hm).
Qed.

Lemma decoded_vals (P : tjson -> Prop) t p :
  (forall l, P (TArr l) -> Forall P l) -> (forall ms, P (TObj ms) -> Forall (fun kv => P (snd kv)) ms) ->
  P t -> decode_patch_t t = Some p -> Forall (op_vals P) p.
Proof.
  intros P_arr P_obj T H. apply decode_patch_spec in H as [[_ ->]|(mss & -> & -> & _)]; [constructor|].
  apply P_arr in T. rewrite Forall_map in *. revert T. apply Forall_impl. intros ms T.
  apply operation_of_vals, P_obj, T.
Qed.
