(* ScanFacts.v — the loops of Compact (compact, with or without HTML escaping) and Indent over the
   translated scanner (Scan.v): they accept exactly the texts checkValid accepts, whatever the
   output accumulator does; and both are runs of the automaton with an accumulator, so by
   ScannerParse.run_parse what they write on a text the reader reads as t is their fold over the tokens
   of t: compact with escaping switch esc writes Text.print esc t (compact_go_spec), and Indent writes
   Text.pp false ind 0 t followed by the white space that ends the text (indent_go_parse; nothing
   more when the text does not end in white space, indent_go_pp_exact). *)
From Coq Require Import Lia.
From JP Require Import Bytes Json Text JsonFacts EqualFacts ReadInv Scan ScannerRef ScannerCorrect ScannerGrammar Codec PrintParse ScannerParse.
From JP.gen Require Import ScannerGen.

(* ---- Compact and Indent are loops with an accumulator (ScannerParse.gloop), hence runs (grun) ---- *)

(* one step of the automaton with its op code: the same function as ScannerGrammar.rstep (astep_ostep is
   astep_rstep); the facts about a single step are there, about rstep *)
Definition ostep (x : st) (stk : list ps) (c : byte) : option (st * list ps * Z) :=
  let r := ref_step (canon x stk) c in
  if err (fst r) then None else Some (step (fst r), parseState (fst r), snd r).

Lemma astep_ostep x stk c :
  astep x stk c = match ostep x stk c with Some (x', stk', _) => Some (x', stk') | None => None end.
Proof. exact (astep_rstep x stk c). Qed.

(* the accumulators of compact and of Indent *)
Definition cf (esc : bool) (a : nat * bytes) (v : Z) (c : byte) (r : bytes) : nat * bytes :=
  match fst a with
  | S k => (k, snd a)
  | O =>
      if esc && (Byte.eqb c x3c || Byte.eqb c x3e || Byte.eqb c x26) then
        (0%nat, hex_lo c :: hex_hi c :: x30 :: x30 :: x75 :: x5c :: snd a)
      else if esc && Byte.eqb c xe2 &&
              match r with
              | x80 :: xa8 :: _ | x80 :: xa9 :: _ => true
              | _ => false
              end then
        (2%nat, hex_lo (match r with _ :: d :: _ => d | _ => x00 end) :: x32 :: x30 :: x32 :: x75 :: x5c :: snd a)
      else if (scanSkipSpace <=? v)%Z then (0%nat, snd a)
      else (0%nat, c :: snd a)
  end.

Lemma compact_loop_g esc : forall bs s skip out,
  compact_loop esc s bs skip out =
  match gloop _ (cf esc) s bs (skip, out) with Some (s', a) => Some (s', snd a) | None => None end.
Proof.
  induction bs as [|c r IH]; intros s skip out; [reflexivity|].
  cbn [compact_loop gloop]. destruct (step_fn (step s) s c) as [s' v].
  destruct (v =? scanError)%Z; [reflexivity|]. unfold cf. cbn [fst snd].
  destruct skip as [|k]; [|apply IH].
  destruct (esc && (Byte.eqb c x3c || Byte.eqb c x3e || Byte.eqb c x26)); [apply IH|].
  match goal with |- context [if ?b then _ else _] => destruct b end; [apply IH|].
  destruct (scanSkipSpace <=? v)%Z; apply IH.
Qed.

(* what Indent does on a byte outside a token, by the six structural bytes: on an opening bracket, a comma, a colon, a
   closing bracket, any other byte *)
Definition structm {T} (o k c e d : T) (b : byte) : T :=
  match b with x7b | x5b => o | x2c => k | x3a => c | x7d | x5d => e | _ => d end.

Lemma structm_map {A B} (g : A -> B) a1 a2 a3 a4 a5 c :
  g (structm a1 a2 a3 a4 a5 c) = structm (g a1) (g a2) (g a3) (g a4) (g a5) c.
Proof. destruct c; reflexivity. Qed.

Definition idf (ind : bytes) (a : bool * nat * bytes) (v : Z) (c : byte) (r : bytes) : bool * nat * bytes :=
  if (v =? scanSkipSpace)%Z then a else
  let '(need, depth, out) := a in
  let '(need, depth, out) :=
    if need && negb (v =? scanEndObject)%Z && negb (v =? scanEndArray)%Z
    then (false, S depth, newline_rev ind (S depth) out)
    else (need, depth, out) in
  if (v =? scanContinue)%Z then (need, depth, c :: out)
  else
    structm (true, depth, c :: out) (need, depth, newline_rev ind depth (c :: out)) (need, depth, x20 :: c :: out)
            (if need then (false, depth, c :: out) else (need, pred depth, c :: newline_rev ind (pred depth) out))
            (need, depth, c :: out) c.

(* Scan.indent_loop after the step of the scanner, over an arbitrary continuation k, and the loop written over it: the
   model is that loop up to conversion, and a step of it does not unfold to a match that holds the fixpoint in each of
   its 256 branches *)
Definition indent_body (k : bool -> nat -> bytes -> option (scanner * bytes)) (ind : bytes) (v : Z) (c : byte)
    (need : bool) (depth : nat) (out : bytes) : option (scanner * bytes) :=
  if (v =? scanSkipSpace)%Z then k need depth out
  else if (v =? scanError)%Z then None
  else
    let '(need, depth, out) :=
      if need && negb (v =? scanEndObject)%Z && negb (v =? scanEndArray)%Z
      then (false, S depth, newline_rev ind (S depth) out)
      else (need, depth, out) in
    if (v =? scanContinue)%Z then k need depth (c :: out)
    else
      structm (k true depth (c :: out)) (k need depth (newline_rev ind depth (c :: out))) (k need depth (x20 :: c :: out))
              (if need then k false depth (c :: out) else k need (pred depth) (c :: newline_rev ind (pred depth) out))
              (k need depth (c :: out)) c.

Fixpoint indent_iter (ind : bytes) (s : scanner) (bs : bytes) (need : bool) (depth : nat) (out : bytes)
  : option (scanner * bytes) :=
  match bs with
  | [] => Some (s, out)
  | c :: r => let (s', v) := step_fn (step s) s c in indent_body (indent_iter ind s' r) ind v c need depth out
  end.

Lemma indent_loop_iter : indent_loop = indent_iter.
Proof. reflexivity. Qed.

Lemma indent_body_idf k (K : bool * nat * bytes -> option (scanner * bytes)) ind v c r need depth out :
  (forall n d o, k n d o = K (n, d, o)) ->
  indent_body k ind v c need depth out = if (v =? scanError)%Z then None else K (idf ind (need, depth, out) v c r).
Proof.
  intro H. unfold indent_body, idf. destruct (v =? scanSkipSpace)%Z eqn:Sk.
  { apply Z.eqb_eq in Sk. subst v. apply H. }
  destruct (v =? scanError)%Z; [reflexivity|].
  destruct (need && negb (v =? scanEndObject)%Z && negb (v =? scanEndArray)%Z);
    (destruct (v =? scanContinue)%Z; [apply H|]); rewrite (structm_map K), !H; [reflexivity|]; now destruct need.
Qed.

Lemma indent_loop_g ind : forall bs s need depth out,
  indent_loop ind s bs need depth out =
  match gloop _ (idf ind) s bs (need, depth, out) with Some (s', a) => Some (s', snd a) | None => None end.
Proof.
  rewrite indent_loop_iter. induction bs as [|c r IH]; intros s need depth out; [reflexivity|].
  cbn [indent_iter gloop]. destruct (step_fn (step s) s c) as [s' v].
  rewrite (indent_body_idf _ (fun a => match gloop _ (idf ind) s' r a with Some (s', a) => Some (s', snd a) | None => None end)
             ind v c r need depth out (IH s')).
  now destruct (v =? scanError)%Z.
Qed.

Lemma scanner0_swf : swf scanner0 /\ is_error (step scanner0) = false.
Proof. split; [split|]; reflexivity. Qed.

Lemma compact_go_gfin esc bs :
  compact_go esc bs = match gfin _ (cf esc) scanner0 bs (0%nat, []) with Some a => Some (rev (snd a)) | None => None end.
Proof.
  unfold compact_go, gfin. rewrite compact_loop_g. destruct (gloop _ _ _ _ _) as [[s' a]|]; [|reflexivity].
  cbn [snd]. destruct (snd (scanner_eof s') =? scanError)%Z; reflexivity.
Qed.

Lemma indent_go_gfin ind bs :
  indent_go ind bs =
  match gfin _ (idf ind) scanner0 bs (false, 0%nat, []) with Some a => Some (rev (snd a)) | None => None end.
Proof.
  unfold indent_go, gfin. rewrite indent_loop_g. destruct (gloop _ _ _ _ _) as [[s' a]|]; [|reflexivity].
  cbn [snd]. destruct (snd (scanner_eof s') =? scanError)%Z; reflexivity.
Qed.

Lemma compact_go_grun esc bs :
  compact_go esc bs =
  match grun _ (cf esc) St_stateBeginValue [] bs (0%nat, []) with Some a => Some (rev (snd a)) | None => None end.
Proof. destruct scanner0_swf as [W NE]. now rewrite compact_go_gfin, (gfin_grun _ (cf esc) bs scanner0 _ W NE). Qed.

Lemma indent_go_grun ind bs :
  indent_go ind bs =
  match grun _ (idf ind) St_stateBeginValue [] bs (false, 0%nat, []) with Some a => Some (rev (snd a)) | None => None end.
Proof. destruct scanner0_swf as [W NE]. now rewrite indent_go_gfin, (gfin_grun _ (idf ind) bs scanner0 _ W NE). Qed.

(* ---- acceptance: Compact and Indent accept exactly what Valid accepts ---- *)

Theorem compact_accepts_iff_valid esc bs : (exists out, compact_go esc bs = Some out) <-> valid_gen bs = true.
Proof.
  rewrite compact_go_gfin, <- (gfin_valid _ (cf esc) bs (0%nat, [])).
  destruct (gfin _ _ _ _ _) as [a|]; split; intros [o E]; try discriminate E; eauto.
Qed.

Theorem indent_accepts_iff_valid ind bs : (exists out, indent_go ind bs = Some out) <-> valid_gen bs = true.
Proof.
  rewrite indent_go_gfin, <- (gfin_valid _ (idf ind) bs (false, 0%nat, [])).
  destruct (gfin _ _ _ _ _) as [a|]; split; intros [o E]; try discriminate E; eauto.
Qed.

Theorem compact_accepts_iff_parse esc bs : (exists out, compact_go esc bs = Some out) <-> exists t, parse bs = Some t.
Proof. rewrite compact_accepts_iff_valid. apply valid_gen_iff_parse. Qed.

Theorem indent_accepts_iff_parse ind bs : (exists out, indent_go ind bs = Some out) <-> exists t, parse bs = Some t.
Proof. rewrite indent_accepts_iff_valid. apply valid_gen_iff_parse. Qed.

Print Assumptions compact_accepts_iff_parse.
Print Assumptions indent_accepts_iff_parse.

(* ---- what the accumulators do with one byte ---- *)

Definition isspecial (c : byte) : bool := match c with x3c | x3e | x26 | xe2 => true | _ => false end.

Lemma plain_special c : plainb c = true -> isspecial c = false.
Proof. destruct c; (discriminate || reflexivity). Qed.

Lemma ws_plain c : is_ws c = true -> isspecial c = false.
Proof. bytecases c. Qed.

Lemma special_tests c : isspecial c = false ->
  Byte.eqb c x3c || Byte.eqb c x3e || Byte.eqb c x26 = false /\ Byte.eqb c xe2 = false.
Proof. destruct c; try discriminate; split; reflexivity. Qed.

(* a byte that escaping does not rewrite is dropped or kept, as the op code says *)
Lemma cf_plain esc out v c r : isspecial c = false ->
  cf esc (0%nat, out) v c r = if (scanSkipSpace <=? v)%Z then (0%nat, out) else (0%nat, c :: out).
Proof. intro Sp. destruct (special_tests c Sp) as [A B]. unfold cf. cbn [fst snd]. now rewrite A, B, !andb_false_r. Qed.

Lemma cf_drop esc out v c r : isspecial c = false -> (scanSkipSpace <=? v)%Z = true ->
  cf esc (0%nat, out) v c r = (0%nat, out).
Proof. intros Sp V. now rewrite cf_plain, V. Qed.

Lemma keep_struct esc out v c r : isspecial c = false -> (scanSkipSpace <=? v)%Z = false ->
  cf esc (0%nat, out) v c r = (0%nat, c :: out).
Proof. intros Sp V. now rewrite cf_plain, V. Qed.

(* with escaping, inside a string: what compact does with one byte, in the words of Codec.he_cons *)
Lemma cf_cons out c r :
  cf true (0%nat, out) scanContinue c r =
  match is_ls (c :: r) with
  | Some (d, _) => (2%nat, d :: x32 :: x30 :: x32 :: x75 :: x5c :: out)
  | None => if html_char c then (0%nat, hex_lo c :: hex_hi c :: x30 :: x30 :: x75 :: x5c :: out) else (0%nat, c :: out)
  end.
Proof.
  unfold cf. cbn [fst snd andb]. rewrite <- html_char_eqb. destruct (html_char c) eqn:Hc.
  - destruct (is_ls (c :: r)) eqn:L; [apply is_ls_head in L; subst c; discriminate Hc | reflexivity].
  - destruct (Byte.eqb c xe2) eqn:E.
    + apply Byte.byte_dec_bl in E. subst c. cbn [andb]. fold (ls_head (xe2 :: r)). rewrite ls_head_is_ls.
      destruct (is_ls (xe2 :: r)) as [[d r']|] eqn:L; [|reflexivity].
      apply is_ls_inv in L as [[L ->]|[L ->]]; injection L as ->; reflexivity.
    + destruct (is_ls (c :: r)) eqn:L; [apply is_ls_head in L; subst c; discriminate E | reflexivity].
Qed.

Lemma is_ls_quote c p s :
  is_ls (c :: p ++ x22 :: s) = match is_ls (c :: p) with Some (d, p') => Some (d, p' ++ x22 :: s) | None => None end.
Proof.
  destruct (is_ls (c :: p)) as [[d p']|] eqn:L.
  - apply is_ls_inv in L as [[L ->]|[L ->]]; injection L as -> ->; reflexivity.
  - destruct (is_ls (c :: p ++ x22 :: s)) as [[d t]|] eqn:L'; [exfalso|reflexivity].
    apply is_ls_inv in L' as [[L' _]|[L' _]]; injection L' as -> L'; destruct p as [|a [|b p]]; try discriminate L';
      injection L' as -> -> _; discriminate L.
Qed.

Definition body (esc : bool) (b : bytes) : bytes := if esc then html_escape b else b.

Lemma rev_spell esc b out : rev (spell esc b) ++ out = x22 :: rev (body esc b) ++ x22 :: out.
Proof. unfold spell. fold (body esc b). cbn [rev]. rewrite rev_unit. cbn [app]. now rewrite <- app_assoc. Qed.

(* the pending line break after an opening bracket *)
Definition ent_d (need : bool) (dp : nat) : nat := if need then S dp else dp.
Definition ent_o (ind : bytes) (need : bool) (dp : nat) (out : bytes) : bytes :=
  if need then newline_rev ind (S dp) out else out.

Lemma rep_bytes_rep n s : rep_bytes n s = rep n s.
Proof. induction n as [|n IH]; [reflexivity|]. cbn [rep_bytes rep]. now rewrite IH. Qed.

Lemma newline_rev_nl ind n out : newline_rev ind n out = rev (nl ind n) ++ out.
Proof. unfold newline_rev, nl. now rewrite rep_bytes_rep. Qed.

Definition nonstruct (c : byte) : bool :=
  match c with x7b | x5b | x2c | x3a | x7d | x5d => false | _ => true end.

Lemma structm_other {T} (a1 a2 a3 a4 a5 : T) c : nonstruct c = true -> structm a1 a2 a3 a4 a5 c = a5.
Proof. destruct c; try discriminate; reflexivity. Qed.

Lemma idf_lit ind need dp out c r : nonstruct c = true ->
  idf ind (need, dp, out) scanBeginLiteral c r = (false, ent_d need dp, c :: ent_o ind need dp out).
Proof. intro N. unfold idf. destruct need; cbn; now rewrite structm_other. Qed.

Lemma idf_end ind dp out c r : is_ws c = true -> idf ind (false, dp, out) scanEnd c r = (false, dp, c :: out).
Proof. intro W. destruct (is_ws_inv c W) as [->|[->|[->| ->]]]; reflexivity. Qed.

Definition ppmember (ind : bytes) (dp : nat) (kv : bytes * tjson) : bytes :=
  spell false (fst kv) ++ x3a :: x20 :: pp false ind dp (snd kv).

(* an accumulator that does not look at the text ahead *)
Lemma cfold_blind A (f : A -> Z -> byte -> bytes -> A) : (forall a v c r r', f a v c r = f a v c r') ->
  forall a tk r, tkfold A f a tk r = F A f a tk.
Proof.
  intros B a tk r. unfold F.
  assert (K : forall p a r r', cfold A f a p r = cfold A f a p r').
  { induction p as [|c p IH]; intros a0 r0 r'; [reflexivity|]. cbn [cfold]. rewrite (B a0 _ c _ (p ++ r')). apply IH. }
  destruct tk as [v c p|b]; cbn [tkfold]; [rewrite (B a v c _ (p ++ [])) | rewrite (B a _ x22 _ ((b ++ [x22]) ++ []))]; apply K.
Qed.

(* ---- the text of a token list ---- *)
Definition ctext (esc : bool) (tk : token) : bytes := match tk with Tk _ c p => c :: p | TkS b => spell esc b end.
Definition flat (esc : bool) (tks : list token) : bytes := concat (map (ctext esc) tks).

Lemma flat_app esc u w : flat esc (u ++ w) = flat esc u ++ flat esc w.
Proof. unfold flat. now rewrite map_app, concat_app. Qed.

Lemma flat_seq esc v1 c1 v2 c2 l :
  flat esc (seq_toks (Pn v1 c1) (Pn v2 c2) l) = sep_concat [c1] (map (flat esc) l) ++ [c2].
Proof.
  destruct l as [|x l]; [reflexivity|]. cbn [seq_toks]. revert x. induction l as [|y l IH]; intro x.
  - cbn [seq_tail map sep_concat]. now rewrite flat_app.
  - cbn [seq_tail map]. rewrite sep_concat_cons2, flat_app. change (flat esc (Pn v1 c1 :: ?u)) with (c1 :: flat esc u).
    rewrite (IH y). cbn [map app]. now rewrite <- !app_assoc.
Qed.

Theorem print_toks esc t : print esc t = flat esc (toks t).
Proof.
  induction t as [| | |lit|b|l IH|ms IH] using tjson_rect'; try reflexivity.
  - destruct lit as [|c p]; [reflexivity|]. cbn. now rewrite app_nil_r.
  - cbn. now rewrite app_nil_r.
  - cbn [print toks]. change (flat esc (Pn ?v ?c :: ?u)) with (c :: flat esc u). rewrite flat_seq, map_map. do 3 f_equal.
    apply map_ext_in. intros x Hx. rewrite Forall_forall in IH. apply (IH x Hx).
  - cbn [print toks]. change (flat esc (Pn ?v ?c :: ?u)) with (c :: flat esc u). rewrite flat_seq, map_map. do 3 f_equal.
    apply map_ext_in. intros x Hx. rewrite Forall_forall in IH. change (flat esc (TkS ?k :: Pn ?v ?c :: ?u)) with (spell esc k ++ c :: flat esc u).
    now rewrite (IH x Hx).
Qed.

(* the tokens of a well-formed tree: no byte outside a string is one that escaping rewrites *)
Definition tk_okv (tk : token) : Prop := tk_ok tk /\ match tk with Tk v _ _ => (scanSkipSpace <=? v)%Z = false | TkS _ => True end.

Lemma num_plain_lit lit : num_ok lit -> forallb plainb lit = true.
Proof.
  intro N. apply scan_number_whole in N. destruct lit as [|c r]; [reflexivity|]. rewrite <- number_lex in N.
  destruct (num_start c) as [x|] eqn:Ns; [|discriminate]. destruct (num_start_facts c x Ns) as (Nx & _ & Pc).
  destruct (tacc x r) as [[p rest]|] eqn:Ta; [|discriminate]. cbn [papp app] in N. injection N as E1 E2. subst p rest.
  cbn [forallb]. now rewrite Pc, (tacc_plain r x r [] Nx Ta).
Qed.

Lemma seq_okv sep close l : tk_okv sep -> tk_okv close -> Forall (Forall tk_okv) l -> Forall tk_okv (seq_toks sep close l).
Proof.
  intros Hs Hc H. destruct H as [|x l Hx Hl]; [now constructor|]. cbn [seq_toks]. apply Forall_app. split; [exact Hx|].
  induction Hl as [|y l Hy _ IH]; cbn [seq_tail]; [now constructor|]. constructor; [exact Hs|]. apply Forall_app. now split.
Qed.

Lemma pn_okv v c : plainb c = true -> (scanSkipSpace <=? v)%Z = false -> tk_okv (Pn v c).
Proof. intros P V. split; [cbn; now rewrite P | exact V]. Qed.

Theorem toks_okv t : tok t -> Forall tk_okv (toks t).
Proof.
  induction t as [| | |lit|b|l IH|ms IH] using tjson_rect'; intro T; try (repeat constructor; fail).
  - destruct lit as [|c p]; [constructor|]. repeat constructor. exact (num_plain_lit _ T).
  - apply tok_arr in T. constructor; [now apply pn_okv|]. apply seq_okv; try now apply pn_okv.
    rewrite Forall_forall in *. intros y Hy. apply in_map_iff in Hy as (x & <- & Hx). apply (IH x Hx), T, Hx.
  - apply tok_obj in T. constructor; [now apply pn_okv|]. apply seq_okv; try now apply pn_okv.
    rewrite Forall_forall in *. intros y Hy. apply in_map_iff in Hy as (x & <- & Hx). destruct (T x Hx) as [_ T2].
    constructor; [now split|]. constructor; [now apply pn_okv | apply (IH x Hx), T2].
Qed.

(* ---- compact: the output on a text that parses to t is print esc t ---- *)
Section Compact.
  Variable esc : bool.
  Notation cfoldc := (cfold _ (cf esc)).
  Definition okc (a : nat * bytes) : Prop := fst a = 0%nat.

  Lemma cfold_plain : forall p out r, forallb plainb p = true -> cfoldc (0%nat, out) p r = (0%nat, rev p ++ out).
  Proof.
    induction p as [|c p IH]; intros out r H; [reflexivity|]. cbn [forallb] in H. apply andb_prop in H as [Pc Pp].
    cbn [cfold]. rewrite keep_struct by (reflexivity || exact (plain_special c Pc)).
    rewrite (IH _ _ Pp). cbn [rev]. now rewrite <- app_assoc.
  Qed.

  (* the bytes of an escaped U+2028/9 that are still to be skipped lie inside the token *)
  Lemma cf_skip_le a v c r : (fst a <= S (length r))%nat -> (fst (cf esc a v c r) <= length r)%nat.
  Proof.
    destruct a as [[|k] out]; unfold cf; cbn [fst snd]; [|lia]. intros _.
    destruct (esc && (Byte.eqb c x3c || Byte.eqb c x3e || Byte.eqb c x26)); [cbn; lia|].
    match goal with |- context [if ?b then _ else _] => destruct b eqn:E end.
    - apply andb_prop in E as [_ E]. destruct r as [|d1 [|d2 r']]; try discriminate; try (destruct d1; discriminate). cbn. lia.
    - destruct (scanSkipSpace <=? v)%Z; cbn; lia.
  Qed.

  Lemma cfold_skip : forall p a, (fst a <= length p)%nat -> fst (cfoldc a p []) = 0%nat.
  Proof.
    induction p as [|c p IH]; intros a H; [cbn in *; lia|]. cbn [cfold]. apply IH. rewrite app_nil_r.
    apply cf_skip_le. exact H.
  Qed.

  Lemma okc_F a tk : okc a -> okc (F _ (cf esc) a tk).
  Proof.
    unfold okc, F. intro Oa. destruct tk as [v c p|b]; cbn [tkfold]; apply cfold_skip; rewrite app_nil_r;
      apply cf_skip_le; rewrite Oa; lia.
  Qed.

  (* a string: with escaping, byte by byte as html_escape does (Codec.he_cons) *)
  Lemma cfold_str : forall (n : nat) p, (length p <= n)%nat -> forall out r,
    cfoldc (0%nat, out) (p ++ [x22]) r = (0%nat, x22 :: rev (body esc p) ++ out).
  Proof.
    destruct esc eqn:Es; cbn [body].
    2:{ intros _ p _ out r. assert (K : forall q o, cfold _ (cf false) (0%nat, o) q r = (0%nat, rev q ++ o)).
        { induction q as [|c q IH]; intro o; [reflexivity|]. cbn [cfold rev]. rewrite <- app_assoc. exact (IH (c :: o)). }
        now rewrite K, rev_unit. }
    induction n as [|n IH]; intros p L out r.
    - destruct p; [reflexivity | simpl in L; lia].
    - destruct p as [|c p]; [reflexivity|]. simpl in L. apply le_S_n in L. cbn [app cfold]. rewrite he_cons.
      pose proof (cf_cons out c ((p ++ [x22]) ++ r)) as Fc. rewrite <- app_assoc in Fc. cbn [app] in Fc. rewrite is_ls_quote in Fc.
      rewrite <- app_assoc. cbn [app]. rewrite Fc. clear Fc.
      destruct (is_ls (c :: p)) as [[d p']|] eqn:Ls.
      + apply is_ls_inv in Ls as [[E ->]|[E ->]]; injection E as -> ->; simpl in L; cbn [app cfold];
          change (cf true (2%nat, ?o) ?v ?c ?r) with (1%nat, o); change (cf true (1%nat, ?o) ?v ?c ?r) with (0%nat, o);
          rewrite (IH p' ltac:(lia)); cbn [rev]; rewrite <- ?app_assoc; reflexivity.
      + destruct (html_char c); rewrite (IH p L); cbn [rev app]; rewrite <- ?app_assoc; reflexivity.
  Qed.

  Lemma c_token out tk r : tk_okv tk -> tkfold _ (cf esc) (0%nat, out) tk r = (0%nat, rev (ctext esc tk) ++ out).
  Proof.
    intros [K V]. destruct tk as [v c p|b]; cbn [tkfold ctext].
    - cbn [tk_ok forallb] in K. apply andb_prop in K as [Pc Pp].
      rewrite keep_struct by (exact V || exact (plain_special c Pc)).
      rewrite (cfold_plain p _ r Pp). cbn [rev]. now rewrite <- app_assoc.
    - rewrite keep_struct by reflexivity. rewrite (cfold_str _ b (le_n _)), rev_spell. reflexivity.
  Qed.

  Lemma c_tfold tks : Forall tk_okv tks -> forall out, tfold _ (cf esc) tks (0%nat, out) = (0%nat, rev (flat esc tks) ++ out).
  Proof.
    induction 1 as [|tk tks K _ IH]; intro out; [reflexivity|]. rewrite tfold_cons. unfold F.
    rewrite (c_token out tk [] K), IH.
    unfold flat. cbn [map concat]. now rewrite rev_app_distr, <- app_assoc.
  Qed.

  Lemma c_efold : forall s out, skip_ws s = [] -> efold _ (cf esc) (0%nat, out) s = (0%nat, out).
  Proof.
    induction s as [|c r IH]; intros out; [reflexivity|]. cbn [skip_ws efold]. destruct (is_ws c) eqn:W; [|discriminate].
    rewrite cf_drop by (reflexivity || apply ws_plain, W). apply IH.
  Qed.

  Theorem compact_go_run bs :
    compact_go esc bs = match parse bs with Some t => Some (print esc t) | None => None end.
  Proof.
    rewrite compact_go_grun, (run_parse _ (cf esc) okc).
    - unfold parse. destruct (parse_value (parse_fuel bs) max_depth bs) as [[t rest]|] eqn:Pv; [|reflexivity].
      destruct (skip_ws rest) eqn:W; [|reflexivity].
      pose proof (proj1 (proj1 parse_value_wf _ _ _ _ (parse_value_reads _ _ _ _ _ Pv))) as T.
      rewrite (c_tfold _ (toks_okv t T)), (c_efold _ _ W), <- print_toks. cbn [snd]. now rewrite app_nil_r, rev_involutive.
    - intros [k out] c r Oa W. unfold okc in Oa. cbn in Oa. subst k. apply cf_drop; [apply ws_plain, W | reflexivity].
    - intros [k out] tk r Oa K. unfold okc in Oa. cbn in Oa. subst k. unfold F.
      destruct tk as [v c p|b]; cbn [tkfold].
      + cbn [tk_ok forallb] in K. apply andb_prop in K as [Pc Pp]. apply plain_special in Pc.
        assert (E : forall r', cf esc (0%nat, out) v c r' = cf esc (0%nat, out) v c []).
        { intro r'. destruct (scanSkipSpace <=? v)%Z eqn:V; [rewrite !cf_drop | rewrite !keep_struct]; try reflexivity; try exact V; exact Pc. }
        rewrite (E (p ++ r)), (E (p ++ [])). destruct (cf esc (0%nat, out) v c []) as [k o] eqn:C.
        assert (k = 0%nat) as ->.
        { destruct (scanSkipSpace <=? v)%Z eqn:V; [rewrite cf_drop in C | rewrite keep_struct in C]; try exact V; try exact Pc; now inversion C. }
        now rewrite !(cfold_plain p _ _ Pp).
      + rewrite !keep_struct by reflexivity. now rewrite !(cfold_str _ b (le_n _)).
    - exact okc_F.
    - reflexivity.
  Qed.
End Compact.

Theorem compact_go_spec esc bs :
  compact_go esc bs = match parse bs with Some t => Some (print esc t) | None => None end.
Proof. apply compact_go_run. Qed.

(* ---- Indent: the output on a text that parses to t is pp false ind 0 t, then the trailing space ---- *)
Section Indent.
  Variable ind : bytes.
  Notation Fi := (F _ (idf ind)).
  Notation tfi := (tfold _ (idf ind)).

  Lemma i_cfold : forall p dp out r, cfold _ (idf ind) (false, dp, out) p r = (false, dp, rev p ++ out).
  Proof. induction p as [|c p IH]; intros dp out r; [reflexivity|]. cbn [cfold rev]. rewrite <- app_assoc. exact (IH dp (c :: out) r). Qed.

  Lemma Fi_lit need dp out c p : nonstruct c = true ->
    Fi (need, dp, out) (Tk scanBeginLiteral c p) = (false, ent_d need dp, rev (c :: p) ++ ent_o ind need dp out).
  Proof. intro N. unfold F. cbn [tkfold]. rewrite idf_lit by exact N. rewrite i_cfold. cbn [rev]. now rewrite <- app_assoc. Qed.

  Lemma Fi_str need dp out b :
    Fi (need, dp, out) (TkS b) = (false, ent_d need dp, rev (spell false b) ++ ent_o ind need dp out).
  Proof. unfold F. cbn [tkfold]. rewrite idf_lit by reflexivity. rewrite i_cfold, rev_unit, (rev_spell false b). reflexivity. Qed.

  Definition ival (need : bool) (dp : nat) (out : bytes) (txt : bytes) : bool * nat * bytes :=
    (false, ent_d need dp, rev txt ++ ent_o ind need dp out).

  Lemma sep_concat_tail sep (x : bytes) l : sep_concat sep (x :: l) = x ++ concat (map (fun y => sep ++ y) l).
  Proof. revert x. induction l as [|y l IH]; intro x; [cbn; now rewrite app_nil_r|]. rewrite sep_concat_cons2, (IH y). cbn [map concat]. now rewrite <- app_assoc. Qed.

  (* a bracket, the elements (members) each on a line of its own one level deeper, the closing bracket *)
  Section Seq.
    Variables (T : Type) (tk : T -> list token) (txt : nat -> T -> bytes).
    Variables (topen tsep tclose : token) (copen cclose : byte).
    Hypothesis Hopen : forall need dp out, Fi (need, dp, out) topen = (true, ent_d need dp, copen :: ent_o ind need dp out).
    Hypothesis Hsep : forall dp out, Fi (false, dp, out) tsep = (false, dp, newline_rev ind dp (x2c :: out)).
    Hypothesis Hclose1 : forall dp out, Fi (true, dp, out) tclose = (false, dp, cclose :: out).
    Hypothesis Hclose0 : forall dp out, Fi (false, dp, out) tclose = (false, pred dp, cclose :: newline_rev ind (pred dp) out).

    Definition ptxt (dp : nat) (l : list T) : bytes :=
      match l with
      | [] => [copen; cclose]
      | _ => copen :: nl ind (S dp) ++ sep_concat (x2c :: nl ind (S dp)) (map (txt (S dp)) l) ++ nl ind dp ++ [cclose]
      end.

    Lemma i_seq l : Forall (fun t => forall need dp out, tfi (tk t) (need, dp, out) = ival need dp out (txt (ent_d need dp) t)) l ->
      forall need dp out, tfi (topen :: seq_toks tsep tclose (map tk l)) (need, dp, out) = ival need dp out (ptxt (ent_d need dp) l).
    Proof.
      intros H need dp out. rewrite tfold_cons, Hopen. set (D := ent_d need dp). set (O := ent_o ind need dp out).
      destruct H as [|x l Hx Hl]; [cbn [map seq_toks]; now rewrite tfold_cons, Hclose1|].
      cbn [map seq_toks ptxt]. rewrite (tfold_app _ (idf ind)), Hx. unfold ival. cbn [ent_d ent_o].
      rewrite sep_concat_tail.
      assert (K : forall out', tfi (seq_tail tsep tclose (map tk l)) (false, S D, out') =
                    (false, D, cclose :: rev (nl ind D) ++ rev (concat (map (fun y => (x2c :: nl ind (S D)) ++ y) (map (txt (S D)) l))) ++ out')).
      { induction Hl as [|t l Ht _ IH]; intro out'; cbn [map seq_tail concat].
        - now rewrite tfold_cons, Hclose0, newline_rev_nl.
        - rewrite tfold_cons, Hsep, (tfold_app _ (idf ind)), (Ht false). unfold ival. cbn [ent_d ent_o].
          rewrite IH, newline_rev_nl. do 2 f_equal. change ((x2c :: nl ind (S D)) ++ txt (S D) t) with ([x2c] ++ nl ind (S D) ++ txt (S D) t).
          rewrite !rev_app_distr, <- !app_assoc. reflexivity. }
      rewrite K, newline_rev_nl. f_equal. change (copen :: ?u) with ([copen] ++ u). rewrite !rev_app_distr, <- !app_assoc. reflexivity.
    Qed.
  End Seq.

  Theorem i_tfold t : tok t -> forall need dp out,
    tfi (toks t) (need, dp, out) = ival need dp out (pp false ind (ent_d need dp) t).
  Proof.
    induction t as [| | |lit|b|l IH|ms IH] using tjson_rect'; intros T need dp out.
    - exact (Fi_lit need dp out x6e (B "ull") eq_refl).
    - exact (Fi_lit need dp out x74 (B "rue") eq_refl).
    - exact (Fi_lit need dp out x66 (B "alse") eq_refl).
    - destruct (lit_first lit (num_ok_lit_ok lit T)) as (c & r & -> & Hc). apply (Fi_lit need dp out c r).
      destruct Hc as [-> | Hc]; [reflexivity | revert Hc; clear; destruct c; try discriminate; reflexivity].
    - exact (Fi_str need dp out b).
    - apply tok_arr in T. cbn [toks]. rewrite (i_seq tjson toks (fun d t => pp false ind d t) _ _ _ x5b x5d); try reflexivity.
      + intros n d o. destruct n; reflexivity.
      + rewrite Forall_forall in *. intros x Hx. apply (IH x Hx), T, Hx.
    - apply tok_obj in T. cbn [toks]. rewrite (i_seq _ mtoks (ppmember ind) _ _ _ x7b x7d); try reflexivity.
      + intros n d o. destruct n; reflexivity.
      + rewrite Forall_forall in *. intros [k v] Hx n d o. pose proof (IH _ Hx (proj2 (T _ Hx))) as Hv. unfold mtoks. cbn [fst snd] in *. rewrite !tfold_cons, Fi_str.
        change (Fi (false, ?d, ?o) (Pn scanObjectKey x3a)) with (false, d, x20 :: x3a :: o). rewrite (Hv false). unfold ival, ppmember. cbn [ent_d ent_o fst snd].
        f_equal. change (spell false k ++ x3a :: x20 :: ?u) with (spell false k ++ [x3a; x20] ++ u). rewrite !rev_app_distr, <- !app_assoc. reflexivity.
  Qed.

  Lemma i_efold : forall s dp out, skip_ws s = [] -> efold _ (idf ind) (false, dp, out) s = (false, dp, rev s ++ out).
  Proof.
    induction s as [|c r IH]; intros dp out; [reflexivity|]. cbn [skip_ws efold]. destruct (is_ws c) eqn:W; [|discriminate]. intro H.
    rewrite (idf_end ind dp out c r W), (IH _ _ H). cbn [rev]. now rewrite <- app_assoc.
  Qed.

  Theorem indent_go_run bs :
    indent_go ind bs =
    match parse_value (parse_fuel bs) max_depth bs with
    | Some (t, rest) => match skip_ws rest with [] => Some (pp false ind 0 t ++ rest) | _ => None end
    | None => None
    end.
  Proof.
    rewrite indent_go_grun, (run_parse _ (idf ind) (fun _ => True)); try exact I.
    - destruct (parse_value (parse_fuel bs) max_depth bs) as [[t rest]|] eqn:Pv; [|reflexivity].
      destruct (skip_ws rest) eqn:W; [|reflexivity].
      pose proof (proj1 (proj1 parse_value_wf _ _ _ _ (parse_value_reads _ _ _ _ _ Pv))) as T.
      rewrite (i_tfold t T). unfold ival. cbn [ent_d ent_o]. rewrite (i_efold _ _ _ W). cbn [snd].
      now rewrite app_nil_r, rev_app_distr, !rev_involutive.
    - reflexivity.
    - intros a tk r _ _. apply cfold_blind. reflexivity.
    - intros; exact I.
  Qed.
End Indent.

Theorem compact_go_print esc bs t : parse bs = Some t -> compact_go esc bs = Some (print esc t).
Proof. intro H. now rewrite compact_go_spec, H. Qed.

Print Assumptions compact_go_print.

(* Indent keeps the white space after the value (scanEnd is not scanSkipSpace) *)
Theorem indent_go_pp ind bs t rest :
  parse_value (parse_fuel bs) max_depth bs = Some (t, rest) -> skip_ws rest = [] ->
  indent_go ind bs = Some (pp false ind 0 t ++ rest).
Proof. intros Pv W. now rewrite indent_go_run, Pv, W. Qed.

Print Assumptions indent_go_pp.

Definition suffix (rest s : bytes) : Prop := exists pre, s = pre ++ rest.

Definition ends_ws (bs : bytes) : bool := match rev bs with c :: _ => is_ws c | [] => false end.

Lemma skip_ws_last r c : skip_ws (r ++ [c]) = [] -> is_ws c = true.
Proof.
  induction r as [|a r IH]; cbn [app skip_ws].
  - destruct (is_ws c); [reflexivity | discriminate].
  - destruct (is_ws a); [exact IH | discriminate].
Qed.

Lemma all_ws_suffix_nil rest bs : suffix rest bs -> skip_ws rest = [] -> ends_ws bs = false -> rest = [].
Proof.
  intros [pre ->] W E. destruct (rev rest) as [|c r] eqn:R.
  - apply (f_equal (@rev byte)) in R. rewrite rev_involutive in R. exact R.
  - exfalso. apply (f_equal (@rev byte)) in R. rewrite rev_involutive in R. cbn [rev] in R. subst rest.
    unfold ends_ws in E. rewrite app_assoc, rev_unit in E. apply skip_ws_last in W. congruence.
Qed.

Theorem indent_go_parse ind bs t : parse bs = Some t ->
  exists rest, suffix rest bs /\ skip_ws rest = [] /\ indent_go ind bs = Some (pp false ind 0 t ++ rest).
Proof.
  unfold parse. intro H. destruct (parse_value (parse_fuel bs) max_depth bs) as [[t0 rest]|] eqn:Pv; [|discriminate].
  destruct (skip_ws rest) eqn:W; [|discriminate]. inversion H; subst t0. exists rest.
  split; [exact (proj1 reads_suffix _ _ _ _ (parse_value_reads _ _ _ _ _ Pv))|]. split; [exact W|]. apply indent_go_pp; assumption.
Qed.

Theorem indent_go_pp_exact ind bs t : parse bs = Some t -> ends_ws bs = false ->
  indent_go ind bs = Some (pp false ind 0 t).
Proof.
  intros H E. destruct (indent_go_parse ind bs t H) as [rest [Sx [W G]]].
  rewrite (all_ws_suffix_nil rest bs Sx W E), app_nil_r in G. exact G.
Qed.

Print Assumptions indent_go_pp_exact.

(* ---- summary: Compact and Indent as functions of the reader's result ---- *)

Theorem indent_go_none ind bs : parse bs = None -> indent_go ind bs = None.
Proof.
  unfold parse. rewrite indent_go_run. destruct (parse_value (parse_fuel bs) max_depth bs) as [[t rest]|]; [|reflexivity].
  destruct (skip_ws rest); [discriminate | reflexivity].
Qed.

Corollary compact_go_esc_same_tree bs o1 o2 :
  compact_go false bs = Some o1 -> compact_go true bs = Some o2 ->
  exists t, parse bs = Some t /\ o1 = print false t /\ o2 = print true t.
Proof.
  rewrite !compact_go_spec. destruct (parse bs) as [t|]; [|discriminate].
  intros H1 H2. inversion H1; inversion H2. exists t. repeat split.
Qed.

Print Assumptions compact_go_spec.
Print Assumptions indent_go_none.

Example compact_example :
  compact_go true (B " { ""a<b"" : [1, 2.5e+3 , true,null, ""x&y"" ] , ""k"":{} } ") =
  Some [x7b; x22; x61; x5c; x75; x30; x30; x33; x63; x62; x22; x3a; x5b; x31; x2c; x32; x2e; x35; x65; x2b; x33; x2c;
        x74; x72; x75; x65; x2c; x6e; x75; x6c; x6c; x2c; x22; x78; x5c; x75; x30; x30; x32; x36; x79; x22; x5d; x2c;
        x22; x6b; x22; x3a; x7b; x7d; x7d].
Proof. vm_compute. reflexivity. Qed.

Example compact_example_2028 :
  compact_go true [x22; xe2; x80; xa8; xe2; x80; x22] = Some [x22; x5c; x75; x32; x30; x32; x38; xe2; x80; x22].
Proof. vm_compute. reflexivity. Qed.

Example indent_example :
  indent_go (B "  ") (B "{""a"":[1,{}],""b"":[]}") =
  Some (B "{" ++ [x0a] ++ B "  ""a"": [" ++ [x0a] ++ B "    1," ++ [x0a] ++ B "    {}" ++ [x0a] ++ B "  ]," ++ [x0a] ++
        B "  ""b"": []" ++ [x0a] ++ B "}").
Proof. vm_compute. reflexivity. Qed.

(* the one surprise: Indent copies the white space that follows the value *)
Example indent_keeps_trailing_space : indent_go (B "  ") (B " 12 ") = Some (B "12 ").
Proof. vm_compute. reflexivity. Qed.
