(* Depth.v — nesting depth of decoded values, and the side condition (Domain.copy_fits, copies_fit) under which
   copy behaves like RFC 6902: deepCopy (v5, fix dc05ac4) refuses a value whose re-encoding nests deeper than
   the decoder's limit (Text.max_depth = 10000 levels). *)
From Coq Require Import Lia.
From JP Require Import Bytes Json Text Strings Den Pointer Rfc6902 ImplV5 DecodeFacts JsonFacts Abs StrInv.
From JP Require Export Domain.

Local Notation ROk := Rfc6902.Ok.
Local Notation RFail := Rfc6902.Fail.

Definition maxd {A} (f : A -> N) (l : list A) : N := fold_right (fun x a => N.max (f x) a) 0%N l.

Lemma maxd_map {A B} (f : B -> N) (g : A -> B) l : maxd f (map g l) = maxd (fun x => f (g x)) l.
Proof. induction l as [|x l IH]; simpl; [reflexivity | now rewrite IH]. Qed.

Lemma maxd_ext_in {A} (f g : A -> N) l : (forall x, In x l -> f x = g x) -> maxd f l = maxd g l.
Proof.
  induction l as [|x l IH]; intro H; simpl; [reflexivity|].
  rewrite (H x (or_introl eq_refl)), IH; [reflexivity | intros y Hy; apply H; right; exact Hy].
Qed.

Lemma maxd_le {A} (f : A -> N) l x : In x l -> (f x <= maxd f l)%N.
Proof. induction l as [|y l IH]; intro H0; [destruct H0|]. destruct H0 as [E|H]; simpl; [subst; lia | specialize (IH H); lia]. Qed.

Lemma maxd_bound {A} (f : A -> N) l b : (forall x, In x l -> (f x <= b)%N) -> (maxd f l <= b)%N.
Proof.
  induction l as [|y l IH]; intro H; simpl; [lia|].
  pose proof (H y (or_introl eq_refl)). assert (maxd f l <= b)%N by (apply IH; intros x Hx; apply H; right; exact Hx). lia.
Qed.

Lemma tdepth_arr l : Text.tdepth (TArr l) = (1 + maxd Text.tdepth l)%N.
Proof. reflexivity. Qed.

Lemma tdepth_obj ms : Text.tdepth (TObj ms) = (1 + maxd (fun kv => Text.tdepth (snd kv)) ms)%N.
Proof. reflexivity. Qed.

Lemma odepth_arr l : odepth (OArr l) = (1 + maxd odepth l)%N.
Proof. reflexivity. Qed.

Lemma odepth_obj ms : odepth (OObj ms) = (1 + maxd (fun kv => odepth (snd kv)) ms)%N.
Proof. reflexivity. Qed.

Lemma odepth_leaf j : is_container j = false -> odepth j = 0%N.
Proof. destruct j; try reflexivity; discriminate. Qed.

Lemma den_depth t : tnodup t = true -> odepth (den t) = Text.tdepth t.
Proof.
  induction t using tjson_rect'; intro T; try reflexivity.
  - apply tnodup_arr in T. cbn [den]. rewrite odepth_arr, tdepth_arr, maxd_map. f_equal.
    apply maxd_ext_in. rewrite Forall_forall in H, T. intros x Hx. apply (H x Hx). apply (T x Hx).
  - rewrite (den_obj_nodup ms T). apply tnodup_obj in T as [_ F]. unfold den_members.
    rewrite odepth_obj, tdepth_obj, maxd_map. f_equal. cbn [snd].
    apply maxd_ext_in. rewrite Forall_forall in H, F. intros kv Hk. apply (H kv Hk). apply (F kv Hk).
Qed.

(* with duplicate names decoding keeps the LAST value of a name: the depth can only shrink *)
Lemma den_depth_le t : (odepth (den t) <= Text.tdepth t)%N.
Proof.
  induction t using tjson_rect'; try (simpl; lia).
  - cbn [den]. rewrite odepth_arr, tdepth_arr, maxd_map.
    assert (maxd (fun x => odepth (den x)) l <= maxd Text.tdepth l)%N; [|lia].
    apply maxd_bound. rewrite Forall_forall in H. intros x Hx. pose proof (H x Hx). pose proof (maxd_le Text.tdepth l x Hx). lia.
  - cbn [den]. rewrite odepth_obj, tdepth_obj.
    set (m := map (fun kv => (unquote (fst kv), den (snd kv))) ms).
    assert (B : forall kv, In kv m -> (odepth (snd kv) <= maxd (fun kv => Text.tdepth (snd kv)) ms)%N).
    { intros kv Hk. apply in_map_iff in Hk as [kv0 [<- H0]]. cbn [snd]. rewrite Forall_forall in H.
      pose proof (H kv0 H0). pose proof (maxd_le (fun kv => Text.tdepth (snd kv)) ms kv0 H0). cbn beta in *. lia. }
    assert (maxd (fun kv => odepth (snd kv)) (resolve_dups m) <= maxd (fun kv => Text.tdepth (snd kv)) ms)%N; [|lia].
    apply maxd_bound. intros kv Hk. apply B, resolve_dups_incl, Hk.
Qed.

Lemma escape_tree_depth esc t : Text.tdepth (escape_tree esc t) = Text.tdepth t.
Proof.
  induction t using tjson_rect'; rewrite escape_tree_eq; try reflexivity.
  - rewrite !tdepth_arr, maxd_map. f_equal. apply maxd_ext_in. rewrite Forall_forall in H. exact H.
  - rewrite !tdepth_obj, maxd_map. f_equal. cbn [snd]. apply maxd_ext_in. rewrite Forall_forall in H. exact H.
Qed.

Lemma render_depth esc n : nwf n -> Text.tdepth (render esc n) = odepth (aval n).
Proof.
  induction n using node_rect'; intro W.
  - reflexivity.
  - cbn [render aval]. symmetry. apply den_depth. exact W.
  - apply nwf_doc in W as [_ Ws]. rewrite render_doc, aval_doc. unfold abs_members.
    rewrite tdepth_obj, odepth_obj, !maxd_map. f_equal. cbn [snd]. apply maxd_ext_in. intros k _.
    destruct (aget k obj) as [v|] eqn:E; cbn [option_map or_null]; [|reflexivity].
    apply aget_In in E. rewrite Forall_forall in H, Ws. apply (H _ E). apply (Ws _ E).
  - apply nwf_ary in W. cbn [render aval]. rewrite tdepth_arr, odepth_arr, !maxd_map. f_equal.
    apply maxd_ext_in. rewrite Forall_forall in H, W. intros x Hx. apply (H x Hx). apply (W x Hx).
Qed.

Lemma copy_too_deep_val o v : nwf v -> copy_too_deep o v = (max_depth <? odepth (aval v))%N.
Proof.
  intro W. unfold copy_too_deep. rewrite (render_depth (o_esc o) v W).
  destruct v; try reflexivity.
Qed.

Lemma enc_depth esc v : nwf v -> Text.tdepth (enc esc v) = odepth (aval v).
Proof. intro W. unfold enc. rewrite escape_tree_depth. apply render_depth. exact W. Qed.

(* the purpose of the check: a raw message that deepCopy stores is within the decoder's limit (the
   later lazy parse of it cannot hit the nesting error).  No hypothesis on the node. *)
Lemma deep_copy_stored_depth o v t :
  copy_too_deep o v = false -> fst (deep_copy o v) = NRaw t -> (Text.tdepth t <= max_depth)%N.
Proof.
  unfold copy_too_deep, deep_copy. destruct v; try discriminate; cbn [fst]; intros C E; inversion E; subst t;
    rewrite escape_tree_depth; apply N.ltb_ge; exact C.
Qed.

Lemma copies_fit_nil d doc : copies_fit d doc [] = true.
Proof. reflexivity. Qed.

Lemma copy_fits_not_copy d doc o : rkind o <> OpCopy -> copy_fits d doc o = true.
Proof. unfold copy_fits. destruct (rkind o); congruence. Qed.

Lemma copies_fit_no_copy d p : Forall (fun o => rkind o <> OpCopy) p -> forall doc, copies_fit d doc p = true.
Proof.
  induction 1 as [|o p Ho _ IH]; intro doc; cbn [copies_fit]; [reflexivity|].
  rewrite (copy_fits_not_copy d doc o Ho). cbn [andb]. destruct (rfc_step d doc o); auto.
Qed.

(* what a pointer resolves to is a part of the document: never deeper *)
Lemma nth_depth l i : (odepth (nth i l ONull) <= maxd odepth l)%N.
Proof.
  destruct (Nat.lt_ge_cases i (length l)) as [L|L].
  - apply maxd_le. apply nth_In. exact L.
  - rewrite nth_overflow by exact L. simpl. lia.
Qed.

Lemma get_at_depth d toks : forall j v, get_at d toks j = ROk v -> (odepth v <= odepth j)%N.
Proof.
  induction toks as [|t toks IH]; intros j v H; cbn [get_at] in H.
  - inversion H; subst. lia.
  - destruct j; try discriminate.
    + destruct (idx_existing d (Rfc6902.zlen l) t) as [i|]; [|destruct toks; discriminate].
      apply IH in H. rewrite odepth_arr. pose proof (nth_depth l i). lia.
    + destruct (aget t ms) as [c|] eqn:E; [|destruct toks; discriminate].
      apply IH in H. rewrite odepth_obj. apply aget_In in E.
      pose proof (maxd_le (fun kv => odepth (snd kv)) ms (t, c) E). cbn [snd] in *. lia.
Qed.

Print Assumptions render_depth.
Print Assumptions copy_too_deep_val.
Print Assumptions deep_copy_stored_depth.
Print Assumptions get_at_depth.
