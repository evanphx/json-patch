(* StrInv.v — the string invariant of the v5 patch engine and the codec round trip of deepCopy.
   nstr n : every raw message stored in n spells its strings and member names with bodies the scanner
            accepts (Codec.tsb), and every member name of a parsed object is valid UTF-8.
   Every tree the reader produces satisfies tsb (parse_tsb); the names decoded from such a tree are
   valid UTF-8; re-encoding a node that satisfies the invariant (render, then HTML escaping) gives a
   text that denotes the same value and satisfies the invariant again (codec_thm): this is what
   ApplySim.deep_copy_sim needs. *)
From Coq Require Import Lia.
From JP Require Import Bytes Json Text Strings Den ImplV5 DecodeFacts JsonFacts Abs EqualFacts ParseFacts ReadInv Codec.

(* ---- ASCII strings are valid UTF-8 (to discharge utf8 of literal tokens by reflexivity) ---- *)
Lemma utf8_ascii s : forallb (fun c => bn c <? 128) s = true -> utf8 s.
Proof.
  induction s as [|c s IH]; intro H; [constructor|]. cbn [forallb] in H. apply andb_prop in H as [H1 H2].
  apply U_ascii; auto.
Qed.

(* ---- the encoder writes string bodies the scanner accepts, whatever bytes the Go string holds ---- *)
Definition si_qshape (q : bytes) : bool :=
  match q with
  | [d] => (bn d <? 128) && negb (bn d <? 32) && negb (Byte.eqb d x22) && negb (Byte.eqb d x5c)
  | [d; e] => Byte.eqb d x5c && simple_esc e
  | [d; e; a; b; c; d'] => Byte.eqb d x5c && Byte.eqb e x75 && (is_hex a && is_hex b && is_hex c && is_hex d')
  | _ => false
  end.

Lemma si_qshape_qchar esc c : (bn c <? 128) = true -> si_qshape (qchar esc c) = true.
Proof. destruct esc; destruct c; intro H; try (vm_compute in H; discriminate H); vm_compute; reflexivity. Qed.

Lemma si_sbody_qshape q Q : si_qshape q = true -> sbody Q -> sbody (q ++ Q).
Proof.
  intros H S. destruct q as [|d [|e [|a [|b [|c [|d' [|x q]]]]]]]; try discriminate H; cbn [si_qshape] in H.
  - apply andb_prop in H as [H H4]. apply andb_prop in H as [H H3]. apply andb_prop in H as [H1 H2].
    apply negb_true_iff in H2, H3, H4. cbn [app]. apply SB_ascii; assumption.
  - apply andb_prop in H as [H1 H2]. apply Byte.byte_dec_bl in H1. subst d.
    cbn [app]. apply SB_esc; [exact H2 | exact S].
  - apply andb_prop in H as [H1 H3]. apply andb_prop in H1 as [H1 H2].
    apply Byte.byte_dec_bl in H1, H2. subst d e. cbn [app]. apply SB_u; [exact H3 | exact S].
Qed.

Lemma si_sbody_high_app l Q : Forall (fun x => (bn x <? 128) = false) l -> sbody Q -> sbody (l ++ Q).
Proof. induction 1 as [|x l Hx _ IH]; intro S; cbn [app]; [exact S|]. apply SB_high; [exact Hx | apply IH; exact S]. Qed.

Lemma si_utf8_seq_high c r k : (bn c <? 128) = false -> utf8_len (c :: r) = S k ->
  Forall (fun x => (bn x <? 128) = false) (firstn (S k) (c :: r)).
Proof.
  intros H E. destruct (utf8_len_S c r k H E) as (_ & C & _). cbn [firstn]. constructor; [exact H|].
  eapply Forall_impl; [|exact C]. exact cont_high.
Qed.

Theorem quote_sbody esc s : sbody (quote esc s).
Proof.
  apply quote_chunks.
  - constructor.
  - intros c Q H. apply si_sbody_qshape, si_qshape_qchar, H.
  - intros Q. apply SB_u. reflexivity.
  - intros d Q [->| ->]; apply SB_u; reflexivity.
  - intros c r n Q H E _. apply si_sbody_high_app, si_utf8_seq_high; assumption.
Qed.

Corollary si_sbody_quote esc s : utf8 s -> sbody (quote esc s).
Proof. intros _. apply quote_sbody. Qed.

Lemma sbody_html_escape : forall n b, (length b <= n)%nat -> sbody b -> sbody (html_escape b).
Proof.
  induction n as [|n IH]; intros b L Sb.
  { destruct b; [constructor | simpl in L; lia]. }
  inversion Sb as [|e r He Sr|a b0 c d r Hh Sr|c r H1 H2 H3 H4 Sr|c r H1 Sr]; subst.
  - constructor.
  - destruct (simple_esc_facts e He) as (_ & Ne & _).
    rewrite (he_plain x5c) by reflexivity. rewrite (he_plain e) by exact Ne.
    apply SB_esc; [exact He|]. apply IH; auto. simpl in L. lia.
  - rewrite (he_u4 _ _ _ _ _ Hh). apply SB_u; [exact Hh|]. apply IH; auto. simpl in L. lia.
  - assert (IHr : sbody (html_escape r)) by (apply IH; auto; simpl in L; lia).
    rewrite he_cons. destruct (is_ls (c :: r)) eqn:Ls; [apply is_ls_head in Ls; subst c; discriminate H1|].
    destruct (html_char c); [apply SB_u; [exact (proj1 (hexenc_facts c H1)) | exact IHr] | apply SB_ascii; auto].
  - rewrite he_cons. destruct (is_ls (c :: r)) as [[dg r2]|] eqn:Ls.
    + assert (S2 : sbody r2 /\ (length r2 <= n)%nat).
      { apply is_ls_inv in Ls as [[Ls _]|[Ls _]]; injection Ls as -> ->; (split; [|simpl in L; lia]);
          (eapply sbody_high_inv; [|eapply sbody_high_inv; [|exact Sr]]; reflexivity). }
      apply is_ls_inv in Ls as [[_ ->]|[_ ->]]; (apply SB_u; [reflexivity | apply IH; apply S2]).
    + destruct (html_char c) eqn:Hc; [apply html_char_ascii in Hc; congruence|].
      apply SB_high; [exact H1|]. apply IH; auto. simpl in L. lia.
Qed.

Lemma sbody_he b : sbody b -> sbody (html_escape b).
Proof. apply (sbody_html_escape (length b)). apply le_n. Qed.

Lemma scan_string_esc e r : scan_string (x5c :: e :: r) =
  if simple_esc e then match scan_string r with Some (b, rest) => Some (x5c :: e :: b, rest) | None => None end
  else if Byte.eqb e x75 then
    match r with
    | h1 :: h2 :: h3 :: h4 :: r' =>
        if is_hex h1 && is_hex h2 && is_hex h3 && is_hex h4 then
          match scan_string r' with Some (b, rest) => Some (x5c :: e :: h1 :: h2 :: h3 :: h4 :: b, rest) | None => None end
        else None
    | _ => None
    end
  else None.
Proof. rewrite scan_string_S. generalize scan_string. intro rec. destruct e; reflexivity. Qed.

Theorem scan_string_spec s b rest : scan_string s = Some (b, rest) -> sbody b /\ s = b ++ x22 :: rest.
Proof.
  remember (length s) as n eqn:L. revert s b rest L. induction n as [n IH] using lt_wf_ind. intros s b rest L H.
  assert (R : forall t b1 rest1, (length t < length s)%nat -> scan_string t = Some (b1, rest1) ->
                sbody b1 /\ t = b1 ++ x22 :: rest1) by (intros t b1 rest1 Lt; apply (IH (length t)); [lia | reflexivity]).
  clear IH L. destruct s as [|c r]; [discriminate|].
  destruct (Byte.eqb c x22) eqn:Q.
  { apply Byte.byte_dec_bl in Q. subst c. rewrite scan_string_S in H. injection H as <- <-. split; [constructor | reflexivity]. }
  destruct (Byte.eqb c x5c) eqn:Bs.
  { apply Byte.byte_dec_bl in Bs. subst c. destruct r as [|e r']; [rewrite scan_string_S in H; discriminate|].
    rewrite scan_string_esc in H. destruct (simple_esc e) eqn:Se.
    - destruct (scan_string r') as [[b1 rest1]|] eqn:S1; [|discriminate]. injection H as <- <-.
      destruct (R r' b1 rest1) as [Sb ->]; [simpl; lia | exact S1|]. split; [now apply SB_esc | reflexivity].
    - destruct (Byte.eqb e x75) eqn:U; [|discriminate]. apply Byte.byte_dec_bl in U. subst e.
      destruct r' as [|h1 [|h2 [|h3 [|h4 r'']]]]; try discriminate.
      destruct (is_hex h1 && is_hex h2 && is_hex h3 && is_hex h4) eqn:Hh; [|discriminate].
      destruct (scan_string r'') as [[b1 rest1]|] eqn:S1; [|discriminate]. injection H as <- <-.
      destruct (R r'' b1 rest1) as [Sb ->]; [simpl; lia | exact S1|]. split; [now apply SB_u | reflexivity]. }
  rewrite scan_string_plain in H by assumption. destruct (bn c <? 32) eqn:Lo; [discriminate|].
  destruct (scan_string r) as [[b1 rest1]|] eqn:S1; [|discriminate]. injection H as <- <-.
  destruct (R r b1 rest1) as [Sb ->]; [simpl; lia | exact S1|]. split; [|reflexivity].
  destruct (bn c <? 128) eqn:A; [apply SB_ascii; auto | apply SB_high; auto].
Qed.

Corollary scan_string_sb : forall n s b rest, (length s <= n)%nat -> scan_string s = Some (b, rest) -> sbody b.
Proof. intros n s b rest _ H. exact (proj1 (scan_string_spec s b rest H)). Qed.

Lemma parse_value_tsb :
  (forall d s t rest, reads_value d s t rest -> tsb t) /\
  (forall d s l rest, reads_elems d s l rest -> Forall tsb l) /\
  (forall d s ms rest, reads_members d s ms rest -> Forall (fun kv => sbody (fst kv) /\ tsb (snd kv)) ms).
Proof.
  destruct (reads_thread (fun _ => True) (fun _ => tsb) sbody) as (A & B & C); try (intros; exact I).
  - intros r b rest Ss _. split; [exact (proj1 (scan_string_spec _ _ _ Ss)) | exact I].
  - intros. split; exact I.
  - intros _. repeat split.
  - intros _ b H. exact H.
  - intros _ l _ H. apply tsb_arr, H.
  - intros _ ms _ H. apply tsb_obj, H.
  - repeat split; intros d s x rest R; [exact (proj1 (A d s x rest R I)) | exact (proj1 (B d s x rest R I)) | exact (proj1 (C d s x rest R I))].
Qed.

Theorem parse_tsb bs t : parse bs = Some t -> tsb t.
Proof. intro H. apply parse_reads in H as (rest & R & _). exact (proj1 parse_value_tsb _ _ _ _ R). Qed.

Fixpoint nstr (n : node) : Prop :=
  match n with
  | NNil => True
  | NRaw t => tsb t
  | NDoc keys obj =>
      Forall utf8 keys /\
      (fix all (m : list (bytes * node)) : Prop :=
         match m with [] => True | kv :: r => (utf8 (fst kv) /\ nstr (snd kv)) /\ all r end) obj
  | NAry ns =>
      (fix all (l : list node) : Prop := match l with [] => True | x :: r => nstr x /\ all r end) ns
  end.

Lemma nstr_doc keys obj :
  nstr (NDoc keys obj) <-> Forall utf8 keys /\ Forall (fun kv => utf8 (fst kv) /\ nstr (snd kv)) obj.
Proof. apply and_iff_compat_l, (all_fix_Forall (fun kv => utf8 (fst kv) /\ nstr (snd kv))). Qed.

Lemma nstr_ary ns : nstr (NAry ns) <-> Forall nstr ns.
Proof. apply all_fix_Forall. Qed.

Arguments nstr : simpl never.
Lemma nstr_nil : nstr NNil. Proof. exact I. Qed.
Lemma nstr_raw t : nstr (NRaw t) <-> tsb t. Proof. reflexivity. Qed.
Lemma nstr_child t : tsb t -> nstr (child t).
Proof. destruct t; intro H; try exact I; exact H. Qed.

Lemma tsb_obj_keys ms : tsb (TObj ms) -> Forall utf8 (map (fun kv => unquote (fst kv)) ms).
Proof.
  intro H. apply tsb_obj in H. rewrite Forall_map. rewrite Forall_forall in *. intros kv Hk.
  apply sbody_unquote_utf8. apply (H kv Hk).
Qed.

Lemma tsb_obj_vals ms : tsb (TObj ms) -> Forall (fun kv => tsb (snd kv)) ms.
Proof. intro H. apply tsb_obj in H. rewrite Forall_forall in *. intros kv Hk. apply (H kv Hk). Qed.

(* one level of lazy parsing keeps the invariant *)
Lemma nstr_parsed_obj ms :
  tsb (TObj ms) ->
  nstr (NDoc (map (fun kv => unquote (fst kv)) ms) (map (fun kv => (unquote (fst kv), child (snd kv))) ms)).
Proof.
  intro H. apply nstr_doc. split; [apply tsb_obj_keys; exact H|]. rewrite Forall_map.
  apply tsb_obj in H. rewrite Forall_forall in *. intros kv Hk. destruct (H kv Hk) as [H1 H2]. cbn [fst snd].
  split; [apply sbody_unquote_utf8; exact H1 | apply nstr_child; exact H2].
Qed.

Lemma nstr_parsed_arr l : tsb (TArr l) -> nstr (NAry (map child l)).
Proof.
  intro H. apply nstr_ary. rewrite Forall_map. apply tsb_arr in H. rewrite Forall_forall in *.
  intros t Ht. apply nstr_child. apply (H t Ht).
Qed.

Lemma Forall_aset_kv {A} (P : bytes * A -> Prop) k v m : Forall P m -> P (k, v) -> Forall P (aset k v m).
Proof. exact (Forall_aset_key P k v m). Qed.

Definition esc_body (esc : bool) (b : bytes) : bytes := if esc then html_escape b else b.

Lemma escape_tree_eq esc t :
  escape_tree esc t =
  match t with
  | TStr b => TStr (esc_body esc b)
  | TArr l => TArr (map (escape_tree esc) l)
  | TObj ms => TObj (map (fun kv => (esc_body esc (fst kv), escape_tree esc (snd kv))) ms)
  | _ => t
  end.
Proof.
  destruct esc; [apply escape_tree_true|]. unfold escape_tree, esc_body. destruct t; try reflexivity.
  - now rewrite map_id.
  - f_equal. induction ms as [|[k v] ms IH]; [reflexivity|]. cbn [map fst snd]. now rewrite <- IH.
Qed.

Lemma esc_body_sbody esc b : sbody b -> sbody (esc_body esc b).
Proof. destruct esc; [apply sbody_he | auto]. Qed.

Lemma esc_body_unquote esc b : sbody b -> unquote (esc_body esc b) = unquote b.
Proof. destruct esc; [apply unquote_he | reflexivity]. Qed.

Lemma escape_den esc t : tsb t -> den (escape_tree esc t) = den t.
Proof. destruct esc; [apply escape_tree_den | reflexivity]. Qed.

Lemma escape_tree_tlit esc t : tlit (escape_tree esc t) = tlit t.
Proof.
  destruct esc; [|reflexivity].
  induction t using tjson_rect'; try reflexivity.
  - rewrite escape_tree_true. cbn [tlit]. induction H as [|x l Hx _ IH]; [reflexivity|]. cbn [map forallb]. now rewrite Hx, IH.
  - rewrite escape_tree_true. cbn [tlit]. induction H as [|x l Hx _ IH]; [reflexivity|]. cbn [map forallb snd]. now rewrite Hx, IH.
Qed.

(* a predicate on spelled trees that speaks of their leaves only: Pk of every string body and member name.
   The encoder's own strings have it (sp_quote) and escaping keeps it (sp_esc): so escaping a tree keeps P, and
   (OutputFacts, CreateFacts) the trees the encoders build from parts that have P have it *)
Record spelled (P : tjson -> Prop) (Pk : bytes -> Prop) : Prop := {
  sp_null : P TNull;
  sp_bool : P TTrue /\ P TFalse;
  sp_str : forall b, P (TStr b) <-> Pk b;
  sp_arr : forall l, P (TArr l) <-> Forall P l;
  sp_obj : forall ms, P (TObj ms) <-> Forall (fun kv => Pk (fst kv) /\ P (snd kv)) ms;
  sp_quote : forall esc s, Pk (quote esc s);
  sp_esc : forall esc b, Pk b -> Pk (esc_body esc b)
}.

Section Spelled.
  Context {P : tjson -> Prop} {Pk : bytes -> Prop}.
  Hypothesis SP : spelled P Pk.

  Lemma sp_arr_parts l : P (TArr l) -> Forall P l.
  Proof. apply (sp_arr P Pk SP). Qed.

  Lemma sp_obj_parts ms : P (TObj ms) -> Forall (fun kv => P (snd kv)) ms.
  Proof. intro H. apply (sp_obj P Pk SP) in H. revert H. apply Forall_impl. intros kv [_ H]. exact H. Qed.

  Lemma sp_escape esc t : P t -> P (escape_tree esc t).
  Proof.
    induction t as [| | |lit|b|l IH|ms IH] using tjson_rect'; intro S; rewrite escape_tree_eq; try exact S.
    - apply (sp_str P Pk SP), (sp_esc P Pk SP), (sp_str P Pk SP), S.
    - apply (sp_arr P Pk SP). apply (sp_arr P Pk SP) in S. rewrite Forall_map. rewrite Forall_forall in *.
      intros x Hx. apply (IH x Hx), S, Hx.
    - apply (sp_obj P Pk SP). apply (sp_obj P Pk SP) in S. rewrite Forall_map. rewrite Forall_forall in *.
      intros kv Hk. cbn [fst snd]. destruct (S kv Hk) as [S1 S2].
      split; [apply (sp_esc P Pk SP); exact S1 | apply (IH kv Hk); exact S2].
  Qed.
End Spelled.

Lemma tsb_spelled : spelled tsb sbody.
Proof.
  split; try exact I; try (split; exact I); try reflexivity.
  - exact tsb_arr.
  - exact tsb_obj.
  - exact quote_sbody.
  - exact esc_body_sbody.
Qed.

Lemma escape_tree_tsb esc t : tsb t -> tsb (escape_tree esc t).
Proof. exact (sp_escape tsb_spelled esc t). Qed.

Definition enc (esc : bool) (v : node) : tjson := escape_tree esc (render esc v).

Lemma render_doc esc keys obj :
  render esc (NDoc keys obj) =
  TObj (map (fun k => (quote esc k, match option_map (render esc) (aget k obj) with Some t => t | None => TNull end)) keys).
Proof.
  cbn [render]. f_equal. apply map_ext. intro k. now rewrite (look_fix_aget (render esc) k obj).
Qed.

Lemma enc_doc esc keys obj :
  enc esc (NDoc keys obj) =
  TObj (map (fun k => (esc_body esc (quote esc k),
                       match option_map (enc esc) (aget k obj) with Some t => t | None => TNull end)) keys).
Proof.
  unfold enc at 1. rewrite render_doc, escape_tree_eq, map_map. f_equal. apply map_ext. intro k. cbn [fst snd].
  f_equal. destruct (aget k obj) as [v|]; cbn [option_map]; [reflexivity|]. now rewrite escape_tree_eq.
Qed.

Lemma enc_ary esc ns : enc esc (NAry ns) = TArr (map (enc esc) ns).
Proof. unfold enc at 1. cbn [render]. now rewrite escape_tree_eq, map_map. Qed.

Lemma name_roundtrip esc k : utf8 k ->
  unquote (esc_body esc (quote esc k)) = k /\ sbody (esc_body esc (quote esc k)).
Proof.
  intro U. pose proof (si_sbody_quote esc k U) as S. split.
  - rewrite esc_body_unquote by exact S. apply unquote_quote. exact U.
  - apply esc_body_sbody. exact S.
Qed.

Theorem codec_thm esc v : nwf v -> nlit v -> nstr v ->
  den (enc esc v) = aval v /\ tlit (enc esc v) = true /\ tsb (enc esc v).
Proof.
  induction v using node_rect'; intros W L S.
  - (* nil *) unfold enc. cbn [render]. rewrite escape_tree_eq. repeat split.
  - (* raw *) unfold enc. cbn [render aval]. apply nstr_raw in S. split; [apply escape_den; exact S|].
    split; [rewrite escape_tree_tlit; exact L | apply escape_tree_tsb; exact S].
  - (* parsed object *)
    apply nwf_doc in W as [[Nk [No Ag]] Ws]. apply nlit_doc in L. apply nstr_doc in S as [Uk Ss].
    rewrite enc_doc. rewrite Forall_forall in H, Ws, L, Ss, Uk.
    assert (IHk : forall k x, aget k obj = Some x ->
                den (enc esc x) = aval x /\ tlit (enc esc x) = true /\ tsb (enc esc x)).
    { intros k x E. apply aget_In in E. apply (H _ E); [apply (Ws _ E) | apply (L _ E) | apply (Ss _ E)]. }
    split; [|split].
    + cbn [den]. rewrite map_map. cbn [fst snd].
      assert (E : map (fun k => (unquote (esc_body esc (quote esc k)),
                                 den match option_map (enc esc) (aget k obj) with Some t => t | None => TNull end)) keys
                  = abs_members keys obj).
      { unfold abs_members. apply map_ext_in. intros k Hk. f_equal.
        - apply name_roundtrip. apply (Uk k Hk).
        - destruct (aget k obj) as [x|] eqn:E; cbn [option_map or_null]; [|reflexivity].
          apply (IHk k x E). }
      rewrite E, aval_doc. f_equal. apply resolve_dups_nodup. rewrite abs_members_keys. exact Nk.
    + cbn [tlit]. apply forallb_forall. intros kv Hkv. apply in_map_iff in Hkv as [k [<- Hk]]. cbn [snd].
      destruct (aget k obj) as [x|] eqn:E; cbn [option_map]; [apply (IHk k x E) | reflexivity].
    + apply tsb_obj. rewrite Forall_map. apply Forall_forall. intros k Hk. cbn [fst snd]. split.
      * apply name_roundtrip. apply (Uk k Hk).
      * destruct (aget k obj) as [x|] eqn:E; cbn [option_map]; [apply (IHk k x E) | exact I].
  - (* parsed array *)
    apply nwf_ary in W. apply nlit_ary in L. apply nstr_ary in S. rewrite enc_ary. rewrite Forall_forall in H, W, L, S.
    split; [|split].
    + cbn [den aval]. f_equal. rewrite map_map. apply map_ext_in. intros x Hx. apply (H x Hx); auto.
    + cbn [tlit]. apply forallb_forall. intros t Ht. apply in_map_iff in Ht as [x [<- Hx]]. apply (H x Hx); auto.
    + apply tsb_arr. rewrite Forall_map. apply Forall_forall. intros x Hx. apply (H x Hx); auto.
Qed.

(* the statement deep_copy_sim uses: the fresh raw node satisfies every part of the invariant *)
Corollary codec_node esc v : nwf v -> nlit v -> nstr v ->
  aval (NRaw (enc esc v)) = aval v /\ nwf (NRaw (enc esc v)) /\ nlit (NRaw (enc esc v)) /\ nstr (NRaw (enc esc v)).
Proof.
  intros W L S. destruct (codec_thm esc v W L S) as [D [T B]]. cbn [aval]. split; [exact D|].
  split; [apply nwf_raw; unfold tnodup; rewrite D; apply nwf_aval_onodup; exact W|]. split; [exact T | exact B].
Qed.

Print Assumptions codec_thm.
Print Assumptions parse_tsb.
