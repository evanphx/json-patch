(* CauseFacts.v — C08, the cause/class statements WITH the options:
     a positive AccumulatedCopySizeLimit (copy-size accounting against the reference),
     AllowMissingPathOnRemove (causes are those of the stripped patch),
     EnsurePathExistsOnAdd (what add reports). *)
From Coq Require Import Lia.
From JP Require Import Bytes Json Text Strings Den Pointer Rfc6902 ImplV5 DecodeFacts JsonFacts Abs EqualFacts
                       ImplFacts RefFacts ApplyFacts Depth ApplySim Domain AllowEnsureFacts.

(* 1. the copy-size limit is consulted by copy only, and only at one point *)

Definition set_limit (o : opts) (l : Z) : opts :=
  mkOpts (o_neg o) l (o_allow o) (o_ensure o) (o_esc o) (o_stale o) (o_nullsz o).

Lemma set_limit_self o : set_limit o (o_limit o) = o.
Proof. destruct o; reflexivity. Qed.

(* the number of bytes deepCopy reports for this copy, if the copy gets as far as deepCopy: source
   resolved, path read, destination parent resolved, source re-read, depth check passed *)
Definition copy_probe (o : opts) (st : state) (op : operation) : option Z :=
  match op_str op (B "from") with
  | Ok from =>
      match s_root st with
      | RNull => None
      | RCon c =>
          match find o c from (fun c' key => (con_get o c' key, c')) with
          | (FoundAt (Ok _), c1) =>
              match op_str op (B "path") with
              | Ok path =>
                  match find o c1 path (fun c' key => (tt, c')) with
                  | (FoundAt _, c2) =>
                      let src :=
                        match from with
                        | [] => Ok (node_of_con c2)
                        | _ => match find o c2 from (fun c' key => (con_get o c' key, c')) with
                               | (FoundAt r, _) => r
                               | _ => Err EMissing
                               end
                        end in
                      match src with
                      | Ok v => if copy_too_deep o v then None else Some (snd (deep_copy o v))
                      | _ => None
                      end
                  | (_, _) => None
                  end
              | _ => None
              end
          | (_, _) => None
          end
      end
  | _ => None
  end.

Definition over (o : opts) (st : state) (sz : Z) : bool :=
  ((0 <? o_limit o)%Z && (o_limit o <? s_acc st + sz)%Z)%bool.

(* the probe follows the walks of copy (ApplyFacts.copy_src) *)
Lemma copy_probe_eq o st op :
  copy_probe o st op =
  match op_str op (B "from"), s_root st with
  | Ok from, RCon c =>
      match copy_src o c from (op_str op (B "path")) with
      | Ok (v, _, _) => if copy_too_deep o v then None else Some (snd (deep_copy o v))
      | _ => None
      end
  | _, _ => None
  end.
Proof.
  unfold copy_probe, copy_src, get_fn, unit_fn. destruct (op_str op (B "from")) as [from| |]; try reflexivity.
  destruct (s_root st); try reflexivity.
  destruct_find; try reflexivity. destruct r as [v0| |]; try reflexivity.
  destruct (op_str op (B "path")) as [path| |]; try reflexivity.
  destruct_find; try reflexivity.
  match goal with |- match ?a with _ => _ end = _ => destruct a as [v| |]; reflexivity end.
Qed.

(* copy = the limit check at deepCopy's size, then the copy without a limit *)
Lemma op_copy_split o st op :
  op_copy o st op =
  match copy_probe o st op with
  | Some sz => if over o st sz then Err (ECopyLimit (o_limit o) (s_acc st + sz)) else op_copy (set_limit o 0) st op
  | None => op_copy (set_limit o 0) st op
  end.
Proof.
  rewrite !op_copy_eq, copy_probe_eq. destruct (op_str op (B "from")) as [from| |]; try reflexivity.
  destruct (s_root st); try reflexivity. rewrite (copy_src_neg (set_limit o 0) o c from _ eq_refl).
  destruct (copy_src o c from (op_str op (B "path"))) as [[[v c2] path]| |]; try reflexivity.
  unfold copy_put, over. change (copy_too_deep (set_limit o 0) v) with (copy_too_deep o v).
  destruct (copy_too_deep o v); try reflexivity.
  change (deep_copy (set_limit o 0) v) with (deep_copy o v). destruct (deep_copy o v) as [cp sz]. cbn [snd].
  change (o_limit (set_limit o 0)) with 0%Z. change (0 <? 0)%Z with false. cbn [andb].
  rewrite (find_neg (set_limit o 0) o _ _ _ eq_refl).
  destruct ((0 <? o_limit o)%Z && (o_limit o <? s_acc st + sz)%Z)%bool; reflexivity.
Qed.

(* the total the limit error reports, when this operation is a copy that trips the limit *)
Definition copy_over (o : opts) (st : state) (op : operation) : option Z :=
  match op_kind op with
  | KCopy =>
      match copy_probe o st op with
      | Some sz => if over o st sz then Some (s_acc st + sz)%Z else None
      | None => None
      end
  | _ => None
  end.

Lemma step_limit_other o l st op : op_kind op <> KCopy -> step (set_limit o l) st op = step o st op.
Proof. intro K. apply step_opts. split; [reflexivity|]. destruct (op_kind op); try congruence; repeat split. Qed.

(* one operation under any limit: the limit error when copy_over says so, otherwise exactly the
   operation under limit 0 *)
Theorem step_split o st op :
  step o st op =
  match copy_over o st op with
  | Some total => Err (ECopyLimit (o_limit o) total)
  | None => step (set_limit o 0) st op
  end.
Proof.
  unfold copy_over. destruct (op_kind op) eqn:K;
    try (symmetry; apply step_limit_other; congruence).
  unfold step. rewrite K. rewrite op_copy_split.
  destruct (copy_probe o st op) as [sz|]; auto. destruct (over o st sz); auto.
Qed.

Lemma copy_over_inv o st op total :
  copy_over o st op = Some total ->
  op_kind op = KCopy /\ exists sz, copy_probe o st op = Some sz /\ total = (s_acc st + sz)%Z /\
                                   (0 < o_limit o)%Z /\ (o_limit o < total)%Z.
Proof.
  unfold copy_over, over. destruct (op_kind op); try discriminate.
  destruct (copy_probe o st op) as [sz|]; try discriminate.
  destruct ((0 <? o_limit o)%Z && (o_limit o <? s_acc st + sz)%Z)%bool eqn:E; try discriminate.
  intro H; inversion H; subst. apply andb_prop in E as [E1 E2]. apply Z.ltb_lt in E1, E2.
  split; auto. exists sz. auto.
Qed.

Lemma copy_over_intro o st op sz :
  op_kind op = KCopy -> copy_probe o st op = Some sz -> (0 < o_limit o)%Z -> (o_limit o < s_acc st + sz)%Z ->
  copy_over o st op = Some (s_acc st + sz)%Z.
Proof.
  intros K P L1 L2. unfold copy_over, over. rewrite K, P.
  apply Z.ltb_lt in L1, L2. rewrite L1, L2. reflexivity.
Qed.

Lemma copy_over_zero o st op : o_limit o = 0%Z -> copy_over o st op = None.
Proof.
  intro Z0. destruct (copy_over o st op) as [t|] eqn:E; auto.
  apply copy_over_inv in E as [_ [sz [_ [_ [L _]]]]]. lia.
Qed.

Theorem step_limit_iff o st op l a :
  step o st op = Err (ECopyLimit l a) <-> (copy_over o st op = Some a /\ l = o_limit o).
Proof.
  rewrite step_split. split.
  - destruct (copy_over o st op) as [t|] eqn:E.
    + intro H; inversion H; subst. auto.
    + intro H. apply step_copy_limit in H as [_ [L _]]. simpl in L. lia.
  - intros [-> ->]. reflexivity.
Qed.

(* a successful copy adds deepCopy's size to the running total *)
Lemma op_copy_acc o st op st' :
  op_copy o st op = Ok st' -> exists sz, copy_probe o st op = Some sz /\ s_acc st' = (s_acc st + sz)%Z.
Proof.
  rewrite op_copy_eq, copy_probe_eq. destruct (op_str op (B "from")) as [from| |]; try discriminate.
  destruct (s_root st); try discriminate.
  destruct (copy_src o c from (op_str op (B "path"))) as [[[v c2] path]| |]; try discriminate.
  unfold copy_put. destruct (copy_too_deep o v); [discriminate|]. destruct (deep_copy o v) as [cp sz]. cbn [snd].
  destruct ((0 <? o_limit o)%Z && (o_limit o <? s_acc st + sz)%Z)%bool; [discriminate|].
  destruct (find o c2 path _) as [[| |[x| |]] c3]; cbn [finish]; intro H; inversion H. eauto.
Qed.

(* 2. the probe against the reference *)

(* the reference's copy, up to the resolution of the destination parent: the source value *)
Definition copy_reaches (d : dialect) (doc : ojson) (op : operation) : option ojson :=
  match ptr_tokens (str_or_empty (op_str op (B "from"))), str_or_empty (op_str op (B "path")) with
  | Some ftoks, x2f :: r =>
      match get_at d ftoks doc with
      | ROk j => if dest_reachable d doc r then Some j else None
      | RFail _ => None
      end
  | _, _ => None
  end.

(* where the destination parent is a container, the add at it succeeds or is a bad index *)
Lemma add_at_reachable d doc r v :
  dest_reachable d doc r = true ->
  (exists j', at_parent d (ptoks r) doc (add_leaf d v) = ROk j') \/
  at_parent d (ptoks r) doc (add_leaf d v) = RFail FIndex.
Proof.
  unfold dest_reachable, ptoks. intro H. rewrite at_parent_snoc.
  destruct (descend d (map decode_token (path_parts r)) doc) as [p|]; [|discriminate].
  destruct p; try discriminate; cbn [add_leaf].
  - destruct (idx_insert d (Rfc6902.zlen l) (path_key r)); cbn [bind]; eauto.
  - cbn [bind]. eauto.
Qed.

(* the probe, for a copy of the stated domain, in terms of the reference:
   it is defined exactly when the reference resolves the source and reaches the destination parent
   (and the value is not too deep for deepCopy), and is then deepCopy's size of a node denoting the
   reference's source value *)
Theorem copy_probe_ref o st op :
  sgood st -> op_dom op -> op_kind op = KCopy ->
  match copy_reaches (dia o) (sval st) op with
  | Some j => exists v, aval v = j /\ ngood v /\
                copy_probe o st op = if (max_depth <? odepth j)%N then None else Some (snd (deep_copy o v))
  | None => copy_probe o st op = None
  end.
Proof.
  intros [c [Hr G]] Dop Ek. destruct (op_dom_from op Dop (or_intror Ek)) as (r & from & Hp & D & Hf & Kf). unfold copy_reaches. rewrite Hf, Hp, (sval_con st c Hr). cbn [str_or_empty].
  destruct (ptr_ok_tokens from Kf) as [ftoks Ht]. rewrite Ht, copy_probe_eq, Hf, Hr, Hp.
  pose proof (copy_src_sim o c from r ftoks G Ht Kf D) as S.
  destruct (get_at (dia o) ftoks (cval c)) as [j|cz]; [|destruct S as [e [-> _]]; reflexivity].
  destruct (dest_reachable (dia o) (cval c) r); [|rewrite S; reflexivity].
  destruct S as [v [c2 [-> [A [Gv _]]]]]. exists v. split; [exact A|]. split; [exact Gv|].
  rewrite (copy_too_deep_val o v (proj1 Gv)), A. reflexivity.
Qed.

(* and the reference's own step at such a copy *)
Lemma copy_reaches_step d doc op j :
  op_dom op -> op_kind op = KCopy -> copy_reaches d doc op = Some j ->
  (exists j', rfc_step d doc (den_op op) = ROk j') \/ rfc_step d doc (den_op op) = RFail FIndex.
Proof.
  intros Dop Ek. destruct (op_dom_from op Dop (or_intror Ek)) as (r & from & Hp & D & Hf & Kf).
  rewrite (rfc_step_slash _ _ _ _ Hp), Ek. unfold copy_reaches, from_toks. rewrite Hf, Hp. cbn [str_or_empty].
  destruct (ptr_tokens from) as [ftoks|]; [|discriminate].
  destruct (get_at d ftoks doc) as [v|]; [|discriminate].
  destruct (dest_reachable d doc r) eqn:R; [|discriminate]. intros _. apply add_at_reachable. exact R.
Qed.

(* 3. one operation and whole patches under any copy-size limit (the two other options off) *)

Definition lim_opts (o : opts) : Prop := o_allow o = false /\ o_ensure o = false.

Lemma plain_lim_opts o : plain_opts o -> lim_opts o.
Proof. intros [A [E _]]. split; assumption. Qed.

Lemma copy_fits_reaches d doc op j :
  op_kind op = KCopy -> copy_fits d doc (den_op op) = true -> copy_reaches d doc op = Some j ->
  (max_depth <? odepth j)%N = false.
Proof.
  unfold copy_fits, copy_reaches, den_op. cbn [rkind rfrom]. intros -> . cbn [ref_kind].
  destruct (ptr_tokens (str_or_empty (op_str op (B "from")))) as [ftoks|]; [|discriminate].
  destruct (str_or_empty (op_str op (B "path"))) as [|[] r]; try discriminate.
  destruct (get_at d ftoks doc) as [v|]; [|discriminate].
  destruct (dest_reachable d doc r); [|discriminate].
  intros F H. inversion H; subst. apply N.ltb_ge. apply N.leb_le. exact F.
Qed.

(* when does a copy of the stated domain trip the limit: exactly when the reference resolves the
   source and reaches the destination parent, and the running total plus deepCopy's size of the
   (node denoting the) source value exceeds a positive limit *)
Theorem copy_over_ref o st op :
  sgood st -> op_dom op -> op_kind op = KCopy -> copy_fits (dia o) (sval st) (den_op op) = true ->
  match copy_reaches (dia o) (sval st) op with
  | Some j => exists v, aval v = j /\ ngood v /\ copy_probe o st op = Some (snd (deep_copy o v)) /\
                copy_over o st op = if over o st (snd (deep_copy o v))
                                    then Some (s_acc st + snd (deep_copy o v))%Z else None
  | None => copy_over o st op = None
  end.
Proof.
  intros G D K F. pose proof (copy_probe_ref o st op G D K) as P. unfold copy_over. rewrite K.
  destruct (copy_reaches (dia o) (sval st) op) as [j|] eqn:R.
  - destruct P as [v [P1 [P2 P3]]]. rewrite (copy_fits_reaches _ _ _ _ K F R) in P3.
    exists v. rewrite P3. auto.
  - rewrite P. reflexivity.
Qed.

(* how the limit stops a patch: the limit error at a copy that reaches deepCopy with a size that pushes the total
   over the limit, and which the reference performs, or rejects for its destination index only *)
Definition limit_stops (o : opts) (st : state) (op : operation) (e : errclass) : Prop :=
  exists total, e = ECopyLimit (o_limit o) total /\ copy_over o st op = Some total /\
    ((exists j', rfc_step (dia o) (sval st) (den_op op) = ROk j') \/
     rfc_step (dia o) (sval st) (den_op op) = RFail FIndex).

Lemma limit_stops_limit o st op e : limit_stops o st op e -> is_copy_limit e = true.
Proof. intros [total [-> _]]. reflexivity. Qed.

Lemma limit_stops_inv o st op e : limit_stops o st op e ->
  exists total, e = ECopyLimit (o_limit o) total /\ copy_over o st op = Some total /\ op_kind op = KCopy /\
    (0 < o_limit o)%Z /\ (o_limit o < total)%Z /\
    forall cz, rfc_step (dia o) (sval st) (den_op op) = RFail cz -> cz = FIndex.
Proof.
  intros [total [-> [C R]]]. exists total. destruct (copy_over_inv o st op total C) as [K [sz [_ [_ [Z1 Z2]]]]].
  repeat (split; [assumption || reflexivity|]). intros cz E. destruct R as [[j' R]|R]; rewrite R in E; congruence.
Qed.

(* whatever the operation under limit 0 corresponds to, under any limit it is that, or the limit stops it *)
Lemma limit_layer o st op (R : Rfc6902.res ojson) :
  sgood st -> op_dom op -> copy_fits (dia o) (sval st) (den_op op) = true ->
  sim_res R (step (set_limit o 0) st op) ->
  (exists e, step o st op = Err e /\ limit_stops o st op e) \/ sim_res R (step o st op).
Proof.
  intros G D F S. rewrite step_split. destruct (copy_over o st op) as [total|] eqn:E; [left | right; exact S].
  exists (ECopyLimit (o_limit o) total). split; [reflexivity|]. exists total. split; [reflexivity|]. split; [exact E|].
  destruct (copy_over_inv o st op total E) as [K _]. pose proof (copy_over_ref o st op G D K F) as R0.
  destruct (copy_reaches (dia o) (sval st) op) as [j|] eqn:CR; [|congruence]. eapply copy_reaches_step; eauto.
Qed.

(* one operation, EnsurePathExistsOnAdd off, any AllowMissingPathOnRemove, any limit: the limit stops it, or it
   corresponds to the reference's, a forgiven remove being skipped *)
Lemma step_stops_or_sim o st op :
  sgood st -> o_ensure o = false -> op_dom op -> copy_fits (dia o) (sval st) (den_op op) = true ->
  (exists e, step o st op = Err e /\ limit_stops o st op e) \/
  sim_res (skip_step (o_allow o) (dia o) (sval st) op) (step o st op).
Proof.
  intros G En D F. apply limit_layer; [exact G | exact D | exact F|].
  exact (step_skip_sim (set_limit o 0) st op G (fun _ => En) eq_refl D F).
Qed.

(* the patch is stopped by the limit: at a copy, every earlier operation agreed with the reference *)
Definition limit_stop (o : opts) (i : nat) (st : state) (p : list operation) : Prop :=
  exists p1 op p2 st1 total,
    p = p1 ++ op :: p2 /\
    apply_from o i st p1 = AOk st1 /\ sgood st1 /\
    rfc_apply_from (dia o) i (sval st) (map den_op p1) = Done (sval st1) /\
    copy_over o st1 op = Some total /\
    apply_from o i st p = AErr (i + length p1) (ECopyLimit (o_limit o) total) /\
    ((exists j', rfc_step (dia o) (sval st1) (den_op op) = ROk j') \/
     rfc_step (dia o) (sval st1) (den_op op) = RFail FIndex).

Lemma limit_stop_err o i st p : limit_stop o i st p ->
  exists k total, (0 < o_limit o)%Z /\ (o_limit o < total)%Z /\
                  apply_from o i st p = AErr k (ECopyLimit (o_limit o) total).
Proof.
  intros [p1 [op [p2 [st1 [total [_ [_ [_ [_ [L5 [L6 _]]]]]]]]]]].
  destruct (copy_over_inv o st1 op total L5) as [_ [sz [_ [_ [Z1 Z2]]]]]. eauto.
Qed.

(* the simulation under any limit, from the model's outcome *)
Lemma verdict_limit o p i st : lim_opts o -> sgood st -> Forall op_dom p ->
  copies_fit (dia o) (sval st) (map den_op p) = true ->
  match apply_from o i st p with
  | AOk st' => rfc_apply_from (dia o) i (sval st) (map den_op p) = Done (sval st') /\ sgood st'
  | AErr k e => if is_copy_limit e then stopped_at o (plain_run (dia o)) sgood (limit_stops o) i st p k e
                else exists cz, rfc_apply_from (dia o) i (sval st) (map den_op p) = Failed k cz /\ cause_rel cz e
  | APanic _ => False
  end.
Proof.
  intros [Al En]. pose proof (fun st op G => step_stops_or_sim o st op G En) as SS. rewrite Al in SS.
  exact (apply_verdict o (plain_run (dia o)) sgood (limit_stops o) op_dom SS (limit_stops_limit o) p i st).
Qed.

Lemma stopped_limit_stop o p i st k e : apply_from o i st p = AErr k e ->
  stopped_at o (plain_run (dia o)) sgood (limit_stops o) i st p k e -> limit_stop o i st p.
Proof.
  intros H [p1 [op [p2 [st1 [E1 [E2 [L2 [L3 [L4 [total [E3 [L5 L7]]]]]]]]]]]]. subst.
  exists p1, op, p2, st1, total. auto 10.
Qed.

Theorem apply_sim_limit o : lim_opts o -> forall p i st,
  sgood st -> Forall op_dom p ->
  copies_fit (dia o) (sval st) (map den_op p) = true ->
  match rfc_apply_from (dia o) i (sval st) (map den_op p) with
  | Done doc => (exists st', apply_from o i st p = AOk st' /\ sval st' = doc /\ sgood st') \/ limit_stop o i st p
  | Failed j cz => (exists e, apply_from o i st p = AErr j e /\ cause_rel cz e) \/ limit_stop o i st p
  end.
Proof.
  intros LO p i st G D F. pose proof (verdict_limit o p i st LO G D F) as V. pose proof (stopped_limit_stop o p i st) as SL.
  destruct (apply_from o i st p) as [st'|k e|k]; [| |destruct V].
  - destruct V as [-> V]. eauto.
  - destruct (is_copy_limit e).
    + specialize (SL k e eq_refl V). destruct (rfc_apply_from _ _ _ _); auto.
    + destruct V as [cz [-> V]]. eauto.
Qed.

(* 4. the error classes the property names *)

(* clause (a) of C08_error_classes_limit (Properties/C08.v), on the model alone: the failed-test sentinel comes from
   a test operation *)
Theorem apply_test_failed_kind o p i st k :
  apply_from o i st p = AErr k ETestFailed ->
  exists op, nth_error p (k - i) = Some op /\ op_kind op = KTest.
Proof.
  intro H. apply apply_err_split in H as [p1 [op [p2 [st1 [-> [-> [H3 H4]]]]]]].
  exists op. split; [rewrite Nat.add_comm, Nat.add_sub; apply nth_error_mid | eapply test_failed_only_by_test; eauto].
Qed.

Section Classes.
  Variables (o : opts) (p : list operation) (i : nat) (st : state).
  Hypothesis LO : lim_opts o.
  Hypothesis G : sgood st.
  Hypothesis D : Forall op_dom p.
  Hypothesis F : copies_fit (dia o) (sval st) (map den_op p) = true.

  (* a patch the reference runs to the end returns no error, except the limit error *)
  Theorem done_no_error doc :
    rfc_apply_from (dia o) i (sval st) (map den_op p) = Done doc ->
    (exists st', apply_from o i st p = AOk st' /\ sval st' = doc /\ sgood st') \/
    (exists k total, (0 < o_limit o)%Z /\ (o_limit o < total)%Z /\
                     apply_from o i st p = AErr k (ECopyLimit (o_limit o) total)).
  Proof.
    intro R. pose proof (apply_sim_limit o LO p i st G D F) as S. rewrite R in S.
    destruct S as [S|LS]; [left; exact S | right; exact (limit_stop_err o i st p LS)].
  Qed.
End Classes.

(* 5. AllowMissingPathOnRemove on (limit 0): the causes are those of the stripped patch *)

(* the converse of C08_allow_classes (Properties/C08.v): where the reference run of the stripped patch fails, Apply
   fails at that operation with the class *)
Theorem allow_classes_ref o p i st k cz :
  allow_opts o -> sgood st -> Forall op_dom p ->
  copies_fit (dia o) (sval st) (map den_op (strip (dia o) (sval st) p)) = true ->
  rfc_apply_from (dia o) i (sval st) (map den_op (strip (dia o) (sval st) p)) = Failed k cz ->
  exists k1 e,
    apply_from o i st p = AErr k1 e /\ cause_rel cz e /\
    nth_error p (k1 - i) = nth_error (strip (dia o) (sval st) p) (k - i) /\
    (e = ETestFailed <-> cz = FTest) /\
    (cz = FMissingMember \/ cz = FUnreachable -> e = EMissing) /\
    is_copy_limit e = false.
Proof.
  intros AO G D F R. pose proof (allow_strip_ref o AO p i i st G D F) as A. rewrite R in A.
  destruct A as [k1 [e [A1 [A2 [A3 [A4 A5]]]]]]. exists k1, e. split; [exact A1|]. split; [exact A2|].
  split; [exact A5 | exact (cause_rel_classes cz e A2)].
Qed.

(* 6. EnsurePathExistsOnAdd on: what add reports *)

(* the error of ensurePathExists itself is ErrInvalidIndex only (a negative next index); an existing
   value on the way that is not a container is no error of ensurePathExists (fix 584e880), and the
   remaining error return is dead code: a node that spells or holds an array always converts *)
Lemma ensure_path_errs o c path e c' : ensure_path o c path = (Some e, c') -> e = EInvalidIndex.
Proof. unfold ensure_path. intro H. break_match_hyp H; try (inversion H; fail). eapply ensure_errs; eauto. Qed.

(* the path passes through an existing member that is neither a container nor null, before its last
   token: the reference cannot reach the parent (FUnreachable; without the option Apply reports
   ErrMissing: op_add_sim).  With the option, ensurePathExists leaves the document as it is and the
   add reports ErrMissing as well (before fix 584e880: ErrInvalid) *)
Lemma ensure_scalar o : forall parts c ps t rest x,
  cgood c -> Forall tok_dom (map decode_token parts) ->
  map decode_token parts = ps ++ t :: rest -> rest <> [] ->
  descend (dia o) (ps ++ [t]) (cval c) = Some x -> is_container x = false -> x <> ONull ->
  exists c', ensure o parts c = (None, c') /\ cval c' = cval c /\ cgood c'.
Proof.
  induction parts as [|part parts IH]; intros c ps t rest x G D E NE Hd Cx NN.
  - destruct ps; discriminate.
  - inversion D as [|? ? Dk Dr]; subst. destruct ps as [|t0 ps].
    + cbn [app map] in E. inversion E as [[E1 E2]]. destruct parts as [|nextp rest0]; [cbn in E2; congruence|].
      cbn [app descend] in Hd. rewrite <- E1 in Hd.
      pose proof (con_get_sim o c (decode_token part) G Dk) as CG.
      destruct (child_at (dia o) (cval c) (decode_token part)) as [j|]; [|discriminate]. inversion Hd; subst j.
      destruct CG as [n [Hg [Ev Gn]]]. rewrite <- Ev in Cx, NN.
      pose proof (into_con_sim n Gn) as IC. rewrite Cx in IC.
      rewrite ensure_step. unfold ensure_present. rewrite Hg.
      destruct n; [exfalso; exact (NN eq_refl) | rewrite IC ..]; exists c; (split; [reflexivity | split; [reflexivity | exact G]]).
    + cbn [app map] in E. inversion E as [[E1 E2]]. cbn [app descend] in Hd. rewrite <- E1 in Hd.
      destruct (child_at (dia o) (cval c) (decode_token part)) as [j|] eqn:Ech; [|discriminate].
      assert (Cj : is_container j = true).
      { destruct (ps ++ [t]) as [|a l] eqn:Ea; [destruct ps; discriminate|].
        cbn [descend] in Hd. destruct j; try discriminate; reflexivity. }
      destruct parts as [|nextp rest0]; [destruct ps; discriminate|].
      destruct (ensure_into o part nextp rest0 c j G Dk Ech Cj) as [ch [Gch [Evc [-> Put]]]]. rewrite <- Evc in Hd.
      destruct (IH ch ps t rest x Gch Dr E2 NE Hd Cx NN) as [ch' [E3 [E4 E5]]]. rewrite E3.
      eexists. split; [reflexivity|]. destruct (Put ch' E5) as [Q1 Q2]. split; [|exact Q2].
      rewrite Q1, E4, Evc. apply put_child_same. exact Ech.
Qed.

Lemma descend_app d a : forall b j,
  descend d (a ++ b) j = match descend d a j with Some y => descend d b y | None => None end.
Proof.
  induction a as [|t a IH]; intros b j; cbn [app descend]; [reflexivity|].
  destruct (child_at d j t); [apply IH | reflexivity].
Qed.

(* the reference, for such a path: the parent of the addressed location is not reached *)
Lemma through_scalar_parent d r ps t rest x j :
  ptoks r = ps ++ t :: rest -> rest <> [] ->
  descend d (ps ++ [t]) j = Some x -> is_container x = false ->
  dest_reachable d j r = false.
Proof.
  intros E NE Hd Cx. destruct (exists_last NE) as [rest' [a ->]].
  unfold ptoks in E. rewrite app_comm_cons, app_assoc in E. apply app_inj_tail in E as [E1 _].
  unfold dest_reachable. rewrite E1.
  replace (ps ++ t :: rest') with ((ps ++ [t]) ++ rest') by (rewrite <- app_assoc; reflexivity).
  rewrite descend_app, Hd. destruct rest' as [|b rest']; cbn [descend]; [exact Cx|].
  destruct x; try discriminate Cx; reflexivity.
Qed.

(* an add fails, in the reference, because the parent is not reached or the last token is no index *)
Lemma add_causes d v r doc cz :
  at_parent d (ptoks r) doc (add_leaf d v) = RFail cz -> cz = FUnreachable \/ cz = FIndex.
Proof.
  unfold ptoks. rewrite at_parent_snoc.
  destruct (descend d (map decode_token (path_parts r)) doc) as [p|]; [|intro H; inversion H; auto].
  destruct p; cbn [add_leaf bind]; try (intro H; inversion H; auto; fail).
  destruct (idx_insert d (Rfc6902.zlen l) (path_key r)); cbn [bind]; intro H; inversion H; auto.
Qed.

(* 7. Apply on bytes *)

(* the state Apply starts the operation loop in *)
Definition init_state (o : opts) (t : tjson) : state :=
  match load_doc o t with Ok r => mkState r 0 | _ => mkState RNull 0 end.

Lemma api_start o doc t :
  parse doc = Some t -> root_container t = true -> tnodup t = true ->
  exists c, load_doc o t = Ok (RCon c) /\ init_state o t = mkState (RCon c) 0 /\
            sgood (init_state o t) /\ sval (init_state o t) = den t.
Proof.
  intros P RC T. destruct (load_doc_good o doc t P RC T) as [c [L [G V]]]. exists c. unfold init_state. rewrite L.
  split; [reflexivity|]. split; [reflexivity|]. split; [exists c; auto | exact V].
Qed.

Lemma api_loop o indent p doc t : parse doc = Some t -> root_container t = true -> tnodup t = true ->
  api_apply o indent p doc = apply_end o indent (apply_from o 0 (init_state o t) p).
Proof.
  intros P RC T. destruct (api_apply_loop o indent p doc t P RC T) as [c [L [_ [_ ->]]]]. unfold init_state. now rewrite L.
Qed.

(* the document a good final state is written as *)
Definition final_node (st : state) : node := root_node (s_root st).

Lemma api_ok o indent p doc t st' : parse doc = Some t -> root_container t = true -> tnodup t = true ->
  apply_from o 0 (init_state o t) p = AOk st' -> sgood st' ->
  api_apply o indent p doc = ROut (output o indent (render (o_esc o) (final_node st'))) /\
  aval (final_node st') = sval st' /\ ngood (final_node st').
Proof. intros P RC T A G. rewrite (api_loop o indent p doc t P RC T), A. exact (apply_end_ok o indent st' G). Qed.

Lemma api_err o indent p doc t k e : parse doc = Some t -> root_container t = true -> tnodup t = true ->
  (api_apply o indent p doc = RErr (Some k) e <-> apply_from o 0 (init_state o t) p = AErr k e).
Proof. intros P RC T. rewrite (api_loop o indent p doc t P RC T). apply apply_end_err. Qed.

(* 8. instances *)

Definition cf_run (o : opts) (pt doc : bytes) : option apply_result :=
  match api_decode pt with Some p => Some (api_apply o [] p doc) | None => None end.
Definition cf_refrun (o : opts) (pt doc : bytes) : option outcome :=
  match api_decode pt, parse doc with
  | Some p, Some t => Some (rfc_apply (dia o) (den t) (map den_op p))
  | _, _ => None
  end.

(* the limit is checked before the destination index: a copy the reference rejects for its index
   (FIndex; ErrInvalidIndex without a limit) reports the limit error when it is over the limit *)
Example limit_before_index :
  let pt := B "[{""op"":""copy"",""from"":""/b"",""path"":""/a/5""}]" in
  let doc := B "{""a"":[1],""b"":""xxxxxxxxxx""}" in
  cf_run (mkOpts false 3 false false false [] None) pt doc = Some (RErr (Some 0%nat) (ECopyLimit 3 12)) /\
  cf_run (mkOpts false 0 false false false [] None) pt doc = Some (RErr (Some 0%nat) EInvalidIndex) /\
  cf_refrun (mkOpts false 3 false false false [] None) pt doc = Some (Failed 0 FIndex).
Proof. vm_compute. repeat split; reflexivity. Qed.

(* the limit stops the patch at a copy BEFORE the operation at which the reference fails *)
Example limit_before_missing :
  let pt := B "[{""op"":""test"",""path"":""/a/0"",""value"":1},{""op"":""copy"",""from"":""/b"",""path"":""/c""},{""op"":""remove"",""path"":""/zz""}]" in
  let doc := B "{""a"":[1],""b"":""xxxxxxxxxx""}" in
  cf_run (mkOpts false 3 false false false [] None) pt doc = Some (RErr (Some 1%nat) (ECopyLimit 3 12)) /\
  cf_run (mkOpts false 12 false false false [] None) pt doc = Some (RErr (Some 2%nat) EMissing) /\
  cf_refrun (mkOpts false 3 false false false [] None) pt doc = Some (Failed 2 FMissingMember).
Proof. vm_compute. repeat split; reflexivity. Qed.

(* the input that was a COUNTEREXAMPLE to the ErrMissing clause of C08 under EnsurePathExistsOnAdd
   before fix 584e880 (Apply returned ErrInvalid, intoDoc's error returned bare by ensurePathExists):
   the parent location /a of the add cannot be reached as a container (it holds the number 1; the
   reference: FUnreachable); now ErrMissing with the option as without it *)
Example ensure_scalar_now_missing :
  let pt := B "[{""op"":""add"",""path"":""/a/b"",""value"":1}]" in
  let doc := B "{""a"":1}" in
  cf_run (mkOpts false 0 false true false [] None) pt doc = Some (RErr (Some 0%nat) EMissing) /\
  cf_run (mkOpts false 0 false false false [] None) pt doc = Some (RErr (Some 0%nat) EMissing) /\
  cf_refrun (mkOpts false 0 false true false [] None) pt doc = Some (Failed 0 FUnreachable).
Proof. vm_compute. repeat split; reflexivity. Qed.

(* with the option a null on the way is treated by how it got there: a decoded null member is
   replaced by a created object; a null put there by an earlier add is an existing value that is not
   a container: nothing is created and the add reports ErrMissing *)
Example ensure_null_on_the_way :
  cf_run (mkOpts false 0 false true false [] None) (B "[{""op"":""add"",""path"":""/a/b"",""value"":1}]") (B "{""a"":null}")
    = Some (ROut (B "{""a"":{""b"":1}}")) /\
  cf_run (mkOpts false 0 false true false [] None)
      (B "[{""op"":""add"",""path"":""/a"",""value"":null},{""op"":""add"",""path"":""/a/b"",""value"":1}]") (B "{}")
    = Some (RErr (Some 1%nat) EMissing).
Proof. vm_compute. split; reflexivity. Qed.

(* 9. for the statements of EnsureSim.v about AllowMissingPathOnRemove together with a copy-size limit: stripb,
   limit_stop_s, FTest at a test only (rfc_step_ftest); then Apply on bytes under a limit, the two other options off *)

(* strip (AllowEnsureFacts.v) with a switch: the removes the option forgives are deleted when the
   option is on; nothing is deleted when it is off *)
Fixpoint stripb (b : bool) (d : dialect) (doc : ojson) (p : list operation) : list operation :=
  match p with
  | [] => []
  | op :: rest =>
      if (b && absent_remove d doc op)%bool then stripb b d doc rest
      else op :: match rfc_step d doc (den_op op) with
                 | ROk doc' => stripb b d doc' rest
                 | RFail _ => rest
                 end
  end.

Lemma stripb_false d : forall p doc, stripb false d doc p = p.
Proof.
  induction p as [|op p IH]; intro doc; cbn [stripb andb]; auto.
  f_equal. destruct (rfc_step d doc (den_op op)); auto.
Qed.

Lemma stripb_true d : forall p doc, stripb true d doc p = strip d doc p.
Proof.
  induction p as [|op p IH]; intro doc; cbn [stripb strip andb]; auto.
  destruct (absent_remove d doc op); auto. f_equal. destruct (rfc_step d doc (den_op op)); auto.
Qed.

(* stopped by the limit, against the reference run of the stripped patch *)
Definition limit_stop_s (o : opts) (i i' : nat) (st : state) (p : list operation) : Prop :=
  exists p1 op p2 st1 total,
    p = p1 ++ op :: p2 /\
    apply_from o i st p1 = AOk st1 /\ sgood st1 /\
    rfc_apply_from (dia o) i' (sval st) (map den_op (stripb (o_allow o) (dia o) (sval st) p1)) = Done (sval st1) /\
    copy_over o st1 op = Some total /\
    apply_from o i st p = AErr (i + length p1) (ECopyLimit (o_limit o) total) /\
    ((exists j', rfc_step (dia o) (sval st1) (den_op op) = ROk j') \/
     rfc_step (dia o) (sval st1) (den_op op) = RFail FIndex).

Lemma absent_remove_not_copy d doc op : absent_remove d doc op = true -> op_kind op = KRemove.
Proof. unfold absent_remove. destruct (op_kind op); try discriminate. reflexivity. Qed.

(* the reference fails with FTest only at a test operation *)
Lemma leaf_not_ftest d v p t :
  add_leaf d v p t <> RFail FTest /\ remove_leaf d p t <> RFail FTest /\ replace_leaf d v p t <> RFail FTest.
Proof.
  destruct p; cbn [add_leaf remove_leaf replace_leaf]; repeat split; try discriminate.
  - destruct (idx_insert d (Rfc6902.zlen l) t); discriminate.
  - destruct (idx_existing d (Rfc6902.zlen l) t); discriminate.
  - destruct (idx_existing d (Rfc6902.zlen l) t); discriminate.
  - destruct (amem t ms); discriminate.
  - destruct (amem t ms); discriminate.
Qed.

Lemma at_parent_ftest d f : forall toks j,
  at_parent d toks j f = RFail FTest -> exists p t, f p t = RFail FTest.
Proof.
  induction toks as [|t toks IH]; intros j; [discriminate|].
  destruct toks as [|t' r]; [cbn [at_parent]; eauto|].
  rewrite at_parent_cons. destruct (child_at d j t) as [c|]; [|discriminate].
  destruct (at_parent d (t' :: r) c f) eqn:E; cbn [bind]; [discriminate|].
  intro H; inversion H; subst. eapply IH; eauto.
Qed.

Lemma get_at_not_ftest d : forall toks j, get_at d toks j <> RFail FTest.
Proof.
  induction toks as [|t r IH]; intro j; cbn [get_at]; [discriminate|].
  destruct j; try discriminate.
  - destruct (idx_existing d (Rfc6902.zlen l) t); [apply IH | destruct r; discriminate].
  - destruct (aget t ms); [apply IH | destruct r; discriminate].
Qed.

Lemma rfc_step_ftest d doc rop : rfc_step d doc rop = RFail FTest -> rkind rop = OpTest.
Proof.
  unfold rfc_step. destruct (ptr_tokens (rpath rop)) as [toks|]; [|discriminate].
  assert (NA : forall v toks j, at_parent d toks j (add_leaf d v) <> RFail FTest).
  { intros v tk j H. apply at_parent_ftest in H as [p [t H]]. exact (proj1 (leaf_not_ftest d v p t) H). }
  assert (NR : forall toks j, at_parent d toks j (remove_leaf d) <> RFail FTest).
  { intros tk j H. apply at_parent_ftest in H as [p [t H]]. exact (proj1 (proj2 (leaf_not_ftest d ONull p t)) H). }
  assert (NP : forall v toks j, at_parent d toks j (replace_leaf d v) <> RFail FTest).
  { intros v tk j H. apply at_parent_ftest in H as [p [t H]]. exact (proj2 (proj2 (leaf_not_ftest d v p t)) H). }
  destruct (rkind rop); auto; intro H; exfalso.
  - unfold rfc_add in H. destruct toks; [destruct (is_container _); discriminate | eapply NA; eauto].
  - destruct toks; [discriminate | eapply NR; eauto].
  - destruct toks; [destruct (is_container _); discriminate | eapply NP; eauto].
  - destruct (ptr_tokens (rfrom rop)) as [[|ft ftoks]|]; try discriminate.
    destruct (get_at d (ft :: ftoks) doc) as [v|c] eqn:E; cbn [bind] in H.
    + destruct (at_parent d (ft :: ftoks) doc (remove_leaf d)) as [doc1|c] eqn:E2; cbn [bind] in H.
      * destruct toks; [discriminate | eapply NA; eauto].
      * inversion H; subst. eapply NR; eauto.
    + inversion H; subst. eapply get_at_not_ftest; eauto.
  - destruct (ptr_tokens (rfrom rop)) as [ftoks|]; try discriminate.
    destruct (get_at d ftoks doc) as [v|c] eqn:E; cbn [bind] in H.
    + destruct toks; [discriminate | eapply NA; eauto].
    + inversion H; subst. eapply get_at_not_ftest; eauto.
Qed.

(* both options at once: the skipped remove, then the copy that trips the limit, before the test
   that fails when there is no limit *)
Example allow_and_limit :
  let pt := B "[{""op"":""remove"",""path"":""/zz""},{""op"":""copy"",""from"":""/b"",""path"":""/c""},{""op"":""test"",""path"":""/a/0"",""value"":2}]" in
  let doc := B "{""a"":[1],""b"":""xxxxxxxxxx""}" in
  cf_run (mkOpts false 3 true false false [] None) pt doc = Some (RErr (Some 1%nat) (ECopyLimit 3 12)) /\
  cf_run (mkOpts false 0 true false false [] None) pt doc = Some (RErr (Some 2%nat) ETestFailed) /\
  cf_run (mkOpts false 3 false false false [] None) pt doc = Some (RErr (Some 0%nat) EMissing).
Proof. vm_compute. repeat split; reflexivity. Qed.

(* Apply on bytes under any copy-size limit (the two other options off), from how the operation loop ended:
   the reference's document; or the limit error, at a copy up to which model and reference agreed (limit_stop),
   the reference failing not before that copy, and at it for the destination index only; or the reference's
   first failure, with an error of its class *)
Theorem api_verdict_limit o indent p doc t :
  lim_opts o -> parse doc = Some t -> root_container t = true -> tnodup t = true ->
  Forall op_dom p -> copies_fit (dia o) (den t) (map den_op p) = true ->
  match apply_from o 0 (init_state o t) p with
  | AOk _ => exists n, api_apply o indent p doc = ROut (output o indent (render (o_esc o) n)) /\
                       rfc_apply (dia o) (den t) (map den_op p) = Done (aval n) /\ ngood n
  | AErr k e =>
      api_apply o indent p doc = RErr (Some k) e /\
      if is_copy_limit e
      then limit_stop o 0 (init_state o t) p /\
           exists total op, e = ECopyLimit (o_limit o) total /\ (0 < o_limit o)%Z /\ (o_limit o < total)%Z /\
             nth_error p k = Some op /\ op_kind op = KCopy /\
             forall j cz, rfc_apply (dia o) (den t) (map den_op p) = Failed j cz -> (k <= j)%nat /\ (k = j -> cz = FIndex)
      else exists cz, rfc_apply (dia o) (den t) (map den_op p) = Failed k cz /\ cause_rel cz e
  | APanic _ => False
  end.
Proof.
  intros LO P RC T D F. destruct (api_start o doc t P RC T) as [c [_ [_ [G SV]]]].
  unfold rfc_apply. rewrite <- SV in *. pose proof (verdict_limit o p 0%nat _ LO G D F) as V.
  destruct (apply_from o 0 (init_state o t) p) as [st'|k e|k] eqn:H; [|split; [exact (proj2 (api_err o indent p doc t k e P RC T) H)|]|exact V].
  - destruct V as [V1 V2]. destruct (api_ok o indent p doc t st' P RC T H V2) as [N1 [N2 N3]].
    exists (final_node st'). rewrite N2. auto.
  - destruct (is_copy_limit e); [split; [exact (stopped_limit_stop o p 0%nat _ k e H V)|] | exact V].
    destruct (stopped_ref _ _ _ _ _ _ _ _ _ V) as [st1 [op [N [S [_ Q]]]]]. rewrite Nat.sub_0_r in N.
    destruct (limit_stops_inv _ _ _ _ S) as [total [-> [_ [K [Z1 [Z2 FI]]]]]]. exists total, op.
    repeat (split; [assumption || reflexivity|]). intros j cz R. destruct (Q j cz R) as [Q1 Q2].
    split; [exact Q1|]. intros <-. exact (FI cz (Q2 eq_refl)).
Qed.
