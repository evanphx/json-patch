(* ListFacts.v — lists: the positional updates of the reference (Rfc6902.set_at / insert_at / remove_at)
   under map, Forall, length and nth. *)
From Coq Require Import Lia.
From JP Require Import Bytes Rfc6902.

Lemma map_set_at {A B} (f : A -> B) i v l : map f (set_at i v l) = set_at i (f v) (map f l).
Proof. unfold set_at. rewrite map_app, map_cons, firstn_map, skipn_map. reflexivity. Qed.
Lemma map_insert_at {A B} (f : A -> B) i v l : map f (insert_at i v l) = insert_at i (f v) (map f l).
Proof. unfold insert_at. rewrite map_app, map_cons, firstn_map, skipn_map. reflexivity. Qed.
Lemma map_remove_at {A B} (f : A -> B) i l : map f (remove_at i l) = remove_at i (map f l).
Proof. unfold remove_at. rewrite map_app, firstn_map, skipn_map. reflexivity. Qed.

Lemma map_repeat' {A B} (f : A -> B) x n : map f (repeat x n) = repeat (f x) n.
Proof. induction n; simpl; congruence. Qed.

Lemma Forall_firstn_skipn {A} (P : A -> Prop) n l : Forall P l -> Forall P (firstn n l) /\ Forall P (skipn n l).
Proof. intro H. rewrite <- (firstn_skipn n l) in H. apply Forall_app in H. exact H. Qed.
Lemma Forall_firstn {A} (P : A -> Prop) n l : Forall P l -> Forall P (firstn n l).
Proof. intro H. apply (Forall_firstn_skipn P n l H). Qed.
Lemma Forall_skipn {A} (P : A -> Prop) n l : Forall P l -> Forall P (skipn n l).
Proof. intro H. apply (Forall_firstn_skipn P n l H). Qed.
Lemma Forall_set_at {A} (P : A -> Prop) i v l : Forall P l -> P v -> Forall P (set_at i v l).
Proof. intros. unfold set_at. apply Forall_app. split; [apply Forall_firstn; auto | constructor; auto; apply Forall_skipn; auto]. Qed.
Lemma Forall_insert_at {A} (P : A -> Prop) i v l : Forall P l -> P v -> Forall P (insert_at i v l).
Proof. intros. unfold insert_at. apply Forall_app. split; [apply Forall_firstn; auto | constructor; auto; apply Forall_skipn; auto]. Qed.
Lemma Forall_remove_at {A} (P : A -> Prop) i l : Forall P l -> Forall P (remove_at i l).
Proof. intros. unfold remove_at. apply Forall_app. split; [apply Forall_firstn; auto | apply Forall_skipn; auto]. Qed.

Lemma Forall_nth {A} (P : A -> Prop) l i d : Forall P l -> (i < length l)%nat -> P (nth i l d).
Proof. rewrite Forall_forall. intros H L. apply H. apply nth_In. exact L. Qed.

Lemma Forall_repeat {A} (P : A -> Prop) x n : P x -> Forall P (repeat x n).
Proof. intro H. induction n; simpl; constructor; auto. Qed.

Lemma Forall_removelast {A} (P : A -> Prop) l : Forall P l -> Forall P (removelast l).
Proof.
  induction l as [|x l IH]; intro H; [constructor|]. inversion H; subst.
  destruct l; [constructor|]. cbn [removelast]. constructor; auto.
Qed.

Lemma Forall_filter_keep {A} (Q : A -> Prop) f (l : list A) : Forall Q l -> Forall Q (filter f l).
Proof. apply incl_Forall, incl_filter. Qed.

Lemma set_at_cons {A} i (y x : A) l : set_at (S i) y (x :: l) = x :: set_at i y l.
Proof. reflexivity. Qed.

Lemma set_at_same {A} i (l : list A) d : (i < length l)%nat -> set_at i (nth i l d) l = l.
Proof.
  unfold set_at. revert l. induction i as [|i IH]; intros [|x l] H; simpl in *; try lia; auto.
  f_equal. apply IH. lia.
Qed.

Lemma set_at_length {A} i (x : A) l : (i < length l)%nat -> length (set_at i x l) = length l.
Proof.
  intro H. unfold set_at. rewrite app_length, firstn_length. cbn [length]. rewrite skipn_length. lia.
Qed.

Lemma nth_firstn_mid {A} i (x : A) l g dflt : (i <= length l)%nat -> nth i (firstn i l ++ x :: g) dflt = x.
Proof. intro H. rewrite <- (firstn_length_le l H) at 1. apply nth_middle. Qed.

Lemma nth_set_at {A} i (x : A) l dflt : (i < length l)%nat -> nth i (set_at i x l) dflt = x.
Proof. intro H. apply nth_firstn_mid. lia. Qed.

Lemma nth_set_at_other {A} : forall (l : list A) i ia y dflt,
  (i < length l)%nat -> ia <> i -> nth ia (set_at i y l) dflt = nth ia l dflt.
Proof.
  induction l as [|x l IH]; intros i ia y dflt L N; [cbn in L; lia|].
  destruct i as [|i].
  - destruct ia; [congruence | reflexivity].
  - rewrite set_at_cons. destruct ia; [reflexivity|]. cbn [nth]. apply IH; [cbn in L; lia | congruence].
Qed.

Lemma set_at_set_at {A} i (x y : A) l : (i < length l)%nat -> set_at i y (set_at i x l) = set_at i y l.
Proof.
  revert i. induction l as [|a l IH]; intros i H; [cbn in H; lia|]. destruct i as [|i]; [reflexivity|].
  rewrite !set_at_cons. f_equal. apply IH. cbn in H. lia.
Qed.

Lemma set_at_end {A} (l : list A) x y i : i = length l -> set_at i y (l ++ [x]) = l ++ [y].
Proof.
  intros ->. unfold set_at. rewrite firstn_app, firstn_all, Nat.sub_diag. cbn [firstn]. rewrite app_nil_r.
  rewrite skipn_all2 by (rewrite app_length; simpl; lia). reflexivity.
Qed.

Lemma insert_at_end {A} (l : list A) x i : i = length l -> insert_at i x l = l ++ [x].
Proof. intros ->. unfold insert_at. now rewrite firstn_all, skipn_all. Qed.

Lemma insert_at_length {A} i (x : A) l : (i <= length l)%nat -> length (insert_at i x l) = S (length l).
Proof. intro H. unfold insert_at. rewrite app_length, firstn_length. cbn [length]. rewrite skipn_length. lia. Qed.

Lemma nth_insert_at {A} i (x : A) l dflt : (i <= length l)%nat -> nth i (insert_at i x l) dflt = x.
Proof. apply nth_firstn_mid. Qed.

Lemma nth_error_mid {A} (p1 : list A) x p2 : nth_error (p1 ++ x :: p2) (length p1) = Some x.
Proof. rewrite nth_error_app2 by lia. rewrite Nat.sub_diag. reflexivity. Qed.

(* how an induction hypothesis under Forall (JsonFacts.tjson_rect', Abs.node_rect') is used: element by element *)
Lemma Forall_mp {A} (P Q : A -> Prop) l : Forall (fun x => P x -> Q x) l -> Forall P l -> Forall Q l.
Proof. intros I F. induction I as [|x l Hx _ IH]; inversion F; subst; constructor; auto. Qed.

Lemma Forall_nth_default {A} (P : A -> Prop) d l i : P d -> Forall P l -> P (nth i l d).
Proof. intros Hd F. revert i. induction F as [|x l Hx F IH]; intros [|i]; cbn [nth]; auto. Qed.
