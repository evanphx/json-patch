(* OutputFacts.v — the output BYTES of the model's entry points are well-formed JSON texts that the
   independent reader Text.parse reads back as the intended value (C15, C02, C07, C17, C19).

   ntok n    : every raw message stored in the node n is a tree whose string bodies are bodies the
               reader accepts and whose number literals are complete RFC 8259 numbers
               (PrintParse.tok).  Nothing is required of member names: the encoder writes a body the
               reader accepts for EVERY Go string (StrInv.quote_sbody, body_ok_quote; invalid UTF-8
               becomes U+FFFD).
   The invariant holds of every parsed document and of every value of a decoded patch, and is kept
   by every operation of the v5 patch engine for ARBITRARY operations, paths and options
   (apply_from_ntok: an instance of ApplyFacts' Section Invariant, generic in the
   predicate on raw messages: Section RawInv).
   The nesting depth of Apply's result is a hypothesis of its output theorems (a copy / add can nest
   the result deeper than the reader accepts: ex_result_too_deep); it holds when the patch is empty.
   MergePatch / MergeMergePatches / CreateMergePatch (v5) and the legacy MergePatch /
   MergeMergePatches need no such hypothesis: a second invariant indexed by the nesting still
   allowed (Section MergeInv: nlv) is kept by pruneNulls and merge, so the result is nested no
   deeper than the deeper input. *)
From Coq Require Import Lia.
From JP Require Import Bytes Json Text Strings Den Pointer Rfc6902 ImplV5 DecodeFacts JsonFacts Abs EqualFacts ParseFacts
                       ImplFacts RefFacts ApplyFacts Codec StrInv PrintParse Depth ApplySim CauseFacts Totality.

(* 1. the two depth functions agree *)

Lemma maxd_fold {A} (f : A -> N) l : maxd f l = fold_right (fun x a => N.max (f x) a) 0%N l.
Proof. reflexivity. Qed.

Theorem tdepth_eq t : Json.tdepth t = Text.tdepth t.
Proof. exact (tdepth_text t). Qed.

Lemma twf_text t : twf t <-> tok t /\ (Text.tdepth t <= max_depth)%N.
Proof. unfold twf. now rewrite tdepth_eq. Qed.

(* 2. the encoder writes a string body the reader accepts, for every Go string *)

Theorem sbody_quote_any esc : forall n s, (length s <= n)%nat -> sbody (quote esc s).
Proof. intros n s _. apply quote_sbody. Qed.

Corollary body_ok_quote esc s : body_ok (quote esc s).
Proof. apply body_ok_sbody, quote_sbody. Qed.

(* 3. escaping, for either setting of the switch *)

Lemma body_ok_esc_body esc b : body_ok b -> body_ok (esc_body esc b).
Proof. destruct esc; [apply html_escape_body_ok | auto]. Qed.

(* tok speaks of the leaves only (StrInv.spelled) *)
Lemma tok_spelled : spelled tok body_ok.
Proof.
  split; try exact I; try (split; exact I); try reflexivity.
  - exact tok_arr.
  - exact tok_obj.
  - intros esc s. exact (body_ok_quote esc s).
  - exact body_ok_esc_body.
Qed.

Lemma tok_escape_any esc t : tok t -> tok (escape_tree esc t).
Proof. exact (sp_escape tok_spelled esc t). Qed.

Lemma print_any esc t : print esc t = print false (escape_tree esc t).
Proof. destruct esc; [apply print_true | reflexivity]. Qed.

Lemma pp_any esc ind k t : pp esc ind k t = pp false ind k (escape_tree esc t).
Proof. destruct esc; [apply pp_true | reflexivity]. Qed.

Lemma twf_escape_any esc t : twf t -> twf (escape_tree esc t).
Proof. destruct esc; [apply twf_escape | auto]. Qed.

Theorem parse_pp_any esc ind k t : wsb ind = true -> twf t -> parse (pp esc ind k t) = Some (escape_tree esc t).
Proof. destruct esc; [apply parse_pp_esc | apply parse_pp]. Qed.

(* the map a parsed object is turned into: under each member's name, the child made of its value
   (the names in order: Codec.keys_in_document_order) *)
Lemma doc_of_Forall (Q : bytes * node -> Prop) ms :
  Forall (fun kv => Q (unquote (fst kv), child (snd kv))) ms -> Forall Q (snd (doc_of ms)).
Proof. intro F. unfold doc_of. cbn [snd]. rewrite build_obj_with. apply build_with_Forall; [constructor | exact F]. Qed.

(* 4. an invariant of the raw messages stored in a node, kept by the v5 patch engine
   (generic in the predicate P on raw messages; instantiated with PrintParse.tok below) *)

Section RawInv.
  Variable P : tjson -> Prop.

  Fixpoint nall (n : node) : Prop :=
    match n with
    | NNil => True
    | NRaw t => P t
    | NDoc _ obj =>
        (fix all (m : list (bytes * node)) : Prop :=
           match m with [] => True | kv :: r => nall (snd kv) /\ all r end) obj
    | NAry ns =>
        (fix all (l : list node) : Prop := match l with [] => True | x :: r => nall x /\ all r end) ns
    end.

  Lemma nall_doc keys obj : nall (NDoc keys obj) <-> Forall (fun kv => nall (snd kv)) obj.
  Proof. apply (all_fix_Forall (fun kv => nall (snd kv))). Qed.

  Lemma nall_ary ns : nall (NAry ns) <-> Forall nall ns.
  Proof. apply all_fix_Forall. Qed.

  Lemma nall_nil : nall NNil. Proof. exact I. Qed.
  Lemma nall_raw t : nall (NRaw t) <-> P t. Proof. reflexivity. Qed.

  (* the container methods keep it whatever P is: they neither parse nor re-encode a raw message *)
  Lemma nall_closed_con : closed_con nall.
  Proof.
    split.
    - exact I.
    - exact nall_ary.
    - intros keys obj k v N E. apply nall_doc in N. exact (Forall_aget _ _ _ _ N E).
    - intros keys obj k x v N _ Hv. apply nall_doc in N. apply nall_doc. apply Forall_aset; auto.
    - intros keys obj k v N Hv. apply nall_doc in N. apply nall_doc. unfold doc_set. cbn [snd]. apply Forall_aset; auto.
    - intros keys obj k N. apply nall_doc in N. apply nall_doc. now apply Forall_adel.
  Qed.

  (* what is required of P: null has it, the parts of a tree that has it have it, and re-encoding a
     node whose raw messages have it gives a tree that has it *)
  Hypothesis P_null : P TNull.
  Hypothesis P_arr : forall l, P (TArr l) -> Forall P l.
  Hypothesis P_obj : forall ms, P (TObj ms) -> Forall (fun kv => P (snd kv)) ms.
  Hypothesis P_copy : forall esc v, nall v -> P (escape_tree esc (render esc v)).

  Lemma nall_child t : P t -> nall (child t).
  Proof. destruct t; intro H; try exact I; exact H. Qed.

  Definition call (c : con) : Prop := nall (con_self c) /\ nall (node_of_con c).
  Definition rall (r : root) : Prop := match r with RCon c => call c | RNull => True end.
  Definition sall (st : state) : Prop := rall (s_root st).

  Lemma call_node c : call c -> nall (node_of_con c).
  Proof. intros [_ H]; exact H. Qed.

  Lemma con_get_all o c key n : call c -> con_get o c key = Ok n -> nall n.
  Proof. exact (con_get_inv nall_closed_con o c key n). Qed.

  (* at any key, not only where get has succeeded *)
  Lemma con_put_all o c key ch : call c -> nall ch -> call (con_put o c key ch).
  Proof.
    intros [Cs Cn] Hch. destruct c as [s keys obj|s st|s ns]; cbn [con_put con_self node_of_con] in *.
    - destruct key as [|b key]; split; try assumption. cbn [node_of_con].
      apply nall_doc in Cn. apply nall_doc. apply Forall_aset; auto.
    - split; assumption.
    - destruct key as [|b key]; [split; assumption|].
      destruct (resolve_idx_get o (zlen ns) (b :: key)) as [i| |]; try (split; assumption).
      split; [exact Cs|]. cbn [node_of_con]. apply nall_ary. apply nall_ary in Cn. now apply Forall_set_at.
  Qed.

  Lemma doc_set_all keys obj key v :
    nall (NDoc keys obj) -> nall v -> nall (NDoc (fst (doc_set keys obj key v)) (snd (doc_set keys obj key v))).
  Proof. exact (inv_set nall nall_closed_con keys obj key v). Qed.

  Lemma con_add_all o c key v c' : call c -> nall v -> con_add o c key v = Ok c' -> call c'.
  Proof. exact (con_add_inv nall_closed_con o c key v c'). Qed.

  Lemma con_set_all o c key v c' : call c -> nall v -> con_set o c key v = Ok c' -> call c'.
  Proof. exact (con_set_inv nall_closed_con o c key v c'). Qed.

  Lemma con_remove_all o c key c' : call c -> con_remove o c key = Ok c' -> call c'.
  Proof. exact (con_remove_inv nall_closed_con o c key c'). Qed.

  Lemma ignore_err_add_all o c key v : call c -> nall v -> call (ignore_err c (con_add o c key v)).
  Proof.
    intros C Hv. destruct (con_add o c key v) as [c'| |] eqn:E; cbn [ignore_err]; try exact C. eapply con_add_all; eauto.
  Qed.

  Lemma pad_nulls_all o : forall count c from, call c -> call (pad_nulls o c from count).
  Proof. exact (pad_nulls_inv nall_closed_con o P_null). Qed.

  Lemma nall_doc_of ms : P (TObj ms) -> nall (NDoc (fst (doc_of ms)) (snd (doc_of ms))).
  Proof.
    intro H. apply nall_doc, doc_of_Forall. apply P_obj in H. rewrite Forall_forall in *.
    intros kv Hk. apply nall_child. apply (H kv Hk).
  Qed.

  Lemma Forall_nall_children l : P (TArr l) -> Forall nall (map child l).
  Proof.
    intro H. apply P_arr in H. rewrite Forall_map. rewrite Forall_forall in *. intros x Hx. apply nall_child. apply (H x Hx).
  Qed.

  Lemma into_con_all n ch : nall n -> into_con n = Some ch -> call ch.
  Proof.
    intros N H. destruct n as [|t|keys obj|ns]; cbn [into_con] in H; try discriminate.
    - destruct t; try discriminate.
      + inversion H; subst. split; [exact I|]. cbn [node_of_con]. apply nall_ary. apply Forall_nall_children. exact N.
      + pose proof (nall_doc_of ms N) as D. destruct (doc_of ms) as [k ob]. inversion H; subst. split; [exact I | exact D].
    - inversion H; subst. split; [exact I | exact N].
    - inversion H; subst. split; [exact I | exact N].
  Qed.

  (* ---- what a passing test leaves behind ---- *)
  Lemma nall_deep_t t : P t -> nall (deep_t t).
  Proof.
    induction t as [| | |l|s|l IH|ms IH] using tjson_rect'; intro H; try exact I; try exact H.
    - cbn [deep_t]. apply nall_ary. rewrite Forall_map. exact (Forall_mp _ _ _ IH (P_arr _ H)).
    - rewrite deep_t_obj. apply nall_doc. apply build_with_Forall; [constructor|]. exact (Forall_mp _ _ _ IH (P_obj _ H)).
  Qed.

  Lemma nall_deep n : nall n -> nall (deep n).
  Proof.
    induction n as [|t|keys obj IH|ns IH] using node_rect'; intro N.
    - exact I.
    - destruct t; try exact N; apply nall_deep_t; exact N.
    - cbn [deep]. apply nall_doc in N. apply nall_doc. rewrite Forall_map. exact (Forall_mp _ _ _ IH N).
    - cbn [deep]. apply nall_ary in N. apply nall_ary. rewrite Forall_map. exact (Forall_mp _ _ _ IH N).
  Qed.

  (* the key list plays no part: ApplyFacts' Section Invariant applies *)
  Theorem nall_closed : closed nall.
  Proof. split; [exact nall_closed_con | exact into_con_all | apply nall_doc; constructor | exact nall_deep]. Qed.

  Lemma nall_deep_copy o v : nall v -> nall (fst (deep_copy o v)).
  Proof. intro N. destruct v; cbn [deep_copy fst]; try exact I; apply nall_raw; apply P_copy; exact N. Qed.

  Definition op_all (op : operation) : Prop := forall t, aget (B "value") op = Some (Some t) -> P t.

  Lemma op_vals_all op : op_vals P op -> op_all op.
  Proof. intros F t E. exact (op_vals_get P op _ t F E). Qed.

  Lemma operation_of_all ms : P (TObj ms) -> op_all (operation_of ms).
  Proof. intro H. apply op_vals_all, operation_of_vals, P_obj, H. Qed.

  Lemma operations_of_all els : P (TArr els) ->
    Forall op_all (map (fun e => match e with TObj ms => operation_of ms | _ => [] end) els).
  Proof.
    intro H. apply P_arr in H. rewrite Forall_map. revert H. apply Forall_impl. intros e He.
    destruct e; try (intros t E; discriminate E). apply operation_of_all. exact He.
  Qed.

  Lemma decode_patch_all t p : P t -> decode_patch_t t = Some p -> Forall op_all p.
  Proof. intros T H. eapply Forall_impl; [exact op_vals_all|]. exact (decoded_vals P t p P_arr P_obj T H). Qed.

  Theorem step_all o st op st' : sall st -> op_all op -> step o st op = Ok st' -> sall st'.
  Proof. exact (step_inv nall_closed P_null nall_deep_copy o st op st'). Qed.

  Theorem apply_from_all o : forall p i st st',
    sall st -> Forall op_all p -> apply_from o i st p = AOk st' -> sall st'.
  Proof. exact (apply_from_inv nall_closed P_null nall_deep_copy o). Qed.

  Lemma load_doc_all o t r : P t -> load_doc o t = Ok r -> rall r.
  Proof. exact (load_doc_inv nall_closed o t r). Qed.

  Lemma rall_root_node r : rall r -> nall (root_node r).
  Proof. destruct r as [c|]; [exact (@proj2 _ _) | intros _; exact I]. Qed.
End RawInv.

(* 5. ntok: the raw messages of a node are made of tokens the reader accepts *)

Definition ntok : node -> Prop := nall tok.

Lemma ntok_nil : ntok NNil. Proof. exact I. Qed.
Lemma ntok_doc keys obj : ntok (NDoc keys obj) <-> Forall (fun kv => ntok (snd kv)) obj.
Proof. apply nall_doc. Qed.
Lemma ntok_ary ns : ntok (NAry ns) <-> Forall ntok ns.
Proof. apply nall_ary. Qed.

Lemma tok_arr_parts l : tok (TArr l) -> Forall tok l.
Proof. apply tok_arr. Qed.

Lemma tok_obj_parts ms : tok (TObj ms) -> Forall (fun kv => tok (snd kv)) ms.
Proof. exact (sp_obj_parts tok_spelled ms). Qed.

Lemma ntok_child t : tok t -> ntok (child t).
Proof. destruct t; intro H; try exact I; exact H. Qed.

(* what is written for a member of a node's key list: the re-encoding of a member of its map, or null *)
Lemma render_doc_vals esc (obj : list (bytes * node)) (Q : tjson -> Prop) :
  Q TNull -> Forall (fun kv => Q (render esc (snd kv))) obj ->
  forall k, Q match option_map (render esc) (aget k obj) with Some t => t | None => TNull end.
Proof.
  intros Q0 F k. destruct (aget k obj) as [x|] eqn:E; [|exact Q0].
  apply aget_In in E. rewrite Forall_forall in F. exact (F _ E).
Qed.

(* for a predicate on the leaves: the raw messages of a node have it, so what is encoded for the node has it
   (member names are written by the encoder, everything else is stored text) *)
Section SpelledNodes.
  Context {P : tjson -> Prop} {Pk : bytes -> Prop}.
  Hypothesis SP : spelled P Pk.

  Lemma sp_render esc v : nall P v -> P (render esc v).
  Proof.
    induction v as [|t|keys obj IH|ns IH] using node_rect'; intro N.
    - exact (sp_null P Pk SP).
    - exact N.
    - apply (nall_doc P) in N. rewrite render_doc. apply (sp_obj P Pk SP). rewrite Forall_map. apply Forall_forall.
      intros k _. cbn [fst snd]. split; [apply (sp_quote P Pk SP)|].
      apply (render_doc_vals esc obj P (sp_null P Pk SP)). exact (Forall_mp _ _ _ IH N).
    - apply (nall_ary P) in N. cbn [render]. apply (sp_arr P Pk SP). rewrite Forall_map. exact (Forall_mp _ _ _ IH N).
  Qed.

  (* what deepCopy stores *)
  Lemma sp_enc esc v : nall P v -> P (enc esc v).
  Proof. intro N. apply (sp_escape SP), sp_render, N. Qed.

End SpelledNodes.

Theorem tok_render esc v : ntok v -> tok (render esc v).
Proof. exact (sp_render tok_spelled esc v). Qed.

Corollary tok_enc esc v : ntok v -> tok (enc esc v).
Proof. exact (sp_enc tok_spelled esc v). Qed.

Lemma ntok_deep_copy o v : ntok v -> ntok (fst (deep_copy o v)).
Proof. apply (nall_deep_copy tok). intros esc w. apply tok_enc. Qed.

(* the values of an operation are made of such tokens: true of every decoded patch *)
Definition op_tok : operation -> Prop := op_all tok.

Corollary api_decode_tok bs p : api_decode bs = Some p -> Forall op_tok p.
Proof.
  unfold api_decode. destruct (parse bs) as [t|] eqn:Pb; [|discriminate].
  exact (decode_patch_all tok tok_arr_parts tok_obj_parts t p (proj1 (parse_twf _ _ Pb))).
Qed.

Definition stok (st : state) : Prop := sall tok st.

Theorem step_ntok o st op st' : stok st -> op_tok op -> step o st op = Ok st' -> stok st'.
Proof.
  apply (step_all tok); [exact I | exact tok_arr_parts | exact tok_obj_parts | intros esc v; apply tok_enc].
Qed.

Theorem apply_from_ntok o p i st st' :
  stok st -> Forall op_tok p -> apply_from o i st p = AOk st' -> ntok (root_node (s_root st')).
Proof.
  intros Hs A E. apply (rall_root_node tok).
  apply (apply_from_all tok I tok_arr_parts tok_obj_parts (fun esc v => tok_enc esc v) o p i st st' Hs A E).
Qed.

Lemma load_doc_stok o t r : tok t -> load_doc o t = Ok r -> stok (mkState r 0).
Proof. intros T L. unfold stok, sall. cbn [s_root]. exact (load_doc_all tok tok_arr_parts tok_obj_parts o t r T L). Qed.

(* 6. Apply / ApplyIndent (v5): the output bytes *)

From JP Require Import Scan ScannerParse ScanFacts.

(* the tree Apply encodes: api_apply is output applied to it *)
Definition result_tree (o : opts) (p : list operation) (t : tjson) : option tjson :=
  match load_doc o t with
  | Ok r =>
      match apply_from o 0 (mkState r 0) p with
      | AOk st => match marshal_root o (s_root st) with Ok tr => Some tr | _ => None end
      | _ => None
      end
  | _ => None
  end.

Lemma result_tree_inv o p t tr : result_tree o p t = Some tr ->
  exists r st, load_doc o t = Ok r /\ apply_from o 0 (mkState r 0) p = AOk st /\ marshal_root o (s_root st) = Ok tr.
Proof.
  unfold result_tree. destruct (load_doc o t) as [r| |]; try discriminate.
  destruct (apply_from o 0 (mkState r 0) p) as [st| |] eqn:E; try discriminate.
  destruct (marshal_root o (s_root st)) as [tr0| |] eqn:M; try discriminate. intros [= ->]. exists r, st. auto.
Qed.

Lemma api_apply_parsed o indent p doc t : parse doc = Some t -> api_apply o indent p doc = apply_tree o indent p t.
Proof.
  intro Pd. unfold api_apply. rewrite Pd. destruct doc; [rewrite parse_nil in Pd; discriminate | reflexivity].
Qed.

Lemma api_apply_out o indent p doc t out : parse doc = Some t ->
  (api_apply o indent p doc = ROut out <-> exists tr, result_tree o p t = Some tr /\ out = output o indent tr).
Proof.
  intro Pd. rewrite (api_apply_parsed o indent p doc t Pd). unfold apply_tree, result_tree.
  destruct (load_doc o t) as [r| |]; try (split; [discriminate | intros [tr [H _]]; discriminate]).
  destruct (apply_from o 0 (mkState r 0) p) as [st| |]; try (split; [discriminate | intros [tr [H _]]; discriminate]).
  destruct (marshal_root o (s_root st)) as [tr| |]; try (split; [discriminate | intros [tr [H _]]; discriminate]).
  split.
  - intro H; inversion H; subst. exists tr. split; reflexivity.
  - intros [tr' [H1 H2]]. inversion H1; subst. reflexivity.
Qed.

Corollary api_apply_tree o indent p doc t tr :
  parse doc = Some t -> result_tree o p t = Some tr -> api_apply o indent p doc = ROut (output o indent tr).
Proof. intros Pd R. apply (api_apply_out _ _ _ _ _ _ Pd). eauto. Qed.

(* a document that is not read yields a result only when it is empty: the empty result *)
Lemma api_apply_unparsed o indent p doc out : parse doc = None -> api_apply o indent p doc = ROut out -> out = [].
Proof. intro Pd. unfold api_apply. rewrite Pd. destruct doc; intro H; inversion H; reflexivity. Qed.

(* the empty document is the one input for which Apply's result is not a JSON text *)
Example api_apply_empty_doc o indent p : api_apply o indent p [] = ROut [] /\ parse [] = None.
Proof. split; reflexivity. Qed.

Lemma marshal_root_render o r tr : marshal_root o r = Ok tr -> tr = render (o_esc o) (root_node r).
Proof.
  destruct r as [[s k ob|s stl|s ns]|]; cbn [marshal_root root_node node_of_con]; intro H; inversion H; reflexivity.
Qed.

Definition root_shape (t : tjson) : Prop := match t with TObj _ | TArr _ | TNull => True | _ => False end.

Lemma marshal_root_shape o r tr : marshal_root o r = Ok tr -> root_shape tr.
Proof.
  destruct r as [[s k ob|s stl|s ns]|]; cbn [marshal_root root_node node_of_con render]; intro H; inversion H; exact I.
Qed.

(* the tree Apply encodes has every predicate on the leaves that the document and the values of the patch have *)
Theorem result_tree_sp {P Pk} (SP : spelled P Pk) o p t tr :
  P t -> Forall (op_all P) p -> result_tree o p t = Some tr -> P tr.
Proof.
  intros T A R. destruct (result_tree_inv o p t tr R) as [r [st [L [E M]]]].
  rewrite (marshal_root_render _ _ _ M). apply (sp_render SP), rall_root_node.
  exact (apply_from_all P (sp_null P Pk SP) (sp_arr_parts SP) (sp_obj_parts SP) (sp_enc SP) o p 0%nat (mkState r 0) st
           (load_doc_all P (sp_arr_parts SP) (sp_obj_parts SP) o t r T L) A E).
Qed.

Lemma result_tree_shape o p t tr : result_tree o p t = Some tr -> root_shape tr.
Proof. intro R. destruct (result_tree_inv o p t tr R) as [r [st [_ [_ M]]]]. exact (marshal_root_shape o _ tr M). Qed.

(* the result is made of tokens the reader accepts: every parsed document, every patch whose values
   are (every decoded patch), every options record *)
Theorem result_tree_tok o p t tr : tok t -> Forall op_tok p -> result_tree o p t = Some tr -> tok tr /\ root_shape tr.
Proof. intros T A R. split; [exact (result_tree_sp tok_spelled o p t tr T A R) | exact (result_tree_shape o p t tr R)]. Qed.

(* ---- the text of a tree made of such tokens, within the nesting limit ---- *)
Theorem output_parses o indent tr : tok tr -> (Text.tdepth tr <= max_depth)%N -> wsb indent = true ->
  parse (output o indent tr) = Some (escape_tree (o_esc o) tr).
Proof.
  intros T D W. assert (TW : twf tr) by (apply twf_text; split; assumption).
  unfold output. destruct indent as [|c ind]; [apply parse_print_any | apply parse_pp_any]; assumption.
Qed.

Corollary output_valid o indent tr : tok tr -> (Text.tdepth tr <= max_depth)%N -> wsb indent = true ->
  valid_gen (output o indent tr) = true.
Proof. intros T D W. apply valid_gen_iff_parse. eexists. apply output_parses; assumption. Qed.

Corollary output_den o indent tr : tok tr -> (Text.tdepth tr <= max_depth)%N -> wsb indent = true ->
  exists t', parse (output o indent tr) = Some t' /\ den t' = den tr.
Proof.
  intros T D W. eexists. split; [apply output_parses; assumption|]. apply escape_den. apply tok_tsb. exact T.
Qed.

Lemma ends_ws_snoc s c : ends_ws (s ++ [c]) = is_ws c.
Proof. unfold ends_ws. rewrite rev_unit. reflexivity. Qed.

Lemma ends_ws_print esc t : root_shape t -> ends_ws (print esc t) = false.
Proof.
  destruct t; cbn [root_shape]; intro H; try contradiction.
  - reflexivity.
  - cbn [print]. rewrite app_comm_cons. apply ends_ws_snoc.
  - cbn [print]. rewrite app_comm_cons. apply ends_ws_snoc.
Qed.

Theorem output_indent o indent tr : tok tr -> root_shape tr -> (Text.tdepth tr <= max_depth)%N -> indent <> [] ->
  indent_go indent (output o [] tr) = Some (output o indent tr).
Proof.
  intros T R D NE. assert (TW : twf tr) by (apply twf_text; split; assumption).
  unfold output. destruct indent as [|c ind]; [congruence|].
  rewrite (indent_go_pp_exact (c :: ind) (print (o_esc o) tr) (escape_tree (o_esc o) tr)).
  - now rewrite <- pp_any.
  - apply parse_print_any. exact TW.
  - apply ends_ws_print. exact R.
Qed.

(* all of it: what is written for a tree made of tokens the reader accepts, nested no deeper than it reads *)
Theorem output_spec o indent tr : tok tr -> root_shape tr -> (Text.tdepth tr <= max_depth)%N ->
  (wsb indent = true ->
     parse (output o indent tr) = Some (escape_tree (o_esc o) tr) /\ valid_gen (output o indent tr) = true /\
     exists t', parse (output o indent tr) = Some t' /\ den t' = den tr) /\
  (indent <> [] -> indent_go indent (output o [] tr) = Some (output o indent tr)).
Proof.
  intros T Sh D. split.
  - intro W. split; [apply output_parses; assumption|]. split; [apply output_valid; assumption | apply output_den; assumption].
  - intro NE. apply output_indent; assumption.
Qed.

(* ---- nothing added: the result is not deeper than the document ---- *)
Lemma render_child esc v : render esc (child v) = v.
Proof. destruct v; reflexivity. Qed.

Lemma render_doc_of_depth esc ms :
  (Text.tdepth (render esc (NDoc (fst (doc_of ms)) (snd (doc_of ms)))) <= Text.tdepth (TObj ms))%N.
Proof.
  rewrite render_doc, !tdepth_obj, maxd_map. cbn [snd].
  assert (maxd (fun k => Text.tdepth match option_map (render esc) (aget k (snd (doc_of ms))) with Some t => t | None => TNull end)
               (fst (doc_of ms)) <= maxd (fun kv => Text.tdepth (snd kv)) ms)%N; [|lia].
  apply maxd_bound. intros k _.
  apply (render_doc_vals esc _ (fun t => (Text.tdepth t <= maxd (fun kv => Text.tdepth (snd kv)) ms)%N)); [apply N.le_0_l|].
  apply doc_of_Forall. apply Forall_forall. intros kv Hk. cbn [snd]. rewrite render_child.
  apply (maxd_le (fun kv => Text.tdepth (snd kv)) ms kv Hk).
Qed.

Lemma apply_from_nil o i st : apply_from o i st [] = AOk st.
Proof. reflexivity. Qed.

Lemma result_tree_nil_depth o t tr : result_tree o [] t = Some tr -> (Text.tdepth tr <= Text.tdepth t)%N.
Proof.
  unfold result_tree. destruct t; cbn [load_doc]; try discriminate.
  - rewrite apply_from_nil. cbn [s_root marshal_root node_of_con render]. intro H; inversion H; subst.
    rewrite map_map. rewrite (map_ext _ (fun x => x)) by (intro; apply render_child). rewrite map_id. lia.
  - pose proof (render_doc_of_depth (o_esc o) ms) as D. destruct (doc_of ms) as [k ob].
    rewrite apply_from_nil. cbn [s_root marshal_root node_of_con fst snd] in *. intro H; inversion H; subst. exact D.
Qed.

(* ---- the general theorem: EVERY parsed document, EVERY patch whose values are made of tokens
   (every decoded patch), every options record and indent.  The nesting of the result is the one
   hypothesis (an add can nest the result deeper than the reader accepts). ---- *)
Theorem api_apply_output_general o indent p doc t out :
  parse doc = Some t -> Forall op_tok p -> api_apply o indent p doc = ROut out ->
  exists tr, result_tree o p t = Some tr /\ out = output o indent tr /\ tok tr /\ root_shape tr /\
    ((Text.tdepth tr <= max_depth)%N ->
       (wsb indent = true ->
          parse out = Some (escape_tree (o_esc o) tr) /\ valid_gen out = true /\
          exists t', parse out = Some t' /\ den t' = den tr) /\
       (indent <> [] -> exists out0, api_apply o [] p doc = ROut out0 /\ indent_go indent out0 = Some out)).
Proof.
  intros Pd A H. apply (api_apply_out o indent p doc t out Pd) in H as [tr [R ->]].
  destruct (result_tree_tok o p t tr (proj1 (parse_twf _ _ Pd)) A R) as [T Sh].
  exists tr. split; [exact R|]. split; [reflexivity|]. split; [exact T|]. split; [exact Sh|].
  intro D. destruct (output_spec o indent tr T Sh D) as [S1 S2]. split; [exact S1|].
  intro NE. exists (output o [] tr). split; [|exact (S2 NE)].
  apply (api_apply_out o [] p doc t _ Pd). exists tr. split; [exact R | reflexivity].
Qed.

(* decoded patches; the empty patch needs no hypothesis on the nesting *)
Corollary api_apply_output_decoded o indent patch p doc t out :
  api_decode patch = Some p -> parse doc = Some t -> wsb indent = true ->
  api_apply o indent p doc = ROut out ->
  exists tr, result_tree o p t = Some tr /\ out = output o indent tr /\
    ((Text.tdepth tr <= max_depth)%N -> valid_gen out = true /\ exists t', parse out = Some t' /\ den t' = den tr).
Proof.
  intros Dc Pd W H.
  destruct (api_apply_output_general o indent p doc t out Pd (api_decode_tok _ _ Dc) H) as [tr [R [E [T [Sh G]]]]].
  exists tr. split; [exact R|]. split; [exact E|]. intro D. destruct (G D) as [G1 _]. destruct (G1 W) as [_ [V X]]. split; assumption.
Qed.

Corollary api_apply_output_nil o indent doc t out :
  parse doc = Some t -> wsb indent = true -> api_apply o indent [] doc = ROut out ->
  valid_gen out = true /\ exists t', parse out = Some t'.
Proof.
  intros Pd W H.
  destruct (api_apply_output_general o indent [] doc t out Pd (Forall_nil _) H) as [tr [R [E [T [Sh G]]]]].
  assert (D : (Text.tdepth tr <= max_depth)%N).
  { pose proof (result_tree_nil_depth o t tr R). pose proof (proj2 (proj1 (twf_text t) (parse_twf _ _ Pd))). lia. }
  destruct (G D) as [G1 _]. destruct (G1 W) as [P1 [V _]]. split; [exact V | eauto].
Qed.

(* 7. Apply in the domain of the simulation: the output bytes denote the RFC 6902 result *)

(* the bytes written for a good node whose raw messages are made of tokens: read back, they denote
   the node's value *)
Theorem node_output_den o indent n :
  ngood n -> ntok n -> (odepth (aval n) <= max_depth)%N -> wsb indent = true ->
  parse (output o indent (render (o_esc o) n)) = Some (enc (o_esc o) n) /\
  den (enc (o_esc o) n) = aval n /\
  valid_gen (output o indent (render (o_esc o) n)) = true.
Proof.
  intros [W [L Sn]] T D Ws.
  assert (Tr : tok (render (o_esc o) n)) by (apply tok_render; exact T).
  assert (Dr : (Text.tdepth (render (o_esc o) n) <= max_depth)%N) by (rewrite render_depth by exact W; exact D).
  split; [apply output_parses; assumption|]. split; [apply codec_thm; assumption | apply output_valid; assumption].
Qed.

Theorem api_apply_output_sim o indent p doc t :
  plain_opts o -> parse doc = Some t -> root_container t = true -> tnodup t = true ->
  Forall op_dom p -> Forall op_tok p ->
  copies_fit (dia o) (den t) (map den_op p) = true ->
  wsb indent = true ->
  match rfc_apply (dia o) (den t) (map den_op p) with
  | Done j =>
      (odepth j <= max_depth)%N ->
      exists out t', api_apply o indent p doc = ROut out /\ parse out = Some t' /\ den t' = j /\ valid_gen out = true /\
        (indent <> [] -> exists out0, api_apply o [] p doc = ROut out0 /\ indent_go indent out0 = Some out)
  | Failed i cz => exists e, api_apply o indent p doc = RErr (Some i) e /\ cause_rel cz e
  end.
Proof.
  intros PO Pd RC T D A F W.
  pose proof (api_apply_sim o indent p doc t PO Pd RC T D F) as Sim.
  destruct (api_start o doc t Pd RC T) as [c [L [I0 [G0 V0]]]].
  pose proof (apply_sim o PO p 0%nat (init_state o t) G0 D) as AS. rewrite V0 in AS. specialize (AS F). unfold rfc_apply in *.
  destruct (rfc_apply_from (dia o) 0 (den t) (map den_op p)) as [j|i cz]; [|exact Sim]. clear Sim.
  intro Dj. destruct AS as [st' [A1 [A2 G']]].
  pose proof (fun ind => api_ok o ind p doc t st' Pd RC T A1 G') as Out. destruct (Out indent) as [O [Av Gn]].
  set (n := final_node st') in *.
  assert (NT : ntok n).
  { apply (apply_from_ntok o p 0%nat (init_state o t) st'); [|exact A | exact A1].
    rewrite I0. exact (load_doc_stok o t _ (proj1 (parse_twf _ _ Pd)) L). }
  assert (Dn : (odepth (aval n) <= max_depth)%N) by (rewrite Av, A2; exact Dj).
  destruct (node_output_den o indent n Gn NT Dn W) as [O1 [O2 O3]].
  exists (output o indent (render (o_esc o) n)), (enc (o_esc o) n).
  split; [exact O|]. split; [exact O1|]. split; [rewrite O2, Av; exact A2|]. split; [exact O3|].
  intro NE. exists (output o [] (render (o_esc o) n)). split; [exact (proj1 (Out []))|].
  apply output_indent; [apply tok_render; exact NT | | rewrite render_depth by exact (proj1 Gn); exact Dn | exact NE].
  destruct G' as [c' [Hr [_ Gc]]]. unfold n, final_node. rewrite Hr. destruct c'; [exact I | destruct Gc | exact I].
Qed.

Print Assumptions tdepth_eq.
Print Assumptions sbody_quote_any.
Print Assumptions tok_render.
Print Assumptions apply_from_ntok.
Print Assumptions api_decode_tok.
Print Assumptions api_apply_output_general.
Print Assumptions api_apply_output_nil.
Print Assumptions api_apply_output_sim.

(* 8. MergePatch / MergeMergePatches (v5): an invariant of nodes indexed by the nesting still
   allowed, kept by pruneNulls and merge (generic; instantiated with tokens + UTF-8 names, and
   with the nesting depth) *)

From JP Require Import ImplMerge Rfc7396 MergeFacts ImplMergeFacts CreateFacts.

Section MergeInv.
  Variable P : N -> tjson -> Prop.
  Variable Pk : bytes -> Prop.
  Variable okl : N -> Prop.

  Fixpoint nlv (d : N) (n : node) : Prop :=
    match n with
    | NNil => True
    | NRaw t => P d t
    | NDoc keys obj =>
        okl d /\ Forall Pk keys /\
        (fix all (m : list (bytes * node)) : Prop :=
           match m with [] => True | kv :: r => (Pk (fst kv) /\ nlv (d - 1) (snd kv)) /\ all r end) obj
    | NAry ns =>
        okl d /\ (fix all (l : list node) : Prop := match l with [] => True | x :: r => nlv (d - 1) x /\ all r end) ns
    end.

  Definition mlv (d : N) (obj : list (bytes * node)) : Prop := Forall (fun kv => Pk (fst kv) /\ nlv d (snd kv)) obj.

  Lemma nlv_doc d keys obj : nlv d (NDoc keys obj) <-> okl d /\ Forall Pk keys /\ mlv (d - 1) obj.
  Proof. apply and_iff_compat_l, and_iff_compat_l, (all_fix_Forall (fun kv => Pk (fst kv) /\ nlv (d - 1) (snd kv))). Qed.

  Lemma nlv_ary d ns : nlv d (NAry ns) <-> okl d /\ Forall (nlv (d - 1)) ns.
  Proof. apply and_iff_compat_l, all_fix_Forall. Qed.

  Hypothesis P_obj : forall d ms, P d (TObj ms) ->
    okl d /\ Forall (fun kv => Pk (unquote (fst kv)) /\ P (d - 1) (snd kv)) ms.

  Lemma nlv_child d t : P d t -> nlv d (child t).
  Proof. destruct t; intro H; try exact I; exact H. Qed.

  Lemma build_with_mlv (f : tjson -> node) d ms : forall acc,
    mlv d acc -> Forall (fun kv => Pk (unquote (fst kv)) /\ nlv d (f (snd kv))) ms -> mlv d (build_with f ms acc).
  Proof. intro acc. exact (build_with_Forall f (fun kv => Pk (fst kv) /\ nlv d (snd kv)) ms acc). Qed.

  Lemma doc_of_lv d ms : P d (TObj ms) -> nlv d (NDoc (fst (doc_of ms)) (snd (doc_of ms))).
  Proof.
    intro H. apply P_obj in H as [O F]. apply nlv_doc. split; [exact O|]. split.
    - rewrite keys_in_document_order, Forall_map. revert F. apply Forall_impl. intros kv [H1 _]. exact H1.
    - apply doc_of_Forall. revert F. apply Forall_impl. intros kv [H1 H2]. split; [exact H1 | apply nlv_child; exact H2].
  Qed.

  Lemma prune_entries_lv d entries : forall keys obj,
    Forall Pk keys -> mlv d entries -> mlv d obj ->
    Forall Pk (fst (prune_entries (fun n => n) entries keys obj)) /\ mlv d (snd (prune_entries (fun n => n) entries keys obj)).
  Proof.
    induction entries as [|[k v] entries IH]; intros keys obj Hk He Ho; cbn [prune_entries]; [split; assumption|].
    inversion He as [|? ? [Hk1 Hv] Hr]; subst. cbn [fst snd] in *.
    destruct v;
      [apply IH; [destruct (kmem k keys); [apply Forall_kdel1|]; exact Hk | exact Hr | apply Forall_adel; exact Ho]
      |apply IH; [exact Hk | exact Hr | apply Forall_aset_key; [exact Ho | split; assumption]] ..].
  Qed.

  Lemma prune_t_lv t : forall d, P d t -> nlv d (prune_t t).
  Proof.
    induction t as [| | |lit|b|l IH|ms IH] using tjson_rect'; intros d H; try exact H.
    rewrite prune_t_obj. cbv zeta. destruct (P_obj d ms H) as [O F].
    set (keys := map (fun kv => unquote (fst kv)) ms). set (obj := build_with pchild ms []).
    assert (Hk : Forall Pk keys).
    { unfold keys. rewrite Forall_map. revert F. apply Forall_impl. intros kv [H1 _]. exact H1. }
    assert (Ho : mlv (d - 1) obj).
    { unfold obj. apply build_with_mlv; [constructor|]. rewrite Forall_forall in IH, F. apply Forall_forall. intros kv Hin.
      destruct (F kv Hin) as [F1 F2]. split; [exact F1|]. unfold pchild.
      pose proof (IH kv Hin _ F2) as Q. destruct (snd kv); try exact I; exact Q. }
    destruct (prune_entries_lv (d - 1) obj keys obj Hk Ho Ho) as [R1 R2].
    destruct (prune_entries (fun n => n) obj keys obj) as [keys' obj']. cbn [fst snd] in *.
    apply nlv_doc. split; [exact O|]. split; assumption.
  Qed.

  Lemma prune_node_lv n : forall d, nlv d n -> nlv d (prune_node n).
  Proof.
    induction n as [|t|keys obj IH|ns IH] using node_rect'; intros d H; cbn [prune_node]; try exact H.
    - apply prune_t_lv. exact H.
    - apply nlv_doc in H as [O [Hk Ho]].
      set (obj1 := map (fun kv => (fst kv, prune_node (snd kv))) obj).
      assert (Ho1 : mlv (d - 1) obj1).
      { unfold obj1, mlv. rewrite Forall_map. cbn [fst snd]. unfold mlv in Ho. rewrite Forall_forall in *.
        intros kv Hin. destruct (Ho kv Hin) as [H1 H2]. split; [exact H1 | apply (IH kv Hin); exact H2]. }
      destruct (prune_entries_lv (d - 1) obj1 keys obj1 Hk Ho1 Ho1) as [R1 R2].
      destruct (prune_entries (fun n => n) obj1 keys obj1) as [keys' obj']. cbn [fst snd] in *.
      apply nlv_doc. split; [exact O|]. split; assumption.
  Qed.

  Lemma patch_entries_lv d pms : P d (TObj pms) -> Forall (fun kv => Pk (fst kv) /\ P (d - 1) (snd kv)) (patch_entries pms).
  Proof. intro H. apply P_obj in H as [_ F]. rewrite patch_entries_with. apply build_with_Forall; [constructor | exact F]. Qed.

  Lemma into_doc_lv d cur keys obj : nlv d cur -> into_doc cur = Some (keys, obj) -> okl d /\ Forall Pk keys /\ mlv (d - 1) obj.
  Proof.
    intros H E. destruct cur as [|t|k0 o0|ns]; cbn [into_doc] in E; try discriminate.
    - destruct t; try discriminate. pose proof (doc_of_lv d ms H) as D. assert (E' : doc_of ms = (keys, obj)) by congruence. rewrite E' in D. cbn [fst snd] in D.
      apply nlv_doc in D. exact D.
    - inversion E; subst. apply nlv_doc in H. exact H.
  Qed.

  Lemma Forall_Pk_doc_set keys (obj : list (bytes * node)) k v : Forall Pk keys -> Pk k -> Forall Pk (fst (doc_set keys obj k v)).
  Proof. exact (Forall_doc_set_keys Pk keys obj k v). Qed.

  (* the member loop (ImplMergeFacts.mstep): the key list by induction, the map by mloop_Forall *)
  Lemma merge_loop_lv rec mm d es :
    (forall c v, nlv d c -> P d v -> nlv d (rec c v)) ->
    forall dd, Forall Pk (fst dd) -> Forall (fun kv => Pk (fst kv) /\ P d (snd kv)) es -> mlv d (snd dd) ->
    Forall Pk (fst (fold_left (mstep snd dset5 ddel5 prune_t rec mm) es dd)) /\
    mlv d (snd (fold_left (mstep snd dset5 ddel5 prune_t rec mm) es dd)).
  Proof.
    intros Hrec dd Hk He Ho. split.
    - clear Ho. revert dd Hk. induction He as [|[k v] es [Hk1 _] He IH]; intros dd Hk; [exact Hk|].
      cbn [fold_left fst] in *. apply IH.
      assert (Set_ : forall x, Forall Pk (fst (dset5 k x dd))) by (intro x; apply Forall_Pk_doc_set; assumption).
      destruct v; cbn [mstep]; try (destruct (aget k (snd dd)) as [[]|]; apply Set_).
      destruct mm; [apply Set_|]. unfold ddel5. destruct (amem k (snd dd)); [|exact Hk].
      cbn [fst]. destruct (kmem k (fst dd)); [apply Forall_kdel1|]; exact Hk.
    - apply (mloop_Forall _ snd dset5 ddel5 prune_t (fun _ _ _ => eq_refl) objof_del5); [exact Ho|].
      intros k v Hin. rewrite Forall_forall in He. destruct (He _ Hin) as [Hk1 Hv]. cbn [fst snd] in *.
      split; [split; [exact Hk1 | exact I]|]. split.
      + split; [exact Hk1|]. destruct mm; [exact Hv | apply prune_t_lv; exact Hv].
      + intros c [_ Hc]. split; [exact Hk1 | apply Hrec; assumption].
  Qed.

  Theorem merge_n_lv : forall fuel mm d cur p, nlv d cur -> P d p -> nlv d (merge_n fuel mm cur p).
  Proof.
    induction fuel as [|f IH]; intros mm d cur p Hc Hp; [exact Hp|].
    rewrite merge_n_fold. destruct (into_doc cur) as [[keys obj]|] eqn:E; [|apply prune_t_lv; exact Hp].
    destruct (into_doc_lv d cur keys obj Hc E) as [O [Hk Ho]].
    destruct p; try exact Hp.
    destruct (merge_loop_lv (merge_n f mm) mm (d - 1) (patch_entries ms) (fun c v => IH mm (d - 1) c v) (keys, obj) Hk
                (patch_entries_lv d ms Hp) Ho) as [R1 R2].
    apply nlv_doc. split; [exact O|]. split; assumption.
  Qed.
End MergeInv.

(* what the raw messages have at every level, they have *)
Lemma nlv_nall (P : N -> tjson -> Prop) Pk okl (Q : tjson -> Prop) : (forall d t, P d t -> Q t) ->
  forall n d, nlv P Pk okl d n -> nall Q n.
Proof.
  intro PQ. induction n as [|t|keys obj IH|ns IH] using node_rect'; intros d H.
  - exact I.
  - exact (PQ d t H).
  - apply nlv_doc in H as [_ [_ Ho]]. apply nall_doc. unfold mlv in Ho. rewrite Forall_forall in *.
    intros kv Hin. apply (IH kv Hin (d - 1)%N). apply (Ho kv Hin).
  - apply nlv_ary in H as [_ H]. apply nall_ary. rewrite Forall_forall in *.
    intros x Hx. apply (IH x Hx (d - 1)%N). apply (H x Hx).
Qed.

(* ---- instance 1: tokens the reader accepts, member names valid UTF-8 ---- *)
Definition Ptok (_ : N) (t : tjson) : Prop := tok t.
Definition okT (_ : N) : Prop := True.

Lemma Ptok_obj d ms : Ptok d (TObj ms) -> okT d /\ Forall (fun kv => utf8 (unquote (fst kv)) /\ Ptok (d - 1) (snd kv)) ms.
Proof.
  unfold Ptok, okT. intro H. split; [exact I|]. apply tok_obj in H. rewrite Forall_forall in *. intros kv Hk.
  destruct (H kv Hk) as [H1 H2]. split; [apply sbody_unquote_utf8; apply body_ok_sbody; exact H1 | exact H2].
Qed.

Lemma tok_tlit t : tok t -> tlit t = true.
Proof.
  induction t as [| | |lit|b|l IH|ms IH] using tjson_rect'; intro T; try reflexivity.
  - cbn [tlit]. apply num_ok_lit_ok. exact T.
  - cbn [tlit]. apply tok_arr in T. apply forallb_forall. rewrite Forall_forall in *. intros x Hx. apply (IH x Hx), T, Hx.
  - cbn [tlit]. apply tok_obj_parts in T. apply forallb_forall. rewrite Forall_forall in *. intros x Hx. apply (IH x Hx), T, Hx.
Qed.

Lemma ntok_nlit n : ntok n -> nlit n.
Proof.
  induction n as [|t|keys obj IH|ns IH] using node_rect'; intro N.
  - exact I.
  - apply tok_tlit. exact N.
  - apply ntok_doc in N. apply nlit_doc. exact (Forall_mp _ _ _ IH N).
  - apply ntok_ary in N. apply nlit_ary. exact (Forall_mp _ _ _ IH N).
Qed.

Lemma nlv_tok_facts n : forall d, nlv Ptok utf8 okT d n -> ntok n /\ nstr n.
Proof.
  intros d H. split; [exact (nlv_nall Ptok utf8 okT tok (fun _ _ T => T) n d H)|]. revert d H.
  induction n as [|t|keys obj IH|ns IH] using node_rect'; intros d H.
  - exact I.
  - apply nstr_raw, tok_tsb, H.
  - apply nlv_doc in H as [_ [Hk Ho]]. unfold mlv in Ho. apply nstr_doc. split; [exact Hk|].
    rewrite Forall_forall in *. intros kv Hin. destruct (Ho kv Hin) as [H1 H2].
    split; [exact H1 | apply (IH kv Hin (d - 1)%N); exact H2].
  - apply nlv_ary in H as [_ H]. apply nstr_ary. rewrite Forall_forall in *. intros x Hx. apply (IH x Hx (d - 1)%N), H, Hx.
Qed.

(* ---- instance 2: the nesting still allowed ---- *)
Definition Pdep (d : N) (t : tjson) : Prop := (Text.tdepth t <= d)%N.
Definition okD (d : N) : Prop := d <> 0%N.
Definition anykey (_ : bytes) : Prop := True.

Lemma Pdep_arr d l : Pdep d (TArr l) <-> okD d /\ Forall (Pdep (d - 1)) l.
Proof. unfold Pdep, okD. rewrite tdepth_arr, maxd_fold, <- (fold_max_le Text.tdepth). lia. Qed.

Lemma Pdep_members d ms : Pdep d (TObj ms) <-> okD d /\ Forall (fun kv => Pdep (d - 1) (snd kv)) ms.
Proof.
  unfold Pdep, okD. rewrite tdepth_obj, maxd_fold, <- (fold_max_le (fun kv : bytes * tjson => Text.tdepth (snd kv))). lia.
Qed.

Lemma Pdep_obj d ms : Pdep d (TObj ms) -> okD d /\ Forall (fun kv => anykey (unquote (fst kv)) /\ Pdep (d - 1) (snd kv)) ms.
Proof.
  intro H. apply Pdep_members in H as [O F]. split; [exact O|]. revert F. apply Forall_impl. intros kv F. split; [exact I | exact F].
Qed.

Lemma nlv_render_depth esc n : forall d, nlv Pdep anykey okD d n -> (Text.tdepth (render esc n) <= d)%N.
Proof.
  induction n as [|t|keys obj IH|ns IH] using node_rect'; intros d H.
  - cbn. lia.
  - exact H.
  - apply nlv_doc in H as [O [_ Ho]]. unfold mlv in Ho. rewrite render_doc. apply Pdep_members. split; [exact O|].
    rewrite Forall_map. apply Forall_forall. intros k _. cbn [snd].
    apply (render_doc_vals esc obj (Pdep (d - 1))); [apply N.le_0_l|]. rewrite Forall_forall in *.
    intros kv Hin. apply (IH kv Hin), (Ho kv Hin).
  - apply nlv_ary in H as [O H]. cbn [render]. apply Pdep_arr. split; [exact O|]. rewrite Forall_map, Forall_forall in *.
    intros x Hx. apply (IH x Hx), (H x Hx).
Qed.

Lemma api_merge_out_shape mm doc patch out :
  api_merge mm doc patch = MOut out -> exists td tp, parse doc = Some td /\ parse patch = Some tp /\ td <> TNull.
Proof.
  unfold api_merge. destruct (parse doc) as [td|]; [|discriminate]. destruct (parse patch) as [tp|]; [|discriminate].
  intro H. exists td, tp. split; [reflexivity|]. split; [reflexivity|]. intro E; subst td; discriminate H.
Qed.

Lemma merge_node_lv (P : N -> tjson -> Prop) (Pk : bytes -> Prop) (okl : N -> Prop) :
  (forall d ms, P d (TObj ms) -> okl d /\ Forall (fun kv => Pk (unquote (fst kv)) /\ P (d - 1) (snd kv)) ms) ->
  forall mm d td tp, P d td -> P d tp -> nlv P Pk okl d (merge_node mm td tp).
Proof.
  intros PO mm d td tp Hd Hp. unfold merge_node. destruct tp; try exact Hp.
  destruct td; try (destruct mm; [|rewrite prune_node_raw; apply (prune_t_lv P Pk okl PO); exact Hp];
                    pose proof (doc_of_lv P Pk okl PO d ms Hp) as D; destruct (doc_of ms) as [k o0]; exact D).
  apply (merge_n_lv P Pk okl PO); [exact Hd | exact Hp].
Qed.

(* what is written for it is read back as its re-encoding: no hypothesis beyond the two texts
   having been read (duplicate names included) *)
Theorem merge_node_output mm td tp : twf td -> twf tp ->
  parse (marshal_node (merge_node mm td tp)) = Some (enc true (merge_node mm td tp)) /\
  ntok (merge_node mm td tp) /\ nstr (merge_node mm td tp).
Proof.
  intros Wd Wp. apply twf_text in Wd as [Td Dd]. apply twf_text in Wp as [Tp Dp].
  destruct (nlv_tok_facts _ 0%N (merge_node_lv Ptok utf8 okT Ptok_obj mm 0%N td tp Td Tp)) as [NT NS].
  pose proof (nlv_render_depth true _ max_depth (merge_node_lv Pdep anykey okD Pdep_obj mm max_depth td tp Dd Dp)) as ND.
  split; [|split; assumption]. unfold marshal_node, enc. apply parse_print_any. apply twf_text.
  split; [apply tok_render; exact NT | exact ND].
Qed.

(* every successful MergePatch / MergeMergePatches call returns a JSON text *)
Theorem api_merge_output_general mm doc patch out :
  api_merge mm doc patch = MOut out -> exists t', parse out = Some t'.
Proof.
  intro H. destruct (api_merge_out_shape mm doc patch out H) as [td [tp [Pd [Pp NN]]]]. destruct (scalar_text tp) eqn:Sc.
  - rewrite (api_merge_scalar mm doc patch td tp Pd Pp NN Sc) in H. inversion H; subst. eauto.
  - rewrite (api_merge_node mm doc patch td tp Pd Pp NN Sc) in H. inversion H; subst. eexists.
    apply (merge_node_output mm td tp (parse_twf _ _ Pd) (parse_twf _ _ Pp)).
Qed.

Corollary api_merge_output_valid mm doc patch out : api_merge mm doc patch = MOut out -> valid_gen out = true.
Proof. intro H. apply valid_gen_iff_parse. eapply api_merge_output_general; eauto. Qed.

(* ---- in the domain of the refinement theorems: the bytes denote the RFC 7396 result ---- *)
Lemma scalar_den_nonobj tp : scalar_text tp = true -> forall ms, den tp <> OObj ms.
Proof. destruct tp; try discriminate; intros _ ms; discriminate. Qed.

(* a merge call whose patch, if a scalar text, denotes j and whose merged node otherwise is well formed and denotes j:
   the bytes returned are a JSON text whose value is j *)
Lemma api_merge_bytes mm doc patch td tp j :
  parse doc = Some td -> parse patch = Some tp -> td <> TNull ->
  (scalar_text tp = true -> den tp = j) ->
  (scalar_text tp = false -> nwf (merge_node mm td tp) /\ aval (merge_node mm td tp) = j) ->
  exists out t', api_merge mm doc patch = MOut out /\ parse out = Some t' /\ den t' = j /\ valid_gen out = true.
Proof.
  intros Pd Pp NN Hs Hn. destruct (scalar_text tp) eqn:Sc.
  - exists patch, tp. split; [eapply api_merge_scalar; eauto|]. split; [exact Pp|]. split; [exact (Hs eq_refl)|].
    apply valid_gen_iff_parse. eauto.
  - destruct (Hn eq_refl) as [W V].
    destruct (merge_node_output mm td tp (parse_twf _ _ Pd) (parse_twf _ _ Pp)) as [O [NT NS]].
    exists (marshal_node (merge_node mm td tp)), (enc true (merge_node mm td tp)).
    split; [eapply api_merge_node; eauto|]. split; [exact O|]. split.
    + rewrite <- V. apply codec_thm; [exact W | apply ntok_nlit; exact NT | exact NS].
    + apply valid_gen_iff_parse. eauto.
Qed.

(* MergePatch: the bytes returned are a JSON text whose value is RFC 7396's MergePatch(document, patch) *)
Theorem api_merge_output doc patch td tp :
  parse doc = Some td -> parse patch = Some tp -> td <> TNull -> tnodup td = true -> tnodup tp = true ->
  exists out t', api_merge false doc patch = MOut out /\ parse out = Some t' /\
                 den t' = merge_patch (den td) (den tp) /\ valid_gen out = true.
Proof.
  intros Pd Pp NN Td Tp. apply (api_merge_bytes false doc patch td tp); auto.
  - intro Sc. symmetry. apply merge_patch_nonobj, scalar_den_nonobj, Sc.
  - intro Sc. exact (merge_node_spec td tp NN Td Tp Sc).
Qed.

(* MergeMergePatches: the bytes returned are a JSON text whose value is the combined patch mm P1 P2 *)
Theorem api_mergemerge_output p1 p2 ms1 t2 :
  parse p1 = Some (TObj ms1) -> parse p2 = Some t2 -> tnodup (TObj ms1) = true -> tnodup t2 = true ->
  compatible (den (TObj ms1)) (den t2) = true ->
  exists out t', api_merge true p1 p2 = MOut out /\ parse out = Some t' /\
                 den t' = mm (den (TObj ms1)) (den t2) /\ valid_gen out = true.
Proof.
  intros P1 P2 T1 T2 C. apply (api_merge_bytes true p1 p2 (TObj ms1) t2); auto; [discriminate | |].
  - intro Sc. symmetry. apply mm_nonobj2, scalar_den_nonobj, Sc.
  - intro Sc. exact (merge_node_mm_spec ms1 t2 T1 T2 C Sc).
Qed.

Print Assumptions merge_n_lv.
Print Assumptions api_merge_output_general.
Print Assumptions api_merge_output.
Print Assumptions api_mergemerge_output.

(* 9. CreateMergePatch (v5): the output bytes *)

(* every number literal of a decoded value is a complete number *)
Definition onum_ok (j : ojson) : Prop := forall lit, In lit (onums j) -> num_ok lit.

Lemma onum_ok_arr l x : onum_ok (OArr l) -> In x l -> onum_ok x.
Proof. intros H Hx lit Hl. apply H. cbn [onums]. apply in_flat_map. exists x. split; assumption. Qed.

Lemma onum_ok_obj ms kv : onum_ok (OObj ms) -> In kv ms -> onum_ok (snd kv).
Proof. intros H Hx lit Hl. apply H. cbn [onums]. apply in_flat_map. exists kv. split; assumption. Qed.

Theorem tok_encode_sorted j : onum_ok j -> tok (encode_sorted j).
Proof. exact (sp_encode_sorted tok_spelled j). Qed.

Lemma tok_tnums t : tok t -> forall lit, In lit (tnums t) -> num_ok lit.
Proof.
  induction t as [| | |l0|b|l IH|ms IH] using tjson_rect'; intros T lit Hin; cbn [tnums] in Hin; try contradiction.
  - destruct Hin as [<-|[]]. exact T.
  - apply in_flat_map in Hin as [x [Hx Hl]]. apply tok_arr in T. rewrite Forall_forall in *. apply (IH x Hx (T x Hx) lit Hl).
  - apply in_flat_map in Hin as [kv [Hx Hl]]. apply tok_obj_parts in T. rewrite Forall_forall in *. apply (IH kv Hx (T kv Hx) lit Hl).
Qed.

Lemma onums_den t : forall lit, In lit (onums (den t)) -> In lit (tnums t).
Proof.
  induction t as [| | |l0|b|l IH|ms IH] using tjson_rect'; intros lit Hin; cbn [den onums tnums] in *; try contradiction.
  - exact Hin.
  - apply in_flat_map in Hin as [j [Hj Hl]]. apply in_map_iff in Hj as [x [<- Hx]]. apply in_flat_map. exists x.
    split; [exact Hx|]. rewrite Forall_forall in IH. apply (IH x Hx lit Hl).
  - apply in_flat_map in Hin as [kv [Hk Hl]]. apply resolve_dups_incl, in_map_iff in Hk as [kv2 [<- I2]]. cbn [snd] in Hl.
    apply in_flat_map. exists kv2. split; [exact I2|]. rewrite Forall_forall in IH. apply (IH kv2 I2 lit Hl).
Qed.

Corollary onum_ok_den t : tok t -> onum_ok (den t).
Proof. intros T lit Hin. apply (tok_tnums t T). apply onums_den. exact Hin. Qed.

Lemma onum_ok_diff a b : onum_ok b -> onum_ok (diff a b).
Proof. intros H lit Hin. apply H. apply (onums_diff b a lit Hin). Qed.

Lemma encode_sorted_depth j : (Text.tdepth (encode_sorted j) <= odepth j)%N.
Proof.
  induction j as [|b|lit|s|l IH|ms IH] using ojson_rect'; try (cbn; lia).
  - destruct b; cbn; lia.
  - rewrite encode_sorted_arr, tdepth_arr, odepth_arr, maxd_map.
    assert (maxd (fun x => Text.tdepth (encode_sorted x)) l <= maxd odepth l)%N; [|lia].
    apply maxd_bound. intros x Hx. rewrite Forall_forall in IH. pose proof (IH x Hx). pose proof (maxd_le odepth l x Hx). lia.
  - rewrite encode_sorted_obj, tdepth_obj, odepth_obj, maxd_map. cbn [snd].
    assert (maxd (fun kv : bytes * tjson => Text.tdepth (snd kv)) (V4MergeFacts.sort4 (map (fun kv => (fst kv, encode_sorted (snd kv))) ms))
            <= maxd (fun kv => odepth (snd kv)) ms)%N; [|lia].
    apply maxd_bound. intros kv Hin. apply In_sort4 in Hin. apply in_map_iff in Hin as [kv0 [<- Hin0]]. cbn [snd].
    rewrite Forall_forall in IH. pose proof (IH kv0 Hin0). pose proof (maxd_le (fun kv => odepth (snd kv)) ms kv0 Hin0).
    cbn beta in *. lia.
Qed.

Lemma diff_depth b : forall a, (odepth (diff a b) <= odepth b)%N.
Proof.
  induction b as [|b0|lit|s|l IH|bms IH] using ojson_rect'; intro a;
    try (rewrite diff_nonobj by (destruct a; reflexivity); lia).
  destruct (is_obj a) eqn:Oa; [|rewrite diff_nonobj by (rewrite Oa; reflexivity); lia].
  apply is_obj_true in Oa as [ams ->]. rewrite diff_obj, !odepth_obj.
  assert (maxd (fun kv => odepth (snd kv)) (diff_members ams bms ++ diff_dels ams bms) <= maxd (fun kv => odepth (snd kv)) bms)%N; [|lia].
  apply maxd_bound. intros kv Hin.
  assert (F : Forall (fun kv : bytes * ojson => (odepth (snd kv) <= maxd (fun kv => odepth (snd kv)) bms)%N)
                     (diff_members ams bms ++ diff_dels ams bms)).
  { apply Forall_app. split.
    - apply diff_members_P.
      + intros k bv Hb. apply (maxd_le (fun kv => odepth (snd kv)) bms (k, bv) Hb).
      + intros k av bv Hb _ _ _. cbn [snd]. rewrite Forall_forall in IH. pose proof (IH _ Hb av) as Q. cbn [snd] in Q.
        pose proof (maxd_le (fun kv => odepth (snd kv)) bms (k, bv) Hb) as R. cbn [snd] in R. lia.
    - apply diff_dels_P. intros k av _. cbn. lia. }
  rewrite Forall_forall in F. apply (F kv Hin).
Qed.

(* ---- the patch CreateMergePatch builds for one pair ---- *)
Lemma one_le_max_depth : (1 <= max_depth)%N. Proof. unfold max_depth. lia. Qed.

Lemma as_obj_facts d t oa : tok t -> (1 <= d)%N -> (Text.tdepth t <= d)%N -> as_obj t = Some oa -> onum_ok oa /\ (odepth oa <= d)%N.
Proof.
  intros T D1 D. destruct t; cbn [as_obj]; try discriminate; intro E.
  - inversion E; subst. split; [intros lit []|]. cbn. lia.
  - assert (Eo : oa = den (TObj ms)) by congruence. rewrite Eo. split; [exact (onum_ok_den _ T)|].
    pose proof (den_depth_le (TObj ms)). lia.
Qed.

Lemma create_object_wf d x y p : tok y -> (1 <= d)%N -> (Text.tdepth y <= d)%N ->
  create_object x y = Some p -> tok p /\ (Text.tdepth p <= d)%N.
Proof.
  intros T D1 D. rewrite create_object_spec. destruct (as_obj x) as [oa|]; [|discriminate].
  destruct (as_obj y) as [ob|] eqn:Eb; [|discriminate]. intro E; inversion E; subst.
  destruct (as_obj_facts d y ob T D1 D Eb) as [N Dp]. split.
  - apply tok_encode_sorted. apply onum_ok_diff. exact N.
  - pose proof (encode_sorted_depth (diff oa ob)). pose proof (diff_depth ob oa). lia.
Qed.

Lemma create_elems_all (Q R : tjson -> Prop) :
  (forall x y p, R y -> create_object x y = Some p -> Q p) ->
  forall la lb ps, Forall R lb -> create_elems la lb = Some ps -> Forall Q ps.
Proof.
  intros H. induction la as [|x la IH]; intros lb ps T; cbn [create_elems].
  - intro E; inversion E; constructor.
  - destruct lb as [|y lb]; [intro E; inversion E; constructor|].
    inversion T as [|? ? T1 T2]; subst.
    destruct (create_object x y) as [p|] eqn:Ec; [|discriminate].
    destruct (create_elems la lb) as [ps'|] eqn:Ee; [|discriminate]. intro E; inversion E; subst.
    constructor; [eapply H; eauto | eapply IH; eauto].
Qed.

Lemma create_elems_wf d la : forall lb ps, Forall tok lb -> (1 <= d)%N -> Forall (fun y => (Text.tdepth y <= d)%N) lb ->
  create_elems la lb = Some ps -> Forall (fun p => tok p /\ (Text.tdepth p <= d)%N) ps.
Proof.
  intros lb ps T D1 D. apply (create_elems_all _ (fun y => tok y /\ (Text.tdepth y <= d)%N)).
  - intros x y p [Ty Dy]. exact (create_object_wf d x y p Ty D1 Dy).
  - rewrite Forall_forall in *. intros y Hy. split; [exact (T y Hy) | exact (D y Hy)].
Qed.

(* what CreateMergePatch prints (the difference of the two texts, or the array of the differences of their elements)
   has every property Q (indexed by the nesting allowed) that an array of trees that have it one level
   down has, and that create_object gives its result when the second text is made of tokens nested no deeper *)
Theorem api_create_tree (Q : N -> tjson -> Prop) :
  (forall d l, d <> 0%N -> Forall (Q (d - 1)%N) l -> Q d (TArr l)) ->
  (forall d x y p, tok y -> (1 <= d)%N -> (Text.tdepth y <= d)%N -> create_object x y = Some p -> Q d p) ->
  forall a b out, api_create a b = MOut out -> exists tr, out = print true tr /\ Q max_depth tr.
Proof.
  intros QA QO a b out. rewrite api_create_unfold. destruct (parse a) as [ta|] eqn:Pa; [|discriminate].
  destruct (parse b) as [tb|] eqn:Pb; [|discriminate].
  pose proof (parse_twf _ _ Pb) as Wb. apply twf_text in Wb as [Tb Db].
  assert (Obj : match create_object ta tb with Some p => MOut (print true p) | None => MErr MBadDoc end = MOut out ->
                exists tr, out = print true tr /\ Q max_depth tr).
  { destruct (create_object ta tb) as [p|] eqn:Ec; [|discriminate]. intro G; inversion G; subst.
    exists p. split; [reflexivity | exact (QO max_depth ta tb p Tb one_le_max_depth Db Ec)]. }
  destruct ta; try (destruct tb; try exact Obj; discriminate).
  destruct tb; try discriminate.
  destruct (length l =? length l0)%nat; [|discriminate].
  rewrite create_go_spec. destruct (create_elems l l0) as [ps|] eqn:Ee; [|discriminate].
  cbn [app]. intro H; inversion H; subst. exists (TArr ps). split; [reflexivity|].
  assert (D0 : (1 <= max_depth - 1)%N) by (unfold max_depth; lia). apply QA; [discriminate|].
  apply (create_elems_all _ (fun y => tok y /\ (Text.tdepth y <= max_depth - 1)%N) (fun x y p Hy => QO _ x y p (proj1 Hy) D0 (proj2 Hy)) l l0 ps);
    [|exact Ee].
  apply tok_arr in Tb. apply Pdep_arr in Db as [_ Db]. apply Forall_and; assumption.
Qed.

(* every successful CreateMergePatch call returns a JSON text *)
Theorem api_create_output_general a b out :
  api_create a b = MOut out -> exists t', parse out = Some t' /\ valid_gen out = true.
Proof.
  intro H. destruct (fun QA QO => api_create_tree (fun d t => tok t /\ (Text.tdepth t <= d)%N) QA QO a b out H) as [tr [-> W]].
  - intros d l D0 F. apply Forall_and_inv in F as [F1 F2]. split; [apply tok_arr; exact F1 | apply Pdep_arr; split; assumption].
  - intros d x y p Ty D1 Dy. exact (create_object_wf d x y p Ty D1 Dy).
  - apply twf_text in W. pose proof (parse_print_any true tr W) as Pp. eexists. split; [exact Pp | apply valid_gen_iff_parse; eauto].
Qed.

(* two objects without duplicate names: the bytes denote the reference difference *)
Theorem api_create_output a b ams bms :
  parse a = Some (TObj ams) -> parse b = Some (TObj bms) -> tnodup (TObj ams) = true -> tnodup (TObj bms) = true ->
  exists out t', api_create a b = MOut out /\ parse out = Some t' /\
                 jeq (den t') (diff (den (TObj ams)) (den (TObj bms))) = true /\ valid_gen out = true.
Proof.
  intros Pa Pb Na Nb.
  destruct (api_create_correct a b ams bms Pa Pb Na Nb (parse_tsb _ _ Pa) (parse_tsb _ _ Pb)) as [p [E [Ep [Sp [_ [J _]]]]]].
  pose proof (parse_twf _ _ Pb) as Wb. apply twf_text in Wb as [Tb Db].
  assert (Ec : create_object (TObj ams) (TObj bms) = Some p) by (rewrite create_object_spec; cbn [as_obj]; rewrite Ep; reflexivity).
  destruct (create_object_wf max_depth _ _ p Tb one_le_max_depth Db Ec) as [Tp Dp].
  assert (Pp : parse (print true p) = Some (escape_tree true p)) by (apply parse_print_any; apply twf_text; split; assumption).
  exists (print true p), (escape_tree true p). split; [exact E|]. split; [exact Pp|]. split.
  - rewrite escape_tree_den by exact Sp. exact J.
  - apply valid_gen_iff_parse. eauto.
Qed.

Print Assumptions api_create_output_general.
Print Assumptions api_create_output.

(* 10. checks on concrete inputs *)

Definition ex_opts (esc : bool) : opts := mkOpts false 0 false false esc [] None.
Definition ex_patch : bytes :=
  B "[{""op"":""add"",""path"":""/k<"",""value"":{""n"":[1,-2.5e+3,{}],""s"":""a&b""}},{""op"":""copy"",""from"":""/k<"",""path"":""/c""},{""op"":""test"",""path"":""/c/n/0"",""value"":1},{""op"":""move"",""from"":""/x>"",""path"":""/c/n/-""},{""op"":""remove"",""path"":""/c/s""}]".
Definition ex_doc : bytes := B " {""x>"":""<"", ""z"": [ ] } ".

(* add, copy, test, move, remove; EscapeHTML on and off; no indent, tab, two spaces: every output is
   accepted by the scanner, ApplyIndent's output is Indent of Apply's, all read back as one value *)
Example ex_apply_outputs :
  match api_decode ex_patch with
  | Some p =>
      match api_apply (ex_opts true) [] p ex_doc, api_apply (ex_opts true) [x09] p ex_doc,
            api_apply (ex_opts false) (B "  ") p ex_doc with
      | ROut a, ROut b, ROut c =>
          indent_go [x09] a = Some b /\ valid_gen a = true /\ valid_gen b = true /\ valid_gen c = true /\
          parse a <> None /\ option_map den (parse a) = option_map den (parse b) /\
          option_map den (parse a) = option_map den (parse c) /\ a <> c
      | _, _, _ => False
      end
  | None => False
  end.
Proof. vm_compute. repeat split; try reflexivity; discriminate. Qed.

Example ex_merge_output :
  match api_merge false (B "{""a"":{""x"":1,""y"":[1,{""q"":null}]},""k"":""s<"",""n"":1e400}")
                        (B " {""a"":{""x"":null,""z"":{""u"":null,""w"":[null]}},""n"":null,""m"":{""d"":null}} ") with
  | MOut out => valid_gen out = true /\
                option_map den (parse out) =
                option_map den (parse (B "{""a"":{""y"":[1,{""q"":null}],""z"":{""w"":[null]}},""k"":""s<"",""m"":{}}"))
  | _ => False
  end.
Proof. vm_compute. split; reflexivity. Qed.

Example ex_create_output :
  match api_create (B "{""a"":1,""b"":{""c"":[1,2],""d"":""<""}}") (B "{""a"":1.0,""b"":{""c"":[1,2],""d"":"">""},""e"":null}") with
  | MOut out => valid_gen out = true /\
                option_map den (parse out) = option_map den (parse (B "{""a"":1.0,""b"":{""d"":"">""},""e"":null}"))
  | _ => False
  end.
Proof. vm_compute. split; reflexivity. Qed.

(* member names that are not valid UTF-8 are still written as bodies the reader accepts *)
Example ex_quote_invalid_utf8 : body_okb (quote false [xff; x41; xe2; x80]) = true /\ body_okb (quote true [xc0; x3c]) = true.
Proof. vm_compute. split; reflexivity. Qed.

(* the hypothesis on the nesting of the result is needed: a document nested 10000 deep (accepted),
   a decoded copy that puts its deepest part one level further down: Apply succeeds and writes a text
   nested 10001 deep, which neither the reader nor the scanner accepts *)
Definition ex_deep_doc : bytes := B "{""a"":" ++ repeat x5b 9999 ++ repeat x5d 9999 ++ B ",""b"":[]}".

(* arrays nested n deep around t; the compact printer on them is linear, not a recursion to evaluate *)
Fixpoint nest (n : nat) (t : tjson) : tjson := match n with O => t | S k => TArr [nest k t] end.

Lemma print_nest esc t : forall n, print esc (nest n t) = repeat x5b n ++ print esc t ++ repeat x5d n.
Proof.
  induction n as [|n IH]; cbn [nest repeat app]; [now rewrite app_nil_r|].
  cbn [print map sep_concat]. rewrite IH, repeat_cons, <- !app_assoc. reflexivity.
Qed.

Definition ex_deep_tree : tjson := TObj [(B "a", nest 9998 (TArr [])); (B "b", TArr [])].
Definition ex_deep_result : tjson := TObj [(B "a", nest 9998 (TArr [])); (B "b", TArr [nest 9998 (TArr [])])].
Definition ex_deep_patch : list operation :=
  [[(B "op", Some (TStr (B "copy"))); (B "from", Some (TStr (B "/a"))); (B "path", Some (TStr (B "/b/-")))]].

Example ex_result_too_deep :
  match api_decode (B "[{""op"":""copy"",""from"":""/a"",""path"":""/b/-""}]") with
  | Some p =>
      match api_apply (ex_opts true) [] p ex_deep_doc with
      | ROut out => parse out = None /\ parse ex_deep_doc <> None
      | _ => False
      end
  | None => False
  end.
Proof.
  change (api_decode _) with (Some ex_deep_patch). cbv iota.
  assert (Pd : parse ex_deep_doc = Some ex_deep_tree) by (vm_compute; reflexivity).
  (* lazy, not vm_compute: with the limit off the size of the copy (the quadratic printer) is never forced *)
  assert (R : result_tree (ex_opts true) ex_deep_patch ex_deep_tree = Some ex_deep_result) by (lazy; reflexivity).
  rewrite (api_apply_tree (ex_opts true) [] ex_deep_patch ex_deep_doc ex_deep_tree ex_deep_result Pd R).
  split; [|rewrite Pd; discriminate].
  (* the text written, in closed form; the reader runs over it once *)
  unfold output, ex_deep_result. cbn [print map sep_concat fst snd]. rewrite !print_nest.
  vm_compute. reflexivity.
Qed.

(* 11. the legacy root package: MergePatch / MergeMergePatches (render4: names sorted, escaped) *)

From JP Require Import ImplV4 V4MergeFacts.

Section MergeInv4.
  Variable P : N -> tjson -> Prop.
  Variable Pk : bytes -> Prop.
  Variable okl : N -> Prop.
  Hypothesis P_obj : forall d ms, P d (TObj ms) ->
    okl d /\ Forall (fun kv => Pk (unquote (fst kv)) /\ P (d - 1) (snd kv)) ms.

  Local Notation nlv' := (nlv P Pk okl).
  Local Notation mlv' := (mlv P Pk okl).

  Lemma obj_of_lv d ms : P d (TObj ms) -> okl d /\ mlv' (d - 1) (obj_of ms).
  Proof.
    intro H. pose proof (doc_of_lv P Pk okl P_obj d ms H) as D. apply nlv_doc in D as [O [_ M]]. split; [exact O | exact M].
  Qed.

  Lemma prune4_go_lv d ms : forall acc,
    mlv' d acc -> Forall (fun kv => Pk (unquote (fst kv)) /\ nlv' d (prune4_t (snd kv))) ms -> mlv' d (prune4_go ms acc).
  Proof. exact (prune4_go_Forall _ ms). Qed.

  Lemma prune4_t_lv t : forall d, P d t -> nlv' d (prune4_t t).
  Proof.
    induction t as [| | |lit|b|l IH|ms IH] using tjson_rect'; intros d H; try exact H.
    rewrite prune4_t_obj. destruct (P_obj d ms H) as [O F]. apply nlv_doc. split; [exact O|]. split; [constructor|].
    apply prune4_go_lv; [constructor|]. rewrite Forall_forall in IH, F. apply Forall_forall. intros kv Hin.
    destruct (F kv Hin) as [F1 F2]. split; [exact F1 | apply (IH kv Hin); exact F2].
  Qed.

  Lemma prune4_node_lv n : forall d, nlv' d n -> nlv' d (prune4_node n).
  Proof.
    induction n as [|t|keys obj IH|ns IH] using node_rect'; intros d H; cbn [prune4_node]; try exact H.
    - apply prune4_t_lv. exact H.
    - apply nlv_doc in H as [O [Hk Ho]]. apply nlv_doc. split; [exact O|]. split; [exact Hk|].
      unfold mlv in *. apply Forall_forall. intros kv Hin. apply filter_In in Hin as [Hin _].
      apply in_map_iff in Hin as [kv0 [<- Hin0]]. cbn [fst snd]. rewrite Forall_forall in IH, Ho.
      destruct (Ho kv0 Hin0) as [H1 H2]. split; [exact H1 | apply (IH kv0 Hin0); exact H2].
  Qed.

  Lemma into_doc4_lv d cur obj : nlv' d cur -> into_doc4 cur = Some obj -> okl d /\ mlv' (d - 1) obj.
  Proof.
    intros H E. destruct cur as [|t|k0 o0|ns]; cbn [into_doc4] in E; try discriminate.
    - destruct t; try discriminate. assert (E' : obj = obj_of ms) by congruence. rewrite E'. apply obj_of_lv. exact H.
    - inversion E; subst. apply nlv_doc in H as [O [_ M]]. split; assumption.
  Qed.

  Theorem merge4_n_lv : forall fuel mm d cur p, nlv' d cur -> P d p -> nlv' d (merge4_n fuel mm cur p).
  Proof.
    induction fuel as [|f IH]; intros mm d cur p Hc Hp; [exact Hp|].
    rewrite merge4_n_fold. destruct (into_doc4 cur) as [obj|] eqn:E; [|apply prune4_t_lv; exact Hp].
    destruct (into_doc4_lv d cur obj Hc E) as [O Ho].
    destruct p; try exact Hp.
    apply nlv_doc. split; [exact O|]. split; [constructor|].
    apply (mloop_Forall _ (fun x => x) aset adel prune4_t (fun _ _ _ => eq_refl) (fun _ _ => eq_refl)); [exact Ho|].
    intros k v Hin. pose proof (patch_entries_lv P Pk okl P_obj d ms Hp) as He.
    rewrite Forall_forall in He. destruct (He _ Hin) as [Hk1 Hv]. cbn [fst snd] in *.
    split; [split; [exact Hk1 | exact I]|]. split.
    - split; [exact Hk1|]. destruct mm; [exact Hv | apply prune4_t_lv; exact Hv].
    - intros c [_ Hc']. split; [exact Hk1 | apply IH; assumption].
  Qed.
End MergeInv4.

Lemma api_merge4_out_shape mm doc patch out :
  api_merge4 mm doc patch = MOut out ->
  exists td tp, parse doc = Some td /\ parse patch = Some tp /\ td <> TNull /\ scalar_text tp = false.
Proof.
  unfold api_merge4. destruct (parse doc) as [td|]; [|discriminate]. destruct (parse patch) as [tp|]; [|discriminate].
  intro H. exists td, tp. split; [reflexivity|]. split; [reflexivity|].
  destruct td; try discriminate H; (split; [discriminate|]); destruct tp; try discriminate H; reflexivity.
Qed.

Lemma merge4_node_lv (P : N -> tjson -> Prop) (Pk : bytes -> Prop) (okl : N -> Prop) :
  (forall d ms, P d (TObj ms) -> okl d /\ Forall (fun kv => Pk (unquote (fst kv)) /\ P (d - 1) (snd kv)) ms) ->
  forall mm d td tp, P d td -> P d tp -> nlv P Pk okl d (merge4_node mm td tp).
Proof.
  intros PO mm d td tp Hd Hp. unfold merge4_node. destruct tp; try exact Hp.
  assert (NonObj : nlv P Pk okl d (if mm then NDoc [] (obj_of ms) else prune4_node (NRaw (TObj ms)))).
  { destruct mm; [|rewrite prune4_node_raw; apply (prune4_t_lv P Pk okl PO); exact Hp].
    destruct (obj_of_lv P Pk okl PO d ms Hp) as [O M]. apply nlv_doc. split; [exact O|]. split; [constructor | exact M]. }
  destruct td; try exact NonObj.
  apply (merge4_n_lv P Pk okl PO); [exact Hd | exact Hp].
Qed.

Lemma sp_render4 {P Pk} (SP : spelled P Pk) n : nall P n -> P (render4 n).
Proof.
  induction n as [|t|keys obj IH|ns IH] using node_rect'; intro N.
  - exact (sp_null P Pk SP).
  - exact N.
  - destruct keys as [|k0 keys]; [|exact (sp_null P Pk SP)].
    apply (nall_doc P) in N. rewrite render4_doc. apply (sp_obj P Pk SP). rewrite Forall_map. cbn [fst snd].
    apply Forall_forall. intros kv Hin. apply In_sort4 in Hin. apply in_map_iff in Hin as [kv0 [<- Hin0]]. cbn [fst snd].
    rewrite Forall_forall in IH, N. split; [apply (sp_quote P Pk SP) | apply (IH _ Hin0); apply (N _ Hin0)].
  - apply (nall_ary P) in N. cbn [render4]. apply (sp_arr P Pk SP). rewrite Forall_map. exact (Forall_mp _ _ _ IH N).
Qed.

(* what the legacy deepCopy stores *)
Lemma sp_enc4 {P Pk} (SP : spelled P Pk) n : nall P n -> P (escape_tree true (render4 n)).
Proof. intro N. apply (sp_escape SP), (sp_render4 SP), N. Qed.

Lemma tok_render4 n : ntok n -> tok (render4 n).
Proof. exact (sp_render4 tok_spelled n). Qed.

Lemma nlv_render4_depth n : forall d, nlv Pdep anykey okD d n -> (Text.tdepth (render4 n) <= d)%N.
Proof.
  induction n as [|t|keys obj IH|ns IH] using node_rect'; intros d H.
  - cbn. lia.
  - exact H.
  - destruct keys as [|k0 keys]; [|cbn; lia].
    apply nlv_doc in H as [O [_ Ho]]. unfold mlv in Ho. rewrite render4_doc. apply Pdep_members. split; [exact O|].
    rewrite Forall_map. apply Forall_forall. intros kv Hin. apply In_sort4 in Hin. apply in_map_iff in Hin as [kv0 [<- Hin0]]. cbn [snd].
    rewrite Forall_forall in IH, Ho. apply (IH _ Hin0), (Ho _ Hin0).
  - apply nlv_ary in H as [O H]. cbn [render4]. apply Pdep_arr. split; [exact O|]. rewrite Forall_map, Forall_forall in *.
    intros x Hx. apply (IH x Hx), (H x Hx).
Qed.

Theorem merge4_node_output mm td tp : twf td -> twf tp ->
  parse (marshal4 (merge4_node mm td tp)) = Some (escape_tree true (render4 (merge4_node mm td tp))) /\
  tok (render4 (merge4_node mm td tp)) /\ nstr (merge4_node mm td tp).
Proof.
  intros Wd Wp. apply twf_text in Wd as [Td Dd]. apply twf_text in Wp as [Tp Dp].
  destruct (nlv_tok_facts _ 0%N (merge4_node_lv Ptok utf8 okT Ptok_obj mm 0%N td tp Td Tp)) as [NT NS].
  pose proof (nlv_render4_depth _ max_depth (merge4_node_lv Pdep anykey okD Pdep_obj mm max_depth td tp Dd Dp)) as ND.
  pose proof (tok_render4 _ NT) as TR.
  split; [|split; assumption]. unfold marshal4. apply parse_print_any. apply twf_text. split; assumption.
Qed.

(* every successful legacy MergePatch / MergeMergePatches call returns a JSON text *)
Theorem api_merge4_output_general mm doc patch out :
  api_merge4 mm doc patch = MOut out -> exists t', parse out = Some t' /\ valid_gen out = true.
Proof.
  intro H. destruct (api_merge4_out_shape mm doc patch out H) as [td [tp [Pd [Pp [NN Sc]]]]].
  rewrite (api_merge4_node mm doc patch td tp Pd Pp NN Sc) in H. inversion H; subst.
  destruct (merge4_node_output mm td tp (parse_twf _ _ Pd) (parse_twf _ _ Pp)) as [O _].
  eexists. split; [exact O | apply valid_gen_iff_parse; eauto].
Qed.

Print Assumptions api_merge4_output_general.

Lemma nstr_nku n : nstr n -> nku n.
Proof.
  induction n as [|t|keys obj IH|ns IH] using node_rect'; intro H.
  - exact I.
  - exact H.
  - apply nstr_doc in H as [_ H]. apply nku_doc. unfold nodes_ku. rewrite Forall_forall in *. intros kv Hin.
    destruct (H kv Hin) as [H1 H2]. split; [exact H1 | apply (IH kv Hin); exact H2].
  - apply nstr_ary in H. apply nku_ary. exact (Forall_mp _ _ _ IH H).
Qed.

Lemma merge4_bytes_strong mm doc patch td tp v :
  parse doc = Some td -> parse patch = Some tp -> td <> TNull -> scalar_text tp = false ->
  nwf4 (merge4_node mm td tp) -> aval4 (merge4_node mm td tp) = v ->
  exists out t', api_merge4 mm doc patch = MOut out /\ parse out = Some t' /\
                 jeq (den t') v = true /\ onodup (den t') = true /\ valid_gen out = true.
Proof.
  intros Pd Pp NN Sc W V.
  destruct (merge4_node_output mm td tp (parse_twf _ _ Pd) (parse_twf _ _ Pp)) as [O [TR NS]].
  destruct (render4_den _ W (nstr_nku _ NS)) as [ND J].
  exists (marshal4 (merge4_node mm td tp)), (escape_tree true (render4 (merge4_node mm td tp))).
  split; [exact (api_merge4_node mm doc patch td tp Pd Pp NN Sc)|]. split; [exact O|].
  rewrite escape_tree_den by (apply tok_tsb; exact TR). split; [rewrite <- V; exact J|].
  split; [exact ND | apply valid_gen_iff_parse; eauto].
Qed.

(* legacy MergePatch (object or array patch): the bytes returned are a JSON text whose value is RFC
   7396's MergePatch(document, patch), up to the order of members (the legacy encoder sorts them) *)
Theorem api_merge4_output_bytes doc patch td tp :
  parse doc = Some td -> parse patch = Some tp -> td <> TNull -> tnodup td = true -> tnodup tp = true ->
  scalar_text tp = false ->
  exists out t', api_merge4 false doc patch = MOut out /\ parse out = Some t' /\
                 jeq (den t') (merge_patch (den td) (den tp)) = true /\ valid_gen out = true.
Proof.
  intros Pd Pp NN Td Tp Sc. destruct (merge4_node_spec td tp NN Td Tp Sc) as [W V].
  destruct (merge4_bytes_strong false doc patch td tp _ Pd Pp NN Sc W V) as [out [t' [A [P [J [_ G]]]]]].
  exists out, t'. repeat split; assumption.
Qed.

Theorem api_mergemerge4_output_bytes p1 p2 ms1 t2 :
  parse p1 = Some (TObj ms1) -> parse p2 = Some t2 -> tnodup (TObj ms1) = true -> tnodup t2 = true ->
  compatible (den (TObj ms1)) (den t2) = true -> scalar_text t2 = false ->
  exists out t', api_merge4 true p1 p2 = MOut out /\ parse out = Some t' /\
                 jeq (den t') (mm (den (TObj ms1)) (den t2)) = true /\ valid_gen out = true.
Proof.
  intros P1 P2 T1 T2 C Sc. destruct (merge4_node_mm_spec ms1 t2 T1 T2 C Sc) as [W V].
  destruct (merge4_bytes_strong true p1 p2 (TObj ms1) t2 _ P1 P2 ltac:(discriminate) Sc W V) as [out [t' [A [P [J [_ G]]]]]].
  exists out, t'. repeat split; assumption.
Qed.

Print Assumptions api_merge4_output_bytes.
Print Assumptions api_mergemerge4_output_bytes.

(* 12. the codec's Compact / Indent (C17): the output is a JSON text with the same value *)

Lemma skip_ws_nil_wsb r : skip_ws r = [] -> wsb r = true.
Proof.
  induction r as [|c r IH]; [reflexivity|]. cbn [skip_ws wsb forallb]. destruct (is_ws c) eqn:E; [|discriminate].
  intro H. cbn [andb]. apply IH. exact H.
Qed.

(* Compact, with or without escaping: accepted exactly on well-formed texts; the result is read back
   as the (escaped) tree of the input, which denotes the same value *)
Theorem compact_output_value esc bs out : compact_go esc bs = Some out ->
  exists t, parse bs = Some t /\ parse out = Some (escape_tree esc t) /\ den (escape_tree esc t) = den t /\
            valid_gen out = true.
Proof.
  rewrite compact_go_spec. destruct (parse bs) as [t|] eqn:Pb; [|discriminate]. intro H; inversion H; subst.
  pose proof (parse_twf _ _ Pb) as W. exists t. split; [reflexivity|].
  assert (Pp : parse (print esc t) = Some (escape_tree esc t)) by (apply parse_print_any; exact W).
  split; [exact Pp|]. split; [apply escape_den; apply tok_tsb; apply W | apply valid_gen_iff_parse; eauto].
Qed.

(* Indent with an indentation made of white space: the result is read back as the tree of the input *)
Theorem indent_output_value ind bs out : wsb ind = true -> indent_go ind bs = Some out ->
  exists t, parse bs = Some t /\ parse out = Some t /\ valid_gen out = true.
Proof.
  intros W H. destruct (proj1 (indent_accepts_iff_parse ind bs) (ex_intro _ out H)) as [t Pb].
  destruct (indent_go_parse ind bs t Pb) as [rest [_ [Wr G]]]. rewrite G in H. inversion H; subst.
  destruct (parse_twf _ _ Pb) as [T D]. exists t. split; [exact Pb|].
  assert (Pp : parse (pp false ind 0 t ++ rest) = Some t).
  { apply (parse_of_reads (pp false ind 0 t) t [] rest); [apply pp_reads; assumption | exact D | reflexivity | apply skip_ws_nil_wsb; exact Wr]. }
  split; [exact Pp | apply valid_gen_iff_parse; eauto].
Qed.

Print Assumptions compact_output_value.
Print Assumptions indent_output_value.
