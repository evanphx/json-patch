(* Abs.v — the value a model node denotes (abstraction function from the lazily parsed
   representation to decoded ordered JSON), the representation invariant, and the lemmas that
   relate the representation's bookkeeping (ordered key list + member map) to association lists.
   Proof infrastructure for the refinement theorems (merge, equal, apply). *)
From Coq Require Import Lia.
From JP Require Import Bytes Json Strings Den ImplV5 DecodeFacts JsonFacts.

Definition or_null (o : option ojson) : ojson := match o with Some c => c | None => ONull end.

Fixpoint aval (n : node) : ojson :=
  match n with
  | NNil => ONull
  | NRaw t => den t
  | NDoc keys obj =>
      OObj (map (fun k => (k,
                           match (fix look (m : list (bytes * node)) : option ojson :=
                                    match m with
                                    | [] => None
                                    | (k', v) :: r => if bseq k k' then Some (aval v) else look r
                                    end) obj with
                           | Some j => j
                           | None => ONull
                           end)) keys)
  | NAry ns => OArr (map aval ns)
  end.

Definition abs_members (keys : list bytes) (obj : list (bytes * node)) : list (bytes * ojson) :=
  map (fun k => (k, or_null (option_map aval (aget k obj)))) keys.

Lemma aval_doc keys obj : aval (NDoc keys obj) = OObj (abs_members keys obj).
Proof.
  simpl. f_equal. unfold abs_members. apply map_ext. intro k. f_equal.
  exact (f_equal or_null (look_fix_aget aval k obj)).
Qed.

Lemma abs_members_keys keys obj : map fst (abs_members keys obj) = keys.
Proof. unfold abs_members. rewrite map_map. apply map_id. Qed.

Section NodeInd.
  Variable P : node -> Prop.
  Hypothesis Hnil : P NNil.
  Hypothesis Hraw : forall t, P (NRaw t).
  Hypothesis Hdoc : forall keys obj, Forall (fun kv => P (snd kv)) obj -> P (NDoc keys obj).
  Hypothesis Hary : forall ns, Forall P ns -> P (NAry ns).
  Fixpoint node_rect' (n : node) : P n :=
    match n with
    | NNil => Hnil
    | NRaw t => Hraw t
    | NDoc keys obj =>
        Hdoc keys obj ((fix go (m : list (bytes * node)) : Forall (fun kv => P (snd kv)) m :=
                          match m with
                          | [] => Forall_nil _
                          | kv :: r => Forall_cons _ (node_rect' (snd kv)) (go r)
                          end) obj)
    | NAry ns =>
        Hary ns ((fix go (l : list node) : Forall P l :=
                    match l with
                    | [] => Forall_nil _
                    | x :: r => Forall_cons _ (node_rect' x) (go r)
                    end) ns)
    end.
End NodeInd.

Definition keys_agree (keys : list bytes) (obj : list (bytes * node)) : Prop :=
  NoDup keys /\ NoDup (map fst obj) /\ (forall k, In k keys <-> In k (map fst obj)).

Fixpoint nwf (n : node) : Prop :=
  match n with
  | NNil => True
  | NRaw t => tnodup t = true
  | NDoc keys obj =>
      keys_agree keys obj /\
      (fix all (m : list (bytes * node)) : Prop :=
         match m with [] => True | kv :: r => nwf (snd kv) /\ all r end) obj
  | NAry ns =>
      (fix all (l : list node) : Prop := match l with [] => True | x :: r => nwf x /\ all r end) ns
  end.

Lemma nwf_doc keys obj : nwf (NDoc keys obj) <-> keys_agree keys obj /\ Forall (fun kv => nwf (snd kv)) obj.
Proof. apply and_iff_compat_l, (all_fix_Forall (fun kv => nwf (snd kv))). Qed.

Lemma nwf_ary ns : nwf (NAry ns) <-> Forall nwf ns.
Proof. apply all_fix_Forall. Qed.

Arguments nwf : simpl never.
Lemma nwf_nil : nwf NNil. Proof. exact I. Qed.
Lemma nwf_raw t : nwf (NRaw t) <-> tnodup t = true. Proof. reflexivity. Qed.

Lemma nwf_aval_onodup n : nwf n -> onodup (aval n) = true.
Proof.
  induction n using node_rect'; intro W.
  - reflexivity.
  - exact W.
  - apply nwf_doc in W as [[Nk [No Ag]] Ws]. rewrite aval_doc. apply onodup_obj. split.
    + rewrite abs_members_keys. exact Nk.
    + unfold abs_members. rewrite Forall_map. apply Forall_forall. intros k Hk. simpl.
      destruct (aget k obj) as [v|] eqn:E; [|reflexivity]. simpl. apply aget_In in E.
      rewrite Forall_forall in H, Ws. apply (H _ E). apply (Ws _ E).
  - apply nwf_ary in W. cbn [aval]. apply onodup_arr. rewrite Forall_map. rewrite Forall_forall in *.
    intros x Hx. apply (H x Hx). apply (W x Hx).
Qed.

Lemma alast_notin {A} k (m : list (bytes * A)) d : ~ In k (map fst m) -> alast k m d = d.
Proof.
  revert d. induction m as [|[k' v] m IH]; intros d H; simpl; auto.
  simpl in H. assert (bseq k k' = false) by (apply bseq_neq; intro; subst; auto).
  rewrite H0. apply IH. auto.
Qed.

Lemma alast_nodup {A} k (v : A) m : NoDup (map fst m) -> In (k, v) m -> forall d, alast k m d = v.
Proof.
  induction m as [|[k' v'] m IH]; intros N Hin d; [destruct Hin|]. inversion N; subst. simpl.
  destruct Hin as [E|Hin]; [|apply IH; auto].
  inversion E; subst. rewrite bseq_refl. apply alast_notin; auto.
Qed.

Lemma resolve_dups_nodup {A} (m : list (bytes * A)) : NoDup (map fst m) -> resolve_dups m = m.
Proof.
  intro N. unfold resolve_dups. transitivity (map (fun kv => kv) m); [|apply map_id].
  apply map_ext_in. intros [k v] Hin. simpl.
  f_equal. apply alast_nodup; auto.
Qed.

(* with or without repeated names: every member of the decoded map is a member of the list, under its own name *)
Lemma alast_In {A} k : forall (m : list (bytes * A)) d, alast k m d = d \/ In (k, alast k m d) m.
Proof.
  induction m as [|[k' v] m IH]; intro d; cbn [alast]; [now left|].
  destruct (IH (if bseq k k' then v else d)) as [E|H]; [|right; now right].
  rewrite E. destruct (bseq k k') eqn:B; [right; left; apply bseq_eq in B; now subst | now left].
Qed.

Lemma resolve_dups_incl {A} (m : list (bytes * A)) kv : In kv (resolve_dups m) -> In kv m.
Proof.
  unfold resolve_dups. intro H. apply in_map_iff in H as [[k v] [<- H]]. cbn [fst snd].
  destruct (alast_In k m v) as [E|E]; [rewrite E; exact H | exact E].
Qed.

Definition den_members (ms : list (bytes * tjson)) : list (bytes * ojson) :=
  map (fun kv => (unquote (fst kv), den (snd kv))) ms.

Lemma den_members_keys ms : map fst (den_members ms) = map (fun kv => unquote (fst kv)) ms.
Proof. unfold den_members. rewrite map_map. reflexivity. Qed.

Lemma tnodup_obj ms :
  tnodup (TObj ms) = true <->
  NoDup (map (fun kv => unquote (fst kv)) ms) /\ Forall (fun kv => tnodup (snd kv) = true) ms.
Proof.
  unfold tnodup. cbn [den]. fold (den_members ms). rewrite onodup_obj.
  assert (K : map fst (resolve_dups (den_members ms)) = map (fun kv => unquote (fst kv)) ms).
  { unfold resolve_dups. rewrite map_map. simpl. rewrite <- den_members_keys. reflexivity. }
  rewrite K. split; intros [N F]; split; auto.
  - rewrite resolve_dups_nodup in F by (rewrite den_members_keys; auto).
    unfold den_members in F. rewrite Forall_map in F. exact F.
  - rewrite resolve_dups_nodup by (rewrite den_members_keys; auto).
    unfold den_members. rewrite Forall_map. exact F.
Qed.

Lemma den_obj_nodup ms : tnodup (TObj ms) = true -> den (TObj ms) = OObj (den_members ms).
Proof.
  intro H. apply tnodup_obj in H as [N _]. cbn [den]. fold (den_members ms).
  rewrite resolve_dups_nodup; auto. rewrite den_members_keys; auto.
Qed.

Lemma tnodup_arr l : tnodup (TArr l) = true <-> Forall (fun x => tnodup x = true) l.
Proof. unfold tnodup. cbn [den]. rewrite onodup_arr, Forall_map. reflexivity. Qed.

Lemma build_obj_nodup ms acc :
  NoDup (map fst acc ++ map (fun kv => unquote (fst kv)) ms) ->
  build_obj ms acc = acc ++ map (fun kv => (unquote (fst kv), child (snd kv))) ms.
Proof. rewrite build_obj_with. apply build_with_nodup. Qed.

Lemma doc_of_nodup ms :
  NoDup (map (fun kv => unquote (fst kv)) ms) ->
  doc_of ms = (map (fun kv => unquote (fst kv)) ms, map (fun kv => (unquote (fst kv), child (snd kv))) ms).
Proof. intro N. unfold doc_of. rewrite build_obj_nodup; auto. Qed.

Lemma aval_child t : aval (child t) = den t.
Proof. destruct t; reflexivity. Qed.

Lemma nwf_child t : tnodup t = true -> nwf (child t).
Proof. destruct t; intro H; try exact I; exact H. Qed.

Lemma abs_members_self obj :
  NoDup (map fst obj) -> abs_members (map fst obj) obj = map (fun kv => (fst kv, aval (snd kv))) obj.
Proof.
  intro N. unfold abs_members. rewrite map_map. apply map_ext_in. intros [k v] Hin. simpl.
  rewrite (In_aget_nodup k v obj N Hin). reflexivity.
Qed.

Lemma keys_agree_self {obj : list (bytes * node)} : NoDup (map fst obj) -> keys_agree (map fst obj) obj.
Proof. intro N. repeat split; auto. Qed.

(* lazy parsing does not change the value: the container a raw object/array is parsed into
   denotes the same value, and satisfies the invariant *)
Lemma parsed_obj ms :
  tnodup (TObj ms) = true ->
  let (keys, obj) := doc_of ms in
  aval (NDoc keys obj) = den (TObj ms) /\ nwf (NDoc keys obj).
Proof.
  intro T. pose proof (den_obj_nodup ms T) as D. apply tnodup_obj in T as [N F].
  rewrite doc_of_nodup by auto. rewrite D.
  set (obj := map (fun kv => (unquote (fst kv), child (snd kv))) ms).
  assert (K : map fst obj = map (fun kv => unquote (fst kv)) ms) by (unfold obj; rewrite map_map; reflexivity).
  rewrite <- K. split.
  - rewrite aval_doc, abs_members_self by (rewrite K; auto). f_equal.
    unfold obj, den_members. rewrite map_map. apply map_ext. intros [k v]. simpl. now rewrite aval_child.
  - apply nwf_doc. split; [apply keys_agree_self; rewrite K; auto|].
    unfold obj. rewrite Forall_map. revert F. apply Forall_impl. intros [k v]. apply nwf_child.
Qed.

Lemma parsed_arr l :
  tnodup (TArr l) = true -> aval (NAry (map child l)) = den (TArr l) /\ nwf (NAry (map child l)).
Proof.
  intro T. apply tnodup_arr in T. split.
  - simpl. f_equal. rewrite map_map. apply map_ext. intro t. apply aval_child.
  - apply nwf_ary. rewrite Forall_map. revert T. apply Forall_impl. exact nwf_child.
Qed.

Lemma abs_members_ext keys obj obj' :
  (forall k, In k keys -> aget k obj' = aget k obj) -> abs_members keys obj' = abs_members keys obj.
Proof. intro H. unfold abs_members. apply map_ext_in. intros k Hin. now rewrite H. Qed.

Lemma aset_map_keys {A} (h : bytes -> A) k x ks :
  NoDup ks ->
  aset k x (map (fun k0 => (k0, h k0)) ks) =
  map (fun k0 => (k0, if bseq k0 k then x else h k0)) ks ++ (if kmem k ks then [] else [(k, x)]).
Proof.
  induction ks as [|k' ks IH]; intro N; [reflexivity|]. inversion N; subst. simpl. rewrite (bseq_sym k' k).
  destruct (bseq k k') eqn:E; simpl; [|f_equal; apply IH; assumption].
  apply bseq_eq in E. subst k'. rewrite app_nil_r. f_equal. apply map_ext_in. intros k0 Hin.
  replace (bseq k0 k) with false; [reflexivity|]. symmetry. apply bseq_neq. intros ->. contradiction.
Qed.

Lemma kmem_agree keys obj k : keys_agree keys obj -> kmem k keys = amem k obj.
Proof. intros [_ [_ Ag]]. apply Bool.eq_true_iff_eq. rewrite amem_In, kmem_In. apply Ag. Qed.

Lemma abs_doc_set keys obj k v :
  keys_agree keys obj ->
  let (keys', obj') := doc_set keys obj k v in
  abs_members keys' obj' = aset k (aval v) (abs_members keys obj) /\ keys_agree keys' obj'.
Proof.
  intros [Nk [No Ag]]. unfold doc_set. split.
  - unfold abs_members. rewrite (aset_map_keys _ k (aval v) keys Nk).
    assert (G : forall k0, or_null (option_map aval (aget k0 (aset k v obj))) =
                           if bseq k0 k then aval v else or_null (option_map aval (aget k0 obj))).
    { intro k0. rewrite aget_aset. destruct (bseq k0 k); reflexivity. }
    destruct (kmem k keys); [rewrite app_nil_r | rewrite map_app; cbn [map]; rewrite G, bseq_refl; f_equal];
      apply map_ext; intro k0; rewrite G; reflexivity.
  - pose proof (eq_sym (kmem_agree keys obj k (conj Nk (conj No Ag)))) as M.
    split; [|split; [apply NoDup_keys_aset, No|]].
    + destruct (kmem k keys) eqn:K; [exact Nk|]. apply kmem_false_In in K.
      apply NoDup_app_intro; auto; [constructor; [intros [] | constructor] | intros x H1 [<-|[]]; auto].
    + intro x. rewrite keys_aset, M. destruct (kmem k keys); [apply Ag|]. rewrite !in_app_iff, (Ag x). reflexivity.
Qed.

Lemma kdel1_notin k keys : ~ In k keys -> kdel1 k keys = keys.
Proof.
  induction keys as [|k' keys IH]; simpl; auto. intro H.
  assert (bseq k k' = false) by (apply bseq_neq; intro; subst; auto). rewrite H0. f_equal. auto.
Qed.

Lemma In_kdel1 k keys x : NoDup keys -> (In x (kdel1 k keys) <-> In x keys /\ x <> k).
Proof.
  induction keys as [|k' keys IH]; simpl; intro N; [tauto|]. inversion N; subst.
  destruct (bseq k k') eqn:E.
  - apply bseq_eq in E. subst k'. split; [intro H; split; auto; intro; subst; auto | intros [[H|H] H']; auto; congruence].
  - apply bseq_neq in E. simpl. rewrite IH by auto. split; [intros [H|[H H']]; subst; auto | intros [[H|H] H']; auto].
Qed.

Lemma NoDup_kdel1 k keys : NoDup keys -> NoDup (kdel1 k keys).
Proof.
  induction keys as [|k' keys IH]; simpl; auto. intro N. inversion N; subst.
  destruct (bseq k k'); auto. constructor; auto. intro H. apply In_kdel1 in H; auto. tauto.
Qed.

Lemma adel_map_keys {A} (h : bytes -> A) k ks :
  NoDup ks -> adel k (map (fun k0 => (k0, h k0)) ks) = map (fun k0 => (k0, h k0)) (kdel1 k ks).
Proof.
  induction ks as [|k' ks IH]; intro N; [reflexivity|]. inversion N; subst. simpl.
  destruct (bseq k k') eqn:E; [|simpl; f_equal; apply IH; assumption].
  apply bseq_eq in E. subst k'. apply adel_notin. rewrite map_map. cbn [fst]. rewrite map_id. assumption.
Qed.

Lemma abs_del keys obj k :
  keys_agree keys obj ->
  abs_members (kdel1 k keys) (adel k obj) = adel k (abs_members keys obj) /\
  keys_agree (kdel1 k keys) (adel k obj).
Proof.
  intros [Nk [No Ag]]. split.
  - unfold abs_members. rewrite adel_map_keys by exact Nk. apply map_ext_in. intros k2 Hin.
    apply In_kdel1 in Hin as [_ Hne]; [|exact Nk]. apply bseq_neq in Hne. now rewrite aget_adel_other.
  - repeat split.
    + apply NoDup_kdel1; auto.
    + apply NoDup_keys_adel; auto.
    + intro H. apply In_kdel1 in H as [H1 H2]; auto. apply In_keys_adel. split; auto. apply Ag; auto.
    + intro H. apply In_keys_adel in H as [H1 H2]. apply In_kdel1; auto. split; auto. apply Ag; auto.
Qed.

Lemma aget_abs_members keys obj k :
  aget k (abs_members keys obj) = if kmem k keys then Some (or_null (option_map aval (aget k obj))) else None.
Proof.
  unfold abs_members. induction keys as [|k' keys IH]; simpl; auto.
  destruct (bseq k k') eqn:E; simpl; auto. apply bseq_eq in E. subst. reflexivity.
Qed.

Lemma aget_abs_members_agree keys obj k :
  keys_agree keys obj -> aget k (abs_members keys obj) = option_map aval (aget k obj).
Proof.
  intros [Nk [No Ag]]. rewrite aget_abs_members. destruct (kmem k keys) eqn:M.
  - apply kmem_In in M. apply Ag in M. apply aget_Some_in in M as [v ->]. reflexivity.
  - apply kmem_false_In in M. destruct (aget k obj) eqn:E; auto. apply aget_In_fst in E. apply Ag in E. contradiction.
Qed.

Lemma amem_abs_members keys obj k : keys_agree keys obj -> amem k (abs_members keys obj) = amem k obj.
Proof. intro Ag. unfold amem. rewrite (aget_abs_members_agree keys obj k Ag). destruct (aget k obj); reflexivity. Qed.
