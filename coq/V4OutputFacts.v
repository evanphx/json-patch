(* V4OutputFacts.v — C18: the output BYTES of the legacy Apply / ApplyIndent (ImplV4.api_apply4) are a
   well-formed JSON text that the independent reader Text.parse reads back as the intended value.
   Legacy counterpart of OutputFacts.v sections 4-7.  (The output bytes of the legacy merge are in
   OutputFacts.v itself, section 11: api_merge4_output_bytes, api_mergemerge4_output_bytes.)

   1  the invariant: every raw message held by the legacy state satisfies a predicate P (nall P is
      closed in the sense of V4Inv.v: nall_closed4); with P := tok (OutputFacts.ntok = nall tok) it
      holds of every parsed document and of every value of a decoded patch, and is kept by step4 and
      apply4_from for ARBITRARY operations, paths and package variables (step4_ntok,
      apply4_from_ntok).  deepCopy re-encodes with sorted names and HTML escaping: tok_render4 +
      tok_escape.
   2  the tree the legacy Apply encodes (result4_tree) and the general output theorem
      (api_apply4_output_general): every parsed document, every patch whose values are tokens.
      The nesting of the result is the one hypothesis (an add / copy can nest the result deeper than
      the reader accepts).
   3  in the domain of the simulation (V4ApplySim.api_apply4_sim): the bytes parse to a value equal,
      up to member order, to the RFC 6902 result (api_apply4_output_bytes, api_apply4_output_rfc). *)
From Coq Require Import Lia.
From JP Require Import Bytes Json Text Strings Den Pointer Rfc6902 ImplV5 ImplMerge ImplV4 DecodeFacts JsonFacts Abs
                       EqualFacts ParseFacts ImplFacts RefFacts ApplyFacts Codec StrInv PrintParse Depth ApplySim Domain
                       Totality OutputFacts Scan ScannerParse ScanFacts V4MergeFacts V4ApplySim V4Inv.

(* ================================================================================================ *)
(* 1. the raw messages held by the legacy state: OutputFacts.nall is kept by the legacy engine        *)
(* ================================================================================================ *)
Definition start4 (t : tjson) : option con4 :=
  match t with
  | TObj ms => Some (DDoc (obj_of ms))
  | TArr l => Some (DAry (map child l))
  | TNull => Some DDocNil
  | _ => None
  end.

Section RawInv4.
  Variable P : tjson -> Prop.

  Lemma nall_closedc4 : closedc4 (nall P).
  Proof.
    split.
    - exact I.
    - exact (nall_ary P).
    - intros obj k v N E. apply (nall_doc P) in N. exact (Forall_aget _ k obj v N E).
    - intros obj k v N Hv. apply (nall_doc P) in N. apply (nall_doc P). apply Forall_aset; auto.
    - intros obj k N. apply (nall_doc P) in N. apply (nall_doc P). now apply Forall_adel.
  Qed.

  Hypothesis P_arr : forall l, P (TArr l) -> Forall P l.
  Hypothesis P_obj : forall ms, P (TObj ms) -> Forall (fun kv => P (snd kv)) ms.

  Theorem nall_closed4 : closed4 (nall P).
  Proof.
    split; [exact nall_closedc4|].
    intros n ch N H. destruct n as [|t|keys obj|ns]; cbn [into_con4] in H; try discriminate.
    - destruct t; try discriminate; inversion H; subst; cbn [node_of_con4].
      + apply (nall_ary P). exact (Forall_nall_children P P_arr l N).
      + apply (nall_doc P). apply (nall_doc P (fst (doc_of ms))). exact (nall_doc_of P P_obj ms N).
    - destruct keys as [|k0 keys]; inversion H; subst; [exact N | apply (nall_doc P); constructor].
    - inversion H; subst. exact N.
  Qed.

  Lemma decode4_all t p : P t -> decode4_t t = Some p -> Forall (op_all P) p.
  Proof.
    intro T. destruct t as [| | |lit|body|els|ms]; cbn [decode4_t]; try discriminate.
    - intro H. inversion H. constructor.
    - destruct (forallb _ els); [|discriminate]. intro H. inversion H; subst. exact (operations_of_all P P_arr P_obj els T).
  Qed.

  Lemma start4_all t c : P t -> start4 t = Some c -> nall P (node_of_con4 c).
  Proof.
    intros T H. pose proof (fun ch => inv4_into _ nall_closed4 (NRaw t) ch T) as D.
    destruct t; cbn [start4] in H; try discriminate; inversion H; subst; try exact (D _ eq_refl).
    apply (nall_doc P). constructor.
  Qed.

  (* deepCopy: the members sorted, names and strings HTML-escaped *)
  Hypothesis P_copy4 : forall v, nall P v -> P (escape_tree true (render4 v)).

  Lemma nall_deep_copy4 g v : nall P v -> nall P (fst (deep_copy4 g v)).
  Proof.
    intro N. destruct (deep_copy4_cases g v) as [E|[E|E]]; rewrite E.
    - exact I.
    - apply (nall_doc P [B "null"]). constructor.
    - apply (nall_raw P); apply P_copy4; exact N.
  Qed.
End RawInv4.

Definition call4 (c : con4) : Prop := ntok (node_of_con4 c).
Definition stok4 (st : state4) : Prop := call4 (r4 st).

Lemma tok_copy4 v : ntok v -> tok (escape_tree true (render4 v)).
Proof. intro N. apply tok_escape. apply tok_render4. exact N. Qed.

Theorem step4_ntok g st op st' : stok4 st -> op_tok op -> step4 g st op = Ok st' -> stok4 st'.
Proof. exact (step4_inv (nall_closed4 tok tok_arr_parts tok_obj_parts) I (nall_deep_copy4 tok tok_copy4) g st op st'). Qed.

Theorem apply4_from_ntok g : forall p i st st' j,
  stok4 st -> Forall op_tok p -> apply4_from g i st p = (Ok st', j) -> stok4 st'.
Proof. exact (apply4_from_inv (nall_closed4 tok tok_arr_parts tok_obj_parts) I (nall_deep_copy4 tok tok_copy4) g). Qed.

(* ================================================================================================ *)
(* 2. the tree the legacy Apply encodes; the general output theorem                                   *)
(* ================================================================================================ *)
Definition tree4 (c : con4) : tjson :=
  match c with DDocNil => TNull | c' => render4 (node_of_con4 c') end.

Definition result4_tree (g : opts4) (p : list operation) (t : tjson) : option tjson :=
  match start4 t with
  | Some c =>
      match apply4_from g 0 (mkState4 c 0) p with
      | (Ok st, _) => Some (tree4 (r4 st))
      | _ => None
      end
  | None => None
  end.

Lemma api_apply4_unfold g indent p b doc t : parse (b :: doc) = Some t ->
  api_apply4 g indent p (b :: doc) =
  match start4 t with
  | None => Err4 None EDecode
  | Some c =>
      match apply4_from g 0 (mkState4 c 0) p with
      | (Ok st, _) => Out4 (output4 indent (tree4 (r4 st)))
      | (Err e, i) => Err4 (Some i) e
      | (Panic, _) => Panic4
      end
  end.
Proof.
  intro Pd. rewrite (api_apply4_eq g indent p b doc t Pd). change (api_start4 t) with (start4 t).
  destruct (start4 t) as [c|]; [|reflexivity]. destruct (apply4_from g 0 (mkState4 c 0) p) as [[st|e|] i]; try reflexivity.
  destruct (r4 st); reflexivity.
Qed.

Lemma api_apply4_out g indent p doc t out : parse doc = Some t ->
  (api_apply4 g indent p doc = Out4 out <-> exists tr, result4_tree g p t = Some tr /\ out = output4 indent tr).
Proof.
  intro Pd. destruct doc as [|b doc]; [rewrite parse_nil in Pd; discriminate|].
  rewrite (api_apply4_unfold g indent p b doc t Pd). unfold result4_tree.
  destruct (start4 t) as [c|]; [|split; [discriminate | intros [tr [H _]]; discriminate]].
  destruct (apply4_from g 0 (mkState4 c 0) p) as [[st|e|] i]; [|split; [discriminate | intros [tr [H _]]; discriminate] ..].
  split.
  - intro H; inversion H; subst. eexists. split; reflexivity.
  - intros [tr [H1 H2]]. inversion H1; subst. reflexivity.
Qed.

Lemma api_apply4_unparsed g indent p doc out : parse doc = None -> api_apply4 g indent p doc = Out4 out -> out = [].
Proof. intro Pd. unfold api_apply4. rewrite Pd. destruct doc; intro H; inversion H; reflexivity. Qed.

(* the empty document is the one input for which the result is not a JSON text *)
Example api_apply4_empty_doc g indent p : api_apply4 g indent p [] = Out4 [] /\ parse [] = None.
Proof. split; reflexivity. Qed.

Lemma tree4_sp {P Pk} (SP : spelled P Pk) c : nall P (node_of_con4 c) -> P (tree4 c).
Proof.
  intro C. destruct c as [obj| |ns]; cbn [tree4]; [apply (sp_render4 SP); exact C | exact (sp_null P Pk SP) | apply (sp_render4 SP); exact C].
Qed.

Lemma tree4_shape c : root_shape (tree4 c).
Proof. destruct c; exact I. Qed.

Lemma result4_tree_inv g p t tr : result4_tree g p t = Some tr ->
  exists c st k, start4 t = Some c /\ apply4_from g 0 (mkState4 c 0) p = (Ok st, k) /\ tr = tree4 (r4 st).
Proof.
  unfold result4_tree. destruct (start4 t) as [c|]; [|discriminate].
  destruct (apply4_from g 0 (mkState4 c 0) p) as [[st|e|] k] eqn:A; try discriminate. intros [= <-]. exists c, st, k. auto.
Qed.

(* the tree the legacy Apply encodes has every predicate on the leaves that the document and the values of the patch have *)
Theorem result4_tree_sp {P Pk} (SP : spelled P Pk) g p t tr :
  P t -> Forall (op_all P) p -> result4_tree g p t = Some tr -> P tr.
Proof.
  intros T A R. apply result4_tree_inv in R as (c & st & i & St & E & ->). apply (tree4_sp SP).
  apply (apply4_from_inv (nall_closed4 P (sp_arr_parts SP) (sp_obj_parts SP)) (sp_null P Pk SP)
           (nall_deep_copy4 P (sp_enc4 SP)) g p 0%nat (mkState4 c 0) st i);
    [exact (start4_all P (sp_arr_parts SP) (sp_obj_parts SP) t c T St) | exact A | exact E].
Qed.

Theorem result4_tree_tok g p t tr : tok t -> Forall op_tok p -> result4_tree g p t = Some tr -> tok tr /\ root_shape tr.
Proof.
  intros T A R. split; [exact (result4_tree_sp tok_spelled g p t tr T A R)|].
  apply result4_tree_inv in R as (c & st & i & _ & _ & ->). apply tree4_shape.
Qed.

(* the legacy output function is v5's at the options o5 g (EscapeHTML on: the legacy encoder always escapes), so
   that OutputFacts.output_spec applies to it as it stands *)
Lemma output4_is_output g indent tr : output4 indent tr = output (o5 g) indent tr.
Proof. reflexivity. Qed.

(* ---- the general theorem: EVERY parsed document, EVERY patch whose values are made of tokens (every
   decoded patch), every setting of the package variables, every indent.  The nesting of the result
   is the one hypothesis. ---- *)
Theorem api_apply4_output_general g indent p doc t out :
  parse doc = Some t -> Forall op_tok p -> api_apply4 g indent p doc = Out4 out ->
  exists tr, result4_tree g p t = Some tr /\ out = output4 indent tr /\ tok tr /\ root_shape tr /\
    ((Text.tdepth tr <= max_depth)%N ->
       (wsb indent = true ->
          parse out = Some (escape_tree true tr) /\ valid_gen out = true /\
          exists t', parse out = Some t' /\ den t' = den tr) /\
       (indent <> [] -> exists out0, api_apply4 g [] p doc = Out4 out0 /\ indent_go indent out0 = Some out)).
Proof.
  intros Pd A H. apply (api_apply4_out g indent p doc t out Pd) in H as [tr [R ->]].
  destruct (result4_tree_tok g p t tr (proj1 (parse_twf _ _ Pd)) A R) as [T Sh].
  exists tr. split; [exact R|]. split; [reflexivity|]. split; [exact T|]. split; [exact Sh|].
  intro D. destruct (output_spec (o5 g) indent tr T Sh D) as [S1 S2]. split; [exact S1|].
  intro NE. exists (output4 [] tr). split; [|exact (S2 NE)].
  apply (api_apply4_out g [] p doc t _ Pd). exists tr. split; [exact R | reflexivity].
Qed.

(* every patch the legacy DecodePatch accepts carries such values *)
Corollary api_decode4_tok bs p : api_decode4 bs = Some p -> Forall op_tok p.
Proof.
  unfold api_decode4. destruct (parse bs) as [t|] eqn:Pb; [|discriminate].
  exact (decode4_all tok tok_arr_parts tok_obj_parts t p (proj1 (parse_twf _ _ Pb))).
Qed.

Corollary api_apply4_output_decoded g indent patch p doc t out :
  api_decode4 patch = Some p -> parse doc = Some t -> wsb indent = true ->
  api_apply4 g indent p doc = Out4 out ->
  exists tr, result4_tree g p t = Some tr /\ out = output4 indent tr /\
    ((Text.tdepth tr <= max_depth)%N -> valid_gen out = true /\ exists t', parse out = Some t' /\ den t' = den tr).
Proof.
  intros Dc Pd W H.
  destruct (api_apply4_output_general g indent p doc t out Pd (api_decode4_tok _ _ Dc) H) as [tr [R [E [T [Sh G]]]]].
  exists tr. split; [exact R|]. split; [exact E|]. intro D. destruct (G D) as [G1 _]. destruct (G1 W) as [_ [V X]]. split; assumption.
Qed.

(* ================================================================================================ *)
(* 3. in the domain of the simulation: the bytes denote the RFC 6902 result up to member order        *)
(* ================================================================================================ *)
(* the bytes written for a good legacy node whose raw messages are made of tokens: read back, they
   denote the node's value up to the order of members (the encoder sorts the names) *)
Theorem node4_output_den indent n :
  ngood4 n -> ntok n -> (Text.tdepth (render4 n) <= max_depth)%N -> wsb indent = true ->
  parse (output4 indent (render4 n)) = Some (enc4 n) /\
  jeq (den (enc4 n)) (aval4 n) = true /\ onodup (den (enc4 n)) = true /\
  valid_gen (output4 indent (render4 n)) = true.
Proof.
  intros G T D W. pose proof (tok_render4 n T) as Tr.
  destruct (enc4_codec n G) as [[Nd _] [J _]].
  split; [exact (output_parses (o5 (mkOpts4 false 0 None)) indent _ Tr D W)|]. split; [exact J|]. split; [exact Nd|].
  exact (output_valid (o5 (mkOpts4 false 0 None)) indent _ Tr D W).
Qed.

(* ---- nesting: the tree written for a good node is as deep as the value it denotes, and values equal
   up to member order are equally deep: the hypothesis on the nesting can be put on the RFC result ---- *)
Lemma maxd_same_members {A} (f : A -> N) l m : (forall x, In x l <-> In x m) -> maxd f l = maxd f m.
Proof.
  intro H. apply N.le_antisymm; apply maxd_bound; intros x Hx; apply maxd_le; apply H; exact Hx.
Qed.

Lemma render4_depth n : ngood4 n -> Text.tdepth (render4 n) = odepth (aval4 n).
Proof.
  induction n as [|t|keys obj IH|ns IH] using node_rect'; intro G.
  - reflexivity.
  - apply ngood4_raw in G as [T _]. cbn [render4 aval4]. symmetry. apply den_depth. exact T.
  - apply ngood4_doc in G as [-> [N [_ Gs]]]. rewrite render4_doc, aval4_doc, tdepth_obj, odepth_obj, maxd_map. cbn [snd].
    f_equal. unfold amap4. rewrite maxd_map. cbn [snd].
    rewrite (maxd_same_members (fun kv : bytes * tjson => Text.tdepth (snd kv)) (sort4 (msnd render4 obj)) (msnd render4 obj)).
    + unfold msnd. rewrite maxd_map. cbn [snd]. apply maxd_ext_in. intros kv Hk.
      rewrite Forall_forall in IH, Gs. apply (IH kv Hk). apply (Gs kv Hk).
    + assert (P : Permutation.Permutation (sort4 (msnd render4 obj)) (msnd render4 obj))
        by (apply sort4_perm; rewrite msnd_keys; exact N).
      intro x. split; intro Hx; [exact (Permutation.Permutation_in _ P Hx) | exact (Permutation.Permutation_in _ (Permutation.Permutation_sym P) Hx)].
  - apply ngood4_ary in G. cbn [render4 aval4]. rewrite tdepth_arr, odepth_arr, !maxd_map. f_equal.
    apply maxd_ext_in. intros x Hx. rewrite Forall_forall in IH, G. apply (IH x Hx). apply (G x Hx).
Qed.

(* one direction; the other is the same statement at jeq_sym *)
Lemma odepth_jeq_le a : forall b, onodup a = true -> onodup b = true -> jeq a b = true -> (odepth a <= odepth b)%N.
Proof.
  induction a as [| | | |l IH|ms IH] using ojson_rect'; intros b' Na Nb E; destruct b' as [|b0|lit0|s0|l0|m0];
    try discriminate; try apply N.le_refl.
  - rewrite jeq_arr in E. apply jeq_list_spec in E. apply onodup_arr in Na. apply onodup_arr in Nb.
    rewrite !odepth_arr. apply N.add_le_mono_l.
    revert Na Nb IH. induction E as [|x y l' m' Exy E' IHE]; intros Na Nb IH; [apply N.le_refl|].
    inversion Na as [|? ? Na1 Na2]; subst. inversion Nb as [|? ? Nb1 Nb2]; subst. inversion IH as [|? ? IH1 IH2]; subst.
    exact (N.max_le_compat _ _ _ _ (IH1 y Na1 Nb1 Exy) (IHE Na2 Nb2 IH2)).
  - apply onodup_obj in Na as [Na1 Na2]. apply onodup_obj in Nb as [Nb1 Nb2].
    rewrite (jeq_obj_char ms m0 Na1 Nb1) in E. rewrite !odepth_obj. apply N.add_le_mono_l.
    rewrite Forall_forall in IH, Na2, Nb2. apply maxd_bound. intros [k x] Hin.
    pose proof (E k) as Ek. rewrite (In_aget_nodup k x ms Na1 Hin) in Ek. unfold lookup_rel in Ek.
    destruct (aget k m0) as [y|] eqn:El; [|contradiction]. apply aget_In in El.
    apply (N.le_trans _ _ _ (IH (k, x) Hin y (Na2 _ Hin) (Nb2 _ El) Ek)).
    apply (maxd_le (fun kv : bytes * ojson => odepth (snd kv)) m0 (k, y) El).
Qed.

Lemma odepth_jeq a : forall b, onodup a = true -> onodup b = true -> jeq a b = true -> odepth a = odepth b.
Proof.
  intros b Na Nb E. apply N.le_antisymm; [exact (odepth_jeq_le a b Na Nb E)|].
  exact (odepth_jeq_le b a Nb Na (jeq_sym a b Na Nb E)).
Qed.

Lemma veq_depth a b : veq a b -> odepth a = odepth b.
Proof. intros [J [Na Nb]]. apply odepth_jeq; assumption. Qed.

Theorem api_apply4_output_bytes g indent p doc t :
  g_limit g = 0%Z ->
  parse doc = Some t -> root_container t = true -> tnodup t = true -> tplain t -> tkeys t ->
  Forall op_dom4 p -> Forall op_tok p -> no_deviation (d4 g) (den t) (map den_op p) = true ->
  (forall c, api_start4 t = Some c -> no_null_copy4 g (mkState4 c 0) p = true) ->
  wsb indent = true ->
  match rfc_apply (d4 g) (den t) (map den_op p) with
  | Done j =>
      (odepth j <= max_depth)%N ->
      exists out t', api_apply4 g indent p doc = Out4 out /\ parse out = Some t' /\
                     jeq (den t') j = true /\ onodup (den t') = true /\ valid_gen out = true /\
        (indent <> [] -> exists out0, api_apply4 g [] p doc = Out4 out0 /\ indent_go indent out0 = Some out)
  | Failed i cz => exists e, api_apply4 g indent p doc = Err4 (Some i) e /\ cause_rel cz e
  end.
Proof.
  intros Lim Pd RC T Pl Ks D A ND NC W.
  destruct (api_apply4_loop g indent p doc t Pd RC T Pl Ks) as [c [S1 [S2 [S3 [BO BE]]]]].
  assert (V : veq (sval4 (mkState4 c 0)) (den t)) by (unfold sval4; cbn [r4]; rewrite S3; apply veq_refl; exact T).
  pose proof (apply4_rfc g p 0%nat (mkState4 c 0) (den t) Lim S2 V D ND (NC c S1)) as AS. unfold rfc_apply in *.
  destruct (rfc_apply_from (d4 g) 0 (den t) (map den_op p)) as [j|i cz].
  2: { destruct AS as [e [A1 A2]]. exists e. split; [exact (BE e i A1) | exact A2]. }
  intro Dj. destruct AS as [st' [A1 [A2 A3]]].
  assert (NT : call4 (r4 st')).
  { apply (apply4_from_ntok g p 0%nat (mkState4 c 0) st' (0 + length p)%nat); [|exact A | exact A1].
    exact (start4_all tok tok_arr_parts tok_obj_parts t c (proj1 (parse_twf _ _ Pd)) S1). }
  unfold call4 in NT. set (n := node_of_con4 (r4 st')) in *.
  assert (Out : forall ind, api_apply4 g ind p doc = Out4 (output4 ind (render4 n))).
  { intro ind. destruct (api_apply4_loop g ind p doc t Pd RC T Pl Ks) as [c' [S1' [_ [_ [BO' _]]]]].
    assert (c' = c) by congruence. subst c'. exact (proj1 (BO' st' _ A1 A3)). }
  destruct (BO st' _ A1 A3) as [_ [Ev Gn]]. fold n in Ev, Gn. rewrite <- Ev in A2.
  assert (Dn : (Text.tdepth (render4 n) <= max_depth)%N) by (rewrite (render4_depth n Gn), (veq_depth _ _ A2); exact Dj).
  destruct (node4_output_den indent n Gn NT Dn W) as [O1 [O2 [O3 O4]]].
  exists (output4 indent (render4 n)), (enc4 n). split; [apply Out|]. split; [exact O1|]. destruct A2 as [J [Na Nj]].
  split; [exact (jeq_trans _ _ _ O3 Na Nj O2 J)|]. split; [exact O3|]. split; [exact O4|].
  intro NE. exists (output4 [] (render4 n)). split; [apply Out|].
  apply (output_indent (o5 g)); [apply tok_render4; exact NT | | exact Dn | exact NE].
  unfold n. destruct (r4 st'); exact I.
Qed.

(* the same with the value relation of V4ApplySim: the text read back and the RFC 6902 result are
   values without duplicate names, equal up to the order of members *)
Corollary api_apply4_output_rfc g indent p doc t j :
  g_limit g = 0%Z ->
  parse doc = Some t -> root_container t = true -> tnodup t = true -> tplain t -> tkeys t ->
  Forall op_dom4 p -> Forall op_tok p -> no_deviation (d4 g) (den t) (map den_op p) = true ->
  (forall c, api_start4 t = Some c -> no_null_copy4 g (mkState4 c 0) p = true) ->
  wsb indent = true ->
  rfc_apply (d4 g) (den t) (map den_op p) = Done j -> (odepth j <= max_depth)%N ->
  exists out t', api_apply4 g indent p doc = Out4 out /\ parse out = Some t' /\ veq (den t') j /\ valid_gen out = true.
Proof.
  intros Lim Pd RC T Pl Ks D A ND NC W E Dj.
  pose proof (api_apply4_output_bytes g indent p doc t Lim Pd RC T Pl Ks D A ND NC W) as H. rewrite E in H.
  destruct (H Dj) as [out [t' [H1 [H2 [H3 [H4 [H5 _]]]]]]]. exists out, t'. split; [exact H1|]. split; [exact H2|].
  split; [|exact H5]. split; [exact H3|]. split; [exact H4|].
  pose proof (api_apply4_sim g indent p doc t Lim Pd RC T Pl Ks D ND NC) as Sim. rewrite E in Sim.
  destruct Sim as [n [_ [[_ [_ Nj]] _]]]. exact Nj.
Qed.

Print Assumptions step4_ntok.
Print Assumptions apply4_from_ntok.
Print Assumptions api_apply4_output_general.
Print Assumptions api_decode4_tok.
Print Assumptions api_apply4_output_decoded.
Print Assumptions node4_output_den.
Print Assumptions render4_depth.
Print Assumptions odepth_jeq.
Print Assumptions api_apply4_output_bytes.
Print Assumptions api_apply4_output_rfc.
