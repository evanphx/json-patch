(* ReadInv.v — the reader Text.parse_value taken apart once: its equations on the first significant
   byte, and the derivations reads_value / reads_elems / reads_members of what it returns.  Every
   invariant of parsed trees is an induction over these derivations. *)
From JP Require Import Bytes Json Text.

Lemma skip_ws_idem s : skip_ws (skip_ws s) = skip_ws s.
Proof. induction s as [|c r IH]; [reflexivity|]. cbn [skip_ws]. destruct (is_ws c) eqn:W; [exact IH|]. cbn [skip_ws]. now rewrite W. Qed.

Lemma skip_ws_hd s c r : skip_ws s = c :: r -> is_ws c = false.
Proof.
  induction s as [|a s IH]; [discriminate|]. cbn [skip_ws]. destruct (is_ws a) eqn:W; [exact IH|].
  intro H. inversion H; subst. exact W.
Qed.

Lemma is_ws_inv c : is_ws c = true -> c = x20 \/ c = x09 \/ c = x0d \/ c = x0a.
Proof. destruct c; try discriminate; auto. Qed.

Definition next_is (k : byte) (s : bytes) : option bytes :=
  match skip_ws s with c :: r => if Byte.eqb c k then Some r else None | [] => None end.

Lemma next_is_Some k s r : next_is k s = Some r <-> skip_ws s = k :: r.
Proof.
  unfold next_is. destruct (skip_ws s) as [|c r']; [split; discriminate|]. destruct (Byte.eqb c k) eqn:E.
  - apply Byte.byte_dec_bl in E. subst c. split; intro H; inversion H; reflexivity.
  - split; [discriminate|]. intro H. inversion H; subst. now rewrite (Byte.byte_dec_lb eq_refl) in E.
Qed.

(* the three matches of the members' reader that single out a byte after white space have names, so that
   its step is a small term *)
Definition m22 {A} (s : bytes) (a : bytes -> option A) : option A := match skip_ws s with x22 :: r => a r | _ => None end.
Definition m3a {A} (s : bytes) (a : bytes -> option A) : option A := match skip_ws s with x3a :: r => a r | _ => None end.
Definition m7d2c {A} (s : bytes) (a b : bytes -> option A) : option A :=
  match skip_ws s with x7d :: r => a r | x2c :: r => b r | _ => None end.

(* a match that singles out the byte k after white space is a test next_is k: the 256 cases are met
   here, on goals that hold nothing else *)
Lemma next_x22 {A} s (a : bytes -> option A) : m22 s a = match next_is x22 s with Some r => a r | None => None end.
Proof. unfold m22, next_is. destruct (skip_ws s) as [|c r]; [reflexivity|]. destruct c; reflexivity. Qed.

Lemma next_x3a {A} s (a : bytes -> option A) : m3a s a = match next_is x3a s with Some r => a r | None => None end.
Proof. unfold m3a, next_is. destruct (skip_ws s) as [|c r]; [reflexivity|]. destruct c; reflexivity. Qed.

Lemma next_x5d {A} s (a : bytes -> A) b :
  match skip_ws s with x5d :: r => a r | _ => b end = match next_is x5d s with Some r => a r | None => b end.
Proof. unfold next_is. destruct (skip_ws s) as [|c r]; [reflexivity|]. destruct c; reflexivity. Qed.

Lemma next_x7d {A} s (a : bytes -> A) b :
  match skip_ws s with x7d :: r => a r | _ => b end = match next_is x7d s with Some r => a r | None => b end.
Proof. unfold next_is. destruct (skip_ws s) as [|c r]; [reflexivity|]. destruct c; reflexivity. Qed.

Lemma next_x5d_x2c {A} s (a b : bytes -> option A) :
  match skip_ws s with x5d :: r => a r | x2c :: r => b r | _ => None end =
  match next_is x5d s with Some r => a r | None => match next_is x2c s with Some r => b r | None => None end end.
Proof. unfold next_is. destruct (skip_ws s) as [|c r]; [reflexivity|]. destruct c; reflexivity. Qed.

Lemma next_x7d_x2c {A} s (a b : bytes -> option A) :
  m7d2c s a b =
  match next_is x7d s with Some r => a r | None => match next_is x2c s with Some r => b r | None => None end end.
Proof. unfold m7d2c, next_is. destruct (skip_ws s) as [|c r]; [reflexivity|]. destruct c; reflexivity. Qed.

(* a byte that does not begin a number: white space, or the first byte of another kind of value *)
Definition special (c : byte) : bool :=
  is_ws c || match c with x7b | x5b | x22 | x74 | x66 | x6e => true | _ => false end.

Lemma lead_cases c : is_ws c = false ->
  c = x7b \/ c = x5b \/ c = x22 \/ c = x74 \/ c = x66 \/ c = x6e \/ special c = false.
Proof. destruct c; try discriminate; intros _; auto 8. Qed.

(* ---- Text.scan_string with its recursive call as a parameter ----
   scan_string is the fixed point of string_step (scan_string_S), and one step of it is an application of
   a constant.  Unfolding scan_string itself puts a copy of the whole fixpoint into each of the 256
   branches of the case analysis on the first byte, and every comparison of such a branch with
   `scan_string r` walks through all of it. *)
Definition string_step (rec : bytes -> option (bytes * bytes)) (s : bytes) : option (bytes * bytes) :=
  match s with
  | [] => None
  | c :: r =>
      match c with
      | x22 => Some ([], r)
      | x5c =>
          match r with
          | e :: r' =>
              match e with
              | x62 | x66 | x6e | x72 | x74 | x5c | x2f | x22 =>
                  match rec r' with Some (b, rest) => Some (c :: e :: b, rest) | None => None end
              | x75 =>
                  match r' with
                  | h1 :: h2 :: h3 :: h4 :: r'' =>
                      if is_hex h1 && is_hex h2 && is_hex h3 && is_hex h4 then
                        match rec r'' with Some (b, rest) => Some (c :: e :: h1 :: h2 :: h3 :: h4 :: b, rest) | None => None end
                      else None
                  | _ => None
                  end
              | _ => None
              end
          | [] => None
          end
      | _ => if bn c <? 32 then None else match rec r with Some (b, rest) => Some (c :: b, rest) | None => None end
      end
  end.

Fixpoint knot_string (s : bytes) : option (bytes * bytes) := string_step knot_string s.

Lemma scan_string_S s : scan_string s = string_step scan_string s.
Proof. change scan_string with knot_string. destruct s; reflexivity. Qed.

Lemma scan_string_plain c r : Byte.eqb c x22 = false -> Byte.eqb c x5c = false ->
  scan_string (c :: r) =
  if bn c <? 32 then None else match scan_string r with Some (b, rest) => Some (c :: b, rest) | None => None end.
Proof. rewrite scan_string_S. generalize scan_string. intro rec. destruct c; try discriminate; reflexivity. Qed.

Lemma scan_number_cons c r : scan_number (c :: r) =
  match scan_int (if Byte.eqb c x2d then r else c :: r) with
  | None => None
  | Some (i, s2) =>
      match scan_frac s2 with
      | None => None
      | Some (f, s3) =>
          match scan_exp s3 with
          | None => None
          | Some (e, s4) => Some ((if Byte.eqb c x2d then [x2d] else []) ++ i ++ f ++ e, s4)
          end
      end
  end.
Proof. destruct c; reflexivity. Qed.

(* ---- the same for the three functions of the reader (reader_knot) ---- *)
Section Step.
  Variable pv : N -> bytes -> option (tjson * bytes).
  Variable pe : N -> bytes -> option (list tjson * bytes).
  Variable pm : N -> bytes -> option (list (bytes * tjson) * bytes).

  (* on a text that begins with a significant byte *)
  Definition value_lead (d : N) (s : bytes) : option (tjson * bytes) :=
    match s with
    | [] => None
    | c :: r =>
        match c with
        | x7b =>
            if d =? 0 then None else
            match skip_ws r with
            | x7d :: r' => Some (TObj [], r')
            | _ => match pm (d - 1) r with Some (ms, rest) => Some (TObj ms, rest) | None => None end
            end
        | x5b =>
            if d =? 0 then None else
            match skip_ws r with
            | x5d :: r' => Some (TArr [], r')
            | _ => match pe (d - 1) r with Some (l, rest) => Some (TArr l, rest) | None => None end
            end
        | x22 => match scan_string r with Some (b, rest) => Some (TStr b, rest) | None => None end
        | x74 => match strip_prefix (B "rue") r with Some rest => Some (TTrue, rest) | None => None end
        | x66 => match strip_prefix (B "alse") r with Some rest => Some (TFalse, rest) | None => None end
        | x6e => match strip_prefix (B "ull") r with Some rest => Some (TNull, rest) | None => None end
        | _ => match scan_number (c :: r) with Some (lit, rest) => Some (TNum lit, rest) | None => None end
        end
    end.

  Definition elems_step (d : N) (s : bytes) : option (list tjson * bytes) :=
    match pv d s with
    | None => None
    | Some (v, rest) =>
        match skip_ws rest with
        | x5d :: r' => Some ([v], r')
        | x2c :: r' => match pe d r' with Some (l, rest') => Some (v :: l, rest') | None => None end
        | _ => None
        end
    end.

  Definition members_step (d : N) (s : bytes) : option (list (bytes * tjson) * bytes) :=
    m22 s (fun r =>
      match scan_string r with
      | None => None
      | Some (k, rest) =>
          m3a rest (fun r' =>
            match pv d r' with
            | None => None
            | Some (v, rest') =>
                m7d2c rest' (fun r'' => Some ([(k, v)], r''))
                  (fun r'' => match pm d r'' with Some (ms, rest'') => Some ((k, v) :: ms, rest'') | None => None end)
            end)
      end).
End Step.

Fixpoint knot_value (fuel : nat) (d : N) (s : bytes) {struct fuel} : option (tjson * bytes) :=
  match fuel with O => None | S f => value_lead (knot_elems f) (knot_members f) d (skip_ws s) end
with knot_elems (fuel : nat) (d : N) (s : bytes) {struct fuel} : option (list tjson * bytes) :=
  match fuel with O => None | S f => elems_step (knot_value f) (knot_elems f) d s end
with knot_members (fuel : nat) (d : N) (s : bytes) {struct fuel} : option (list (bytes * tjson) * bytes) :=
  match fuel with O => None | S f => members_step (knot_value f) (knot_members f) d s end.

Lemma reader_knot : parse_value = knot_value /\ parse_elems = knot_elems /\ parse_members = knot_members.
Proof. repeat split; reflexivity. Qed.

Lemma parse_value_S f d s : parse_value (S f) d s = value_lead (parse_elems f) (parse_members f) d (skip_ws s).
Proof. destruct reader_knot as (-> & -> & ->). reflexivity. Qed.

Lemma parse_elems_S f d s : parse_elems (S f) d s = elems_step (parse_value f) (parse_elems f) d s.
Proof. destruct reader_knot as (-> & -> & _). reflexivity. Qed.

Lemma parse_members_S f d s : parse_members (S f) d s = members_step (parse_value f) (parse_members f) d s.
Proof. destruct reader_knot as (-> & _ & ->). reflexivity. Qed.

Lemma pv_ws f d s : parse_value f d s = parse_value f d (skip_ws s).
Proof. destruct f; [reflexivity|]. now rewrite !parse_value_S, skip_ws_idem. Qed.

Lemma pv_num f d c s : special c = false ->
  parse_value (S f) d (c :: s) = match scan_number (c :: s) with Some (lit, rest) => Some (TNum lit, rest) | None => None end.
Proof. rewrite parse_value_S. destruct c; try discriminate; reflexivity. Qed.

Lemma pv_str f d s : parse_value (S f) d (x22 :: s) =
  match scan_string s with Some (b, rest) => Some (TStr b, rest) | None => None end.
Proof. now rewrite parse_value_S. Qed.

Lemma pv_true f d s : parse_value (S f) d (x74 :: s) =
  match strip_prefix (B "rue") s with Some rest => Some (TTrue, rest) | None => None end.
Proof. now rewrite parse_value_S. Qed.

Lemma pv_false f d s : parse_value (S f) d (x66 :: s) =
  match strip_prefix (B "alse") s with Some rest => Some (TFalse, rest) | None => None end.
Proof. now rewrite parse_value_S. Qed.

Lemma pv_null f d s : parse_value (S f) d (x6e :: s) =
  match strip_prefix (B "ull") s with Some rest => Some (TNull, rest) | None => None end.
Proof. now rewrite parse_value_S. Qed.

Lemma pv_arr f d r : parse_value (S f) d (x5b :: r) =
  if d =? 0 then None else
  match next_is x5d r with
  | Some r' => Some (TArr [], r')
  | None => match parse_elems f (d - 1) r with Some (l, rest) => Some (TArr l, rest) | None => None end
  end.
Proof. rewrite parse_value_S. cbn [skip_ws is_ws value_lead]. destruct (d =? 0); [reflexivity | apply next_x5d]. Qed.

Lemma pv_obj f d r : parse_value (S f) d (x7b :: r) =
  if d =? 0 then None else
  match next_is x7d r with
  | Some r' => Some (TObj [], r')
  | None => match parse_members f (d - 1) r with Some (ms, rest) => Some (TObj ms, rest) | None => None end
  end.
Proof. rewrite parse_value_S. cbn [skip_ws is_ws value_lead]. destruct (d =? 0); [reflexivity | apply next_x7d]. Qed.

Lemma pv_close f d s r : skip_ws s = x5d :: r -> parse_value f d s = None.
Proof. intro W. rewrite pv_ws, W. destruct f; [reflexivity|]. now rewrite parse_value_S. Qed.

Lemma pe_S f d s : parse_elems (S f) d s =
  match parse_value f d s with
  | None => None
  | Some (v, rest) =>
      match next_is x5d rest with
      | Some r' => Some ([v], r')
      | None =>
          match next_is x2c rest with
          | Some r' => match parse_elems f d r' with Some (l, rest') => Some (v :: l, rest') | None => None end
          | None => None
          end
      end
  end.
Proof.
  rewrite parse_elems_S. unfold elems_step. destruct (parse_value f d s) as [[v rest]|]; [apply next_x5d_x2c | reflexivity].
Qed.

Lemma pm_S f d s : parse_members (S f) d s =
  match next_is x22 s with
  | None => None
  | Some r =>
      match scan_string r with
      | None => None
      | Some (k, rest) =>
          match next_is x3a rest with
          | None => None
          | Some r' =>
              match parse_value f d r' with
              | None => None
              | Some (v, rest') =>
                  match next_is x7d rest' with
                  | Some r'' => Some ([(k, v)], r'')
                  | None =>
                      match next_is x2c rest' with
                      | Some r'' =>
                          match parse_members f d r'' with
                          | Some (ms, rest'') => Some ((k, v) :: ms, rest'')
                          | None => None
                          end
                      | None => None
                      end
                  end
              end
          end
      end
  end.
Proof.
  rewrite parse_members_S. unfold members_step. rewrite next_x22. destruct (next_is x22 s) as [r|]; [|reflexivity].
  destruct (scan_string r) as [[k rest]|]; [|reflexivity]. rewrite next_x3a. destruct (next_is x3a rest) as [r'|]; [|reflexivity].
  destruct (parse_value f d r') as [[v rest']|]; [apply next_x7d_x2c | reflexivity].
Qed.

Inductive reads_value : N -> bytes -> tjson -> bytes -> Prop :=
| RV_num d s c r lit rest : skip_ws s = c :: r -> special c = false -> scan_number (c :: r) = Some (lit, rest) ->
    reads_value d s (TNum lit) rest
| RV_str d s r b rest : skip_ws s = x22 :: r -> scan_string r = Some (b, rest) -> reads_value d s (TStr b) rest
| RV_true d s r rest : skip_ws s = x74 :: r -> strip_prefix (B "rue") r = Some rest -> reads_value d s TTrue rest
| RV_false d s r rest : skip_ws s = x66 :: r -> strip_prefix (B "alse") r = Some rest -> reads_value d s TFalse rest
| RV_null d s r rest : skip_ws s = x6e :: r -> strip_prefix (B "ull") r = Some rest -> reads_value d s TNull rest
| RV_arr0 d s r rest : skip_ws s = x5b :: r -> (d =? 0) = false -> skip_ws r = x5d :: rest -> reads_value d s (TArr []) rest
| RV_arr d s r l rest : skip_ws s = x5b :: r -> (d =? 0) = false -> next_is x5d r = None ->
    reads_elems (d - 1) r l rest -> reads_value d s (TArr l) rest
| RV_obj0 d s r rest : skip_ws s = x7b :: r -> (d =? 0) = false -> skip_ws r = x7d :: rest -> reads_value d s (TObj []) rest
| RV_obj d s r ms rest : skip_ws s = x7b :: r -> (d =? 0) = false -> next_is x7d r = None ->
    reads_members (d - 1) r ms rest -> reads_value d s (TObj ms) rest
with reads_elems : N -> bytes -> list tjson -> bytes -> Prop :=
| RE_one d s v r0 rest : reads_value d s v r0 -> skip_ws r0 = x5d :: rest -> reads_elems d s [v] rest
| RE_more d s v r0 r1 l rest : reads_value d s v r0 -> skip_ws r0 = x2c :: r1 -> reads_elems d r1 l rest ->
    reads_elems d s (v :: l) rest
with reads_members : N -> bytes -> list (bytes * tjson) -> bytes -> Prop :=
| RM_one d s r k r0 r1 v r2 rest : skip_ws s = x22 :: r -> scan_string r = Some (k, r0) -> skip_ws r0 = x3a :: r1 ->
    reads_value d r1 v r2 -> skip_ws r2 = x7d :: rest -> reads_members d s [(k, v)] rest
| RM_more d s r k r0 r1 v r2 r3 ms rest : skip_ws s = x22 :: r -> scan_string r = Some (k, r0) -> skip_ws r0 = x3a :: r1 ->
    reads_value d r1 v r2 -> skip_ws r2 = x2c :: r3 -> reads_members d r3 ms rest ->
    reads_members d s ((k, v) :: ms) rest.

Scheme reads_value_mind := Minimality for reads_value Sort Prop
  with reads_elems_mind := Minimality for reads_elems Sort Prop
  with reads_members_mind := Minimality for reads_members Sort Prop.
Combined Scheme reads_ind from reads_value_mind, reads_elems_mind, reads_members_mind.

Lemma strip_prefix_cons w pat c s :
  strip_prefix (w :: pat) (c :: s) = if Byte.eqb w c then strip_prefix pat s else None.
Proof. reflexivity. Qed.

Lemma strip_prefix_inv pat : forall s rest, strip_prefix pat s = Some rest -> s = pat ++ rest.
Proof.
  induction pat as [|w pat IH]; intros s rest H.
  - destruct s; inversion H; reflexivity.
  - destruct s as [|c s]; [discriminate|]. rewrite strip_prefix_cons in H. destruct (Byte.eqb w c) eqn:E; [|discriminate].
    apply Byte.byte_dec_bl in E. subst c. cbn [app]. f_equal. apply IH, H.
Qed.

(* one induction over derivations for every property of what was read: a property P of the text is threaded
   from the input to the rest (P is kept by dropping white space, an ASCII byte, a string, a number), and a
   property Q of trees (Qs of string bodies and names) is built from what the token readers return *)
Section Thread.
  Variables (P : bytes -> Prop) (Q : N -> tjson -> Prop) (Qs : bytes -> Prop).
  Hypothesis P_ws : forall s c r, skip_ws s = c :: r -> P s -> P (c :: r).
  Hypothesis P_byte : forall c r, (bn c <? 128) = true -> P (c :: r) -> P r.
  Hypothesis P_str : forall r b rest, scan_string r = Some (b, rest) -> P r -> Qs b /\ P rest.
  Hypothesis P_num : forall d s lit rest, scan_number s = Some (lit, rest) -> P s -> Q d (TNum lit) /\ P rest.
  Hypothesis Q_atom : forall d, Q d TNull /\ Q d TTrue /\ Q d TFalse.
  Hypothesis Q_str : forall d b, Qs b -> Q d (TStr b).
  Hypothesis Q_arr : forall d l, (d =? 0) = false -> Forall (Q (d - 1)) l -> Q d (TArr l).
  Hypothesis Q_obj : forall d ms, (d =? 0) = false -> Forall (fun kv => Qs (fst kv) /\ Q (d - 1) (snd kv)) ms -> Q d (TObj ms).

  Theorem reads_thread :
    (forall d s t rest, reads_value d s t rest -> P s -> Q d t /\ P rest) /\
    (forall d s l rest, reads_elems d s l rest -> P s -> Forall (Q d) l /\ P rest) /\
    (forall d s ms rest, reads_members d s ms rest -> P s -> Forall (fun kv => Qs (fst kv) /\ Q d (snd kv)) ms /\ P rest).
  Proof.
    assert (Nx : forall s c r, skip_ws s = c :: r -> (bn c <? 128) = true -> P s -> P r)
      by (intros s c r W A H; exact (P_byte c r A (P_ws s c r W H))).
    apply reads_ind.
    - intros d s c r lit rest W _ Sn H. exact (P_num d _ _ _ Sn (P_ws _ _ _ W H)).
    - intros d s r b rest W Ss H. destruct (P_str _ _ _ Ss (Nx _ _ _ W eq_refl H)) as [Hb Hr]. split; [exact (Q_str d b Hb) | exact Hr].
    - intros d s r rest W Sp H. apply strip_prefix_inv in Sp. subst r. split; [apply Q_atom|].
      exact (P_byte x65 _ eq_refl (P_byte x75 _ eq_refl (P_byte x72 _ eq_refl (Nx _ _ _ W eq_refl H)))).
    - intros d s r rest W Sp H. apply strip_prefix_inv in Sp. subst r. split; [apply Q_atom|].
      exact (P_byte x65 _ eq_refl (P_byte x73 _ eq_refl (P_byte x6c _ eq_refl (P_byte x61 _ eq_refl (Nx _ _ _ W eq_refl H))))).
    - intros d s r rest W Sp H. apply strip_prefix_inv in Sp. subst r. split; [apply Q_atom|].
      exact (P_byte x6c _ eq_refl (P_byte x6c _ eq_refl (P_byte x75 _ eq_refl (Nx _ _ _ W eq_refl H)))).
    - intros d s r rest W Z W2 H. split; [exact (Q_arr d [] Z (Forall_nil _)) | exact (Nx _ _ _ W2 eq_refl (Nx _ _ _ W eq_refl H))].
    - intros d s r l rest W Z _ _ IH H. destruct (IH (Nx _ _ _ W eq_refl H)) as [Hl Hr]. split; [exact (Q_arr d l Z Hl) | exact Hr].
    - intros d s r rest W Z W2 H. split; [exact (Q_obj d [] Z (Forall_nil _)) | exact (Nx _ _ _ W2 eq_refl (Nx _ _ _ W eq_refl H))].
    - intros d s r ms rest W Z _ _ IH H. destruct (IH (Nx _ _ _ W eq_refl H)) as [Hl Hr]. split; [exact (Q_obj d ms Z Hl) | exact Hr].
    - intros d s v r0 rest _ IH W H. destruct (IH H) as [Hv H0]. split; [constructor; [exact Hv | constructor] | exact (Nx _ _ _ W eq_refl H0)].
    - intros d s v r0 r1 l rest _ IH W _ IHl H. destruct (IH H) as [Hv H0]. destruct (IHl (Nx _ _ _ W eq_refl H0)) as [Hl Hr].
      split; [constructor; assumption | exact Hr].
    - intros d s r k r0 r1 v r2 rest W Ss W1 _ IH W2 H. destruct (P_str _ _ _ Ss (Nx _ _ _ W eq_refl H)) as [Hk H0].
      destruct (IH (Nx _ _ _ W1 eq_refl H0)) as [Hv H2]. split; [constructor; [split; assumption | constructor] | exact (Nx _ _ _ W2 eq_refl H2)].
    - intros d s r k r0 r1 v r2 r3 ms rest W Ss W1 _ IH W2 _ IHm H. destruct (P_str _ _ _ Ss (Nx _ _ _ W eq_refl H)) as [Hk H0].
      destruct (IH (Nx _ _ _ W1 eq_refl H0)) as [Hv H2]. destruct (IHm (Nx _ _ _ W2 eq_refl H2)) as [Hm Hr].
      split; [constructor; [split; assumption | exact Hm] | exact Hr].
  Qed.
End Thread.

Theorem reader_sound : forall f,
  (forall d s t rest, parse_value f d s = Some (t, rest) -> reads_value d s t rest) /\
  (forall d s l rest, parse_elems f d s = Some (l, rest) -> reads_elems d s l rest) /\
  (forall d s ms rest, parse_members f d s = Some (ms, rest) -> reads_members d s ms rest).
Proof.
  induction f as [|f (IV & IE & IM)]; [repeat split; intros d s x rest H; discriminate H|]. repeat split.
  - intros d s t rest H. rewrite pv_ws in H. destruct (skip_ws s) as [|c r] eqn:W; [rewrite parse_value_S in H; discriminate H|].
    destruct (lead_cases c (skip_ws_hd _ _ _ W)) as [->|[->|[->|[->|[->|[->|Sp]]]]]].
    + rewrite pv_obj in H. destruct (d =? 0) eqn:Z; [discriminate|]. destruct (next_is x7d r) as [r'|] eqn:N.
      * inversion H; subst. apply next_is_Some in N. eapply RV_obj0; eassumption.
      * destruct (parse_members f (d - 1) r) as [[ms r0]|] eqn:P; [|discriminate]. inversion H; subst.
        eapply RV_obj; eauto.
    + rewrite pv_arr in H. destruct (d =? 0) eqn:Z; [discriminate|]. destruct (next_is x5d r) as [r'|] eqn:N.
      * inversion H; subst. apply next_is_Some in N. eapply RV_arr0; eassumption.
      * destruct (parse_elems f (d - 1) r) as [[l r0]|] eqn:P; [|discriminate]. inversion H; subst.
        eapply RV_arr; eauto.
    + rewrite pv_str in H. destruct (scan_string r) as [[b r0]|] eqn:Ss; [|discriminate]. inversion H; subst.
      eapply RV_str; eassumption.
    + rewrite pv_true in H. destruct (strip_prefix _ r) eqn:Sp; [|discriminate]. inversion H; subst.
      eapply RV_true; eassumption.
    + rewrite pv_false in H. destruct (strip_prefix _ r) eqn:Sp; [|discriminate]. inversion H; subst.
      eapply RV_false; eassumption.
    + rewrite pv_null in H. destruct (strip_prefix _ r) eqn:Sp; [|discriminate]. inversion H; subst.
      eapply RV_null; eassumption.
    + rewrite pv_num in H by exact Sp. destruct (scan_number (c :: r)) as [[lit r0]|] eqn:Sn; [|discriminate].
      inversion H; subst. eapply RV_num; eassumption.
  - intros d s l rest H. rewrite pe_S in H. destruct (parse_value f d s) as [[v r0]|] eqn:P; [|discriminate].
    apply IV in P. destruct (next_is x5d r0) as [r'|] eqn:N1.
    + inversion H; subst. apply next_is_Some in N1. eapply RE_one; eassumption.
    + destruct (next_is x2c r0) as [r'|] eqn:N2; [|discriminate]. apply next_is_Some in N2.
      destruct (parse_elems f d r') as [[l0 r1]|] eqn:Pe; [|discriminate]. inversion H; subst.
      eapply RE_more; eauto.
  - intros d s ms rest H. rewrite pm_S in H. destruct (next_is x22 s) as [r|] eqn:N0; [|discriminate].
    apply next_is_Some in N0. destruct (scan_string r) as [[k r0]|] eqn:Ss; [|discriminate].
    destruct (next_is x3a r0) as [r1|] eqn:N1; [|discriminate]. apply next_is_Some in N1.
    destruct (parse_value f d r1) as [[v r2]|] eqn:P; [|discriminate]. apply IV in P.
    destruct (next_is x7d r2) as [r'|] eqn:N2.
    + inversion H; subst. apply next_is_Some in N2. eapply RM_one; eassumption.
    + destruct (next_is x2c r2) as [r3|] eqn:N3; [|discriminate]. apply next_is_Some in N3.
      destruct (parse_members f d r3) as [[ms0 r4]|] eqn:Pm; [|discriminate]. inversion H; subst.
      eapply RM_more; eauto.
Qed.

Corollary parse_value_reads f d s t rest : parse_value f d s = Some (t, rest) -> reads_value d s t rest.
Proof. apply reader_sound. Qed.

Corollary parse_elems_reads f d s l rest : parse_elems f d s = Some (l, rest) -> reads_elems d s l rest.
Proof. apply reader_sound. Qed.

Corollary parse_members_reads f d s ms rest : parse_members f d s = Some (ms, rest) -> reads_members d s ms rest.
Proof. apply reader_sound. Qed.

Lemma reads_elems_nonempty d s l rest : reads_elems d s l rest -> l <> [].
Proof. destruct 1; discriminate. Qed.

Lemma reads_members_nonempty d s ms rest : reads_members d s ms rest -> ms <> [].
Proof. destruct 1; discriminate. Qed.

Corollary parse_reads bs t : parse bs = Some t -> exists rest, reads_value max_depth bs t rest /\ skip_ws rest = [].
Proof.
  unfold parse. destruct (parse_value (parse_fuel bs) max_depth bs) as [[t' rest]|] eqn:E; [|discriminate].
  destruct (skip_ws rest) eqn:W; [|discriminate]. intro H. inversion H; subst. exists rest.
  split; [exact (parse_value_reads _ _ _ _ _ E) | exact W].
Qed.
