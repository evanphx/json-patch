(* V4LimitFacts.v — C12 / C18 for the LEGACY root package (ImplV4): the accumulated copy-size limit
   (the package variable AccumulatedCopySizeLimit, g_limit; the counter accumulatedCopySize, acc4),
   proved of the model ImplV4.step4 / apply4_from / api_apply4 for EVERY operation list, every
   document and every setting of the package variables (no domain hypothesis).

   1  where errors come from: the leaf functions (con4_get/add/set/remove, op_str) never return the
      limit error; the one place that does is the comparison in the copy case (step4_copy_reach).
      copy_reach4 / copy_src4 / copy_probe4 / copy_over4 name the source value a copy hands to
      deepCopy, the size deepCopy reports for it and the total the limit error reports.
   2  v4_limit_error_iff, v4_limit_error_only_when_exceeded (the error, exactly);
      v4_zero_disables (a limit <= 0 disables the check);
      v4_others_do_not_count, v4_copy_counts (what each operation adds to the counter);
      v4_total_is_sum (the counter after a run is the sum of the sizes of its copies);
      v4_total_within_limit; v4_limit_stops_with_no_document (api level).
   3  v4_counted_size_is_spelling_length: the size counted is the byte length of marshal4 of the source
      (members sorted, HTML escaping on), which is also the spelling of the node stored; a copied
      nil counts 0 (or the fixed g_nullsz).
   4  the bytes of the output: the node a successful copy stores is a descendant of the new tree,
      hence its spelling (whose length was counted) is a contiguous part of the compact output
      (v4_copy_step_spelling, v4_copy_last_output, v4_copy_in_patch_output).  The invariant needed
      (member names of every Go map distinct: nnd) holds of every parsed document and is kept by
      every operation (step4_nnd, apply4_from_nnd).
   5  non-vacuity by computation. *)
From Coq Require Import Lia.
From Coq Require Import Permutation.
From JP Require Import Bytes Json Text Strings Den Pointer ImplV5 ImplMerge ImplV4 DecodeFacts JsonFacts
                       ListFacts ApplyFacts Totality TotalityV4 PrintParse Scan V4ApplySim V4Inv SizeFacts V4OutputFacts.

(* ================================================================================================ *)
(* 1. where errors come from                                                                         *)
(* ================================================================================================ *)
(* a result that is not the limit error *)
Definition nocl {A} (r : res A) : Prop :=
  match r with Err e => is_copy_limit e = false | _ => True end.
(* ... and not a success either *)
Definition plainfail {A} (r : res A) : Prop :=
  match r with Ok _ => False | Err e => is_copy_limit e = false | Panic => True end.

Lemma plainfail_nocl {A} (r : res A) : plainfail r -> nocl r.
Proof. destruct r; cbn; auto. Qed.

Lemma post_nocl {A} (R : A -> Prop) (r : res A) : post R (nolimit false) False r -> nocl r.
Proof. destruct r; cbn; auto. Qed.

Lemma con4_set_nocl g c key v : nocl (con4_set g c key v).
Proof.
  destruct c as [obj| |ns]; cbn [con4_set nocl]; auto.
  destruct (ary_set (o5 g) ns key v) as [ns'|e|] eqn:E; cbn [nocl]; auto.
  apply plain_nocl. eapply ary_set_err; eauto.
Qed.

Lemma upd_nocl {A} (r : res con4) c (a : A) : nocl r -> nocl (fst (upd r c a)).
Proof. destruct r; cbn; auto. Qed.

Lemma find4_nocl {A} g c path (f : con4 -> bytes -> res A * con4) r c' :
  (forall c0 key, nocl (fst (f c0 key))) -> find4 g c path f = (Some r, c') -> nocl r.
Proof.
  intros Hf H. apply (proj2 (find4_inv any_closed4 nocl g c path f (fun c0 key _ => conj (Hf c0 key) I) I)).
  rewrite H. reflexivity.
Qed.

Lemma lift4_nocl {A} (r : option (res A) * con4) st (k : A -> con4 -> res state4) :
  (forall a, fst r = Some a -> nocl a) -> (forall a c, nocl (k a c)) -> nocl (lift4 r st k).
Proof.
  intros Hr Hk. destruct r as [[[a|e|]|] c]; cbn [lift4 fst] in *.
  - apply Hk.
  - apply (Hr (Err e) eq_refl).
  - exact I.
  - reflexivity.
Qed.

Lemma find4_lift_nocl {A} g c path (f : con4 -> bytes -> res A * con4) st (k : A -> con4 -> res state4) :
  (forall c0 key, nocl (fst (f c0 key))) -> (forall a c1, nocl (k a c1)) ->
  nocl (lift4 (find4 g c path f) st k).
Proof.
  intros Hf Hk. apply lift4_nocl; [|exact Hk].
  intros a E. destruct (find4 g c path f) as [r c'] eqn:F. cbn [fst] in E. subst r.
  eapply find4_nocl; eauto.
Qed.

Lemma replace_fn4_nocl g v c0 key : nocl (fst (replace_fn4 g v c0 key)).
Proof. exact (post_nocl _ _ (proj1 (replace_fn4_post any_closed4 g v c0 key I I))). Qed.

Lemma move_src_fn4_nocl g c0 key : nocl (fst (move_src_fn4 g c0 key)).
Proof. exact (post_nocl _ _ (proj1 (move_src_fn4_post any_closed4 g c0 key I))). Qed.

Lemma test_fn4_nocl g op c0 key : nocl (fst (test_fn4 g op c0 key)).
Proof. exact (post_nocl _ _ (proj1 (test_fn4_post any_closed4 g op c0 key I))). Qed.

(* an operation that is not a copy never returns the limit error *)
Theorem step4_noncopy_nocl g st op : op_kind op <> KCopy -> nocl (step4 g st op).
Proof.
  intro K. pose proof (step4_post_any g st op) as P.
  assert (E : is_copy (op_kind op) = false) by (destruct (op_kind op); try reflexivity; congruence).
  rewrite E in P. exact (post_nocl _ _ P).
Qed.

(* ---- the copy: how far it gets ---- *)
(* the copy reaches deepCopy: the source value it hands over, the document it then adds to, the
   destination path *)
Definition copy_reach4 (g : opts4) (st : state4) (op : operation) : option (node * con4 * bytes) :=
  match op_str op (B "from") with
  | Ok from =>
      match find4 g (r4 st) from (get_fn4 g) with
      | (Some (Ok _), c1) =>
          match op_str op (B "path") with
          | Ok path =>
              match find4 g c1 path unit_fn4 with
              | (Some _, c2) =>
                  match find4 g c2 from (get_fn4 g) with
                  | (Some (Ok v), _) => Some (v, c2, path)
                  | _ => None
                  end
              | (None, _) => None
              end
          | _ => None
          end
      | _ => None
      end
  | _ => None
  end.

Definition copy_src4 (g : opts4) (st : state4) (op : operation) : option node :=
  match copy_reach4 g st op with Some (v, _, _) => Some v | None => None end.

(* the number of bytes deepCopy reports for this copy, if the copy gets as far as deepCopy *)
Definition copy_probe4 (g : opts4) (st : state4) (op : operation) : option Z :=
  match copy_src4 g st op with Some v => Some (snd (deep_copy4 g v)) | None => None end.

Definition over4 (g : opts4) (st : state4) (sz : Z) : bool :=
  ((0 <? g_limit g)%Z && (g_limit g <? acc4 st + sz)%Z)%bool.

(* the total the limit error reports, when this operation is a copy that trips the limit *)
Definition copy_over4 (g : opts4) (st : state4) (op : operation) : option Z :=
  match op_kind op with
  | KCopy =>
      match copy_probe4 g st op with
      | Some sz => if over4 g st sz then Some (acc4 st + sz)%Z else None
      | None => None
      end
  | _ => None
  end.

Definition copy_tail4 (g : opts4) (st : state4) (v : node) (c2 : con4) (path : bytes) : res state4 :=
  if over4 g st (snd (deep_copy4 g v)) then Err (ECopyLimit (g_limit g) (acc4 st + snd (deep_copy4 g v)))
  else lift4 (find4 g c2 path (add_fn4 g (fst (deep_copy4 g v)))) st
             (fun _ c3 => Ok (mkState4 c3 (acc4 st + snd (deep_copy4 g v)))).

Theorem step4_copy_reach g st op : op_kind op = KCopy ->
  match copy_reach4 g st op with
  | Some (v, c2, path) => step4 g st op = copy_tail4 g st v c2 path
  | None => plainfail (step4 g st op)
  end.
Proof.
  intro K. rewrite (step4_copy g st op K). unfold copy_reach4.
  assert (Get : forall c from e c', find4 g c from (get_fn4 g) = (Some (Err e), c') -> is_copy_limit e = false).
  { intros c from e c' F.
    exact (find4_nocl g c from (get_fn4 g) (Err e) c' (fun c0 key => post_nocl _ _ (con4_get_post any_closed4 g c0 key I)) F). }
  pose proof (op_str_post op (B "from")) as P1.
  destruct (op_str op (B "from")) as [from|e|]; cbn [plainfail post] in *; auto.
  destruct (find4 g (r4 st) from (get_fn4 g)) as [[[v0|e|]|] c1] eqn:F1; cbn [lift4 plainfail]; eauto.
  destruct (op_str op (B "path")) as [path|e|]; cbn [plainfail]; auto.
  destruct (find4 g c1 path unit_fn4) as [[u|] c2]; cbn [plainfail]; auto.
  destruct (find4 g c2 from (get_fn4 g)) as [[[v|e|]|] c3] eqn:F3; cbn [lift4 plainfail]; eauto.
  unfold copy_tail4, over4. destruct (deep_copy4 g v) as [cp sz]. cbn [fst snd]. reflexivity.
Qed.

(* the tail of a copy: the limit error, or an error that is not the limit error, or a new state with
   the size added *)
Lemma copy_tail4_cases g st v c2 path :
  let sz := snd (deep_copy4 g v) in
  if over4 g st sz then copy_tail4 g st v c2 path = Err (ECopyLimit (g_limit g) (acc4 st + sz))
  else nocl (copy_tail4 g st v c2 path) /\
       forall st', copy_tail4 g st v c2 path = Ok st' ->
                   acc4 st' = (acc4 st + sz)%Z /\
                   exists u, find4 g c2 path (add_fn4 g (fst (deep_copy4 g v))) = (Some (Ok u), r4 st').
Proof.
  cbv zeta. unfold copy_tail4. destruct (over4 g st (snd (deep_copy4 g v))); [reflexivity|]. split.
  - apply find4_lift_nocl; [|intros; exact I].
    intros c0 key. exact (post_nocl _ _ (proj1 (add_fn4_post any_closed4 g _ c0 key I I))).
  - intros st'. destruct (find4 g c2 path (add_fn4 g (fst (deep_copy4 g v)))) as [[[u|e|]|] c3]; cbn [lift4]; try discriminate.
    intro H; inversion H; subst. cbn [acc4 r4]. split; [reflexivity | exists u; reflexivity].
Qed.

Lemma over4_true g st sz : over4 g st sz = true <-> (0 < g_limit g)%Z /\ (g_limit g < acc4 st + sz)%Z.
Proof. unfold over4. rewrite andb_true_iff, !Z.ltb_lt. tauto. Qed.

Lemma copy_over4_inv g st op total :
  copy_over4 g st op = Some total <->
  op_kind op = KCopy /\ exists v, copy_src4 g st op = Some v /\ total = (acc4 st + snd (deep_copy4 g v))%Z /\
                                  (0 < g_limit g)%Z /\ (g_limit g < total)%Z.
Proof.
  unfold copy_over4, copy_probe4. split.
  - destruct (op_kind op); try discriminate. destruct (copy_src4 g st op) as [v|]; [|discriminate].
    destruct (over4 g st (snd (deep_copy4 g v))) eqn:O; [|discriminate]. apply over4_true in O as [O1 O2].
    intro H; inversion H; subst. split; [reflexivity|]. exists v. auto.
  - intros [K [v [HS [-> [L1 L2]]]]]. rewrite K, HS.
    destruct (over4 g st (snd (deep_copy4 g v))) eqn:O; [reflexivity|].
    assert (T : over4 g st (snd (deep_copy4 g v)) = true) by (apply over4_true; auto). congruence.
Qed.

(* the limit error of one operation, exactly *)
Theorem step4_limit_iff g st op l a :
  step4 g st op = Err (ECopyLimit l a) <-> (copy_over4 g st op = Some a /\ l = g_limit g).
Proof.
  destruct (opk_eq_copy (op_kind op)) as [K|K].
  - pose proof (step4_copy_reach g st op K) as R. unfold copy_over4, copy_probe4, copy_src4. rewrite K.
    destruct (copy_reach4 g st op) as [[[v c2] path]|].
    + rewrite R. pose proof (copy_tail4_cases g st v c2 path) as T. cbv zeta in T.
      destruct (over4 g st (snd (deep_copy4 g v))).
      * rewrite T. split; [intro H; inversion H; subst; auto | intros [H ->]; inversion H; subst; reflexivity].
      * destruct T as [T _]. split; [|intros [H _]; discriminate].
        intro H. rewrite H in T. discriminate T.
    + split; [|intros [H _]; discriminate]. intro H. rewrite H in R. discriminate R.
  - pose proof (step4_noncopy_nocl g st op K) as N. unfold copy_over4.
    split; [intro H; rewrite H in N; discriminate N|].
    destruct (op_kind op); try congruence; intros [H _]; discriminate.
Qed.

(* ================================================================================================ *)
(* 2. what each operation adds to the counter; the run                                               *)
(* ================================================================================================ *)
Lemma lift4_acc {A} (r : option (res A) * con4) st (k : A -> con4 -> res state4) x st' :
  (forall a c st1, k a c = Ok st1 -> acc4 st1 = x) -> lift4 r st k = Ok st' -> acc4 st' = x.
Proof.
  intros Hk. destruct r as [[[a|e|]|] c]; cbn [lift4]; try discriminate. apply Hk.
Qed.

Lemma keep_acc_acc st (u : unit) c st1 : keep_acc st u c = Ok st1 -> acc4 st1 = acc4 st.
Proof. unfold keep_acc. intro H; inversion H; reflexivity. Qed.

Theorem v4_others_do_not_count g st op st' :
  op_kind op <> KCopy -> step4 g st op = Ok st' -> acc4 st' = acc4 st.
Proof.
  intros K E. pose proof (step4_post_any g st op) as P. rewrite E in P. apply P.
  destruct (op_kind op); try reflexivity; congruence.
Qed.

(* a successful copy reached deepCopy with a source value v, adds exactly the size deepCopy reports
   for v, the total stays within a positive limit, and the node deepCopy made was added at the path *)
Theorem v4_copy_counts g st op st' :
  op_kind op = KCopy -> step4 g st op = Ok st' ->
  exists v c2 path u,
    copy_reach4 g st op = Some (v, c2, path) /\
    acc4 st' = (acc4 st + snd (deep_copy4 g v))%Z /\
    over4 g st (snd (deep_copy4 g v)) = false /\
    find4 g c2 path (add_fn4 g (fst (deep_copy4 g v))) = (Some (Ok u), r4 st').
Proof.
  intros K H. pose proof (step4_copy_reach g st op K) as R.
  destruct (copy_reach4 g st op) as [[[v c2] path]|]; [|rewrite H in R; destruct R].
  rewrite R in H. pose proof (copy_tail4_cases g st v c2 path) as T. cbv zeta in T.
  destruct (over4 g st (snd (deep_copy4 g v))) eqn:O; [rewrite T in H; discriminate|].
  destruct T as [_ T]. destruct (T st' H) as [A [u F]]. exists v, c2, path, u. auto.
Qed.

Corollary v4_copy_adds_probe g st op st' :
  op_kind op = KCopy -> step4 g st op = Ok st' ->
  exists sz, copy_probe4 g st op = Some sz /\ acc4 st' = (acc4 st + sz)%Z.
Proof.
  intros K H. destruct (v4_copy_counts g st op st' K H) as [v [c2 [path [u [R [A _]]]]]].
  exists (snd (deep_copy4 g v)). unfold copy_probe4, copy_src4. rewrite R. auto.
Qed.

Theorem step4_acc g st op st' :
  step4 g st op = Ok st' ->
  match op_kind op with
  | KCopy => exists sz, copy_probe4 g st op = Some sz /\ acc4 st' = (acc4 st + sz)%Z
  | _ => acc4 st' = acc4 st
  end.
Proof.
  intro H. destruct (op_kind op) eqn:K; try (apply (v4_others_do_not_count g st op st'); [congruence | exact H]).
  apply v4_copy_adds_probe; assumption.
Qed.

Lemma step4_within g st op st' :
  step4 g st op = Ok st' -> (0 < g_limit g)%Z -> (acc4 st <= g_limit g)%Z -> (acc4 st' <= g_limit g)%Z.
Proof.
  intros H L A. destruct (opk_eq_copy (op_kind op)) as [K|K].
  - destruct (v4_copy_counts g st op st' K H) as [v [c2 [path [u [_ [E [O _]]]]]]]. rewrite E.
    unfold over4 in O. apply andb_false_iff in O as [O|O]; apply Z.ltb_ge in O; lia.
  - rewrite (v4_others_do_not_count g st op st' K H). exact A.
Qed.

(* an error of the run is the error of its first failing operation *)
Theorem apply4_err_split g p : forall i st e k,
  apply4_from g i st p = (Err e, k) <->
  exists p1 op p2 st1, p = p1 ++ op :: p2 /\ k = (i + length p1)%nat /\
                       apply4_from g i st p1 = (Ok st1, k) /\ step4 g st1 op = Err e.
Proof.
  intros i st e k. split.
  - revert i st. induction p as [|op p IH]; intros i st; cbn [apply4_from]; [discriminate|].
    destruct (step4 g st op) as [st1|e1|] eqn:E; [| |discriminate].
    + intro H. apply IH in H as [p1 [op1 [p2 [st2 [-> [-> [A HS]]]]]]]. exists (op :: p1), op1, p2, st2.
      cbn [apply4_from length]. rewrite E. replace (i + S (length p1))%nat with (S i + length p1)%nat by lia. auto.
    + intro H; inversion H; subst. exists [], op, p, st. cbn [length apply4_from app]. rewrite Nat.add_0_r. auto.
  - intros [p1 [op [p2 [st1 [-> [-> [A HS]]]]]]]. rewrite apply4_from_app, A. cbn [apply4_from]. rewrite HS. reflexivity.
Qed.

(* the limit error, exactly: Apply returns it at index k iff the operations before k succeeded,
   the k-th is a copy that reaches deepCopy with a source value v, the limit is positive, and the
   counter before it plus the size of v exceeds the limit; the error carries the limit and that
   total (legacy counterpart of C08_limit_error_iff, Properties/C08.v) *)
Theorem v4_limit_error_iff g p i st k l a :
  apply4_from g i st p = (Err (ECopyLimit l a), k) <->
  exists p1 op p2 st1 v,
    p = p1 ++ op :: p2 /\ k = (i + length p1)%nat /\ apply4_from g i st p1 = (Ok st1, k) /\
    op_kind op = KCopy /\ copy_src4 g st1 op = Some v /\
    (0 < g_limit g)%Z /\ l = g_limit g /\
    a = (acc4 st1 + snd (deep_copy4 g v))%Z /\ (g_limit g < a)%Z.
Proof.
  rewrite apply4_err_split. split.
  - intros [p1 [op [p2 [st1 [Hp [Hk [A HS]]]]]]]. apply step4_limit_iff in HS as [HS ->].
    apply copy_over4_inv in HS as [K [v [Sv [Ha [L1 L2]]]]].
    exists p1, op, p2, st1, v. repeat (split; [assumption || reflexivity|]). assumption.
  - intros [p1 [op [p2 [st1 [v [Hp [Hk [A [K [Sv [L1 [-> [Ha L2]]]]]]]]]]]]].
    exists p1, op, p2, st1. repeat (split; [assumption|]).
    apply step4_limit_iff. split; [|reflexivity]. apply copy_over4_inv. split; [exact K|]. exists v. auto.
Qed.

(* from index 0, in the form of ApplyFacts.apply_limit_error *)
Theorem v4_limit_error_only_when_exceeded g p st k l a :
  apply4_from g 0 st p = (Err (ECopyLimit l a), k) ->
  exists op, nth_error p k = Some op /\ op_kind op = KCopy /\
             (0 < g_limit g)%Z /\ l = g_limit g /\ (g_limit g < a)%Z /\
             exists st1 v, apply4_from g 0 st (firstn k p) = (Ok st1, k) /\
                           copy_src4 g st1 op = Some v /\ a = (acc4 st1 + snd (deep_copy4 g v))%Z.
Proof.
  intro H. apply v4_limit_error_iff in H as [p1 [op [p2 [st1 [v [-> [-> [A [K [Sv [L1 [-> [Ha L2]]]]]]]]]]]]].
  cbn [Nat.add] in *. exists op. split; [apply nth_error_mid|]. repeat (split; [assumption || reflexivity|]).
  exists st1, v. rewrite firstn_app, firstn_all, Nat.sub_diag. cbn [firstn]. rewrite app_nil_r. auto.
Qed.

(* a limit that is not positive disables the check *)
Theorem step4_zero_never g st op l a : (g_limit g <= 0)%Z -> step4 g st op <> Err (ECopyLimit l a).
Proof. intros Z0 H. apply step4_limit_iff in H as [H _]. apply copy_over4_inv in H as [_ [v [_ [_ [L _]]]]]. lia. Qed.

Theorem v4_zero_disables g p i st k l a :
  (g_limit g <= 0)%Z -> apply4_from g i st p <> (Err (ECopyLimit l a), k).
Proof. intros Z0 H. apply v4_limit_error_iff in H as [p1 [op [p2 [st1 [v [_ [_ [_ [_ [_ [L _]]]]]]]]]]]. lia. Qed.

Theorem v4_total_within_limit g : forall p i st st' j,
  apply4_from g i st p = (Ok st', j) -> (0 < g_limit g)%Z -> (acc4 st <= g_limit g)%Z -> (acc4 st' <= g_limit g)%Z.
Proof.
  induction p as [|op p IH]; intros i st st' j; cbn [apply4_from].
  - intro H; inversion H; subst; auto.
  - destruct (step4 g st op) as [st1|e|] eqn:E; try discriminate. intros H L A.
    apply (IH (S i) st1 st' j H L). apply (step4_within g st op st1 E L A).
Qed.

(* the counter is the sum of the sizes deepCopy reported for the copies of the run *)
Definition op_size4 (g : opts4) (st : state4) (op : operation) : Z :=
  match op_kind op with
  | KCopy => match copy_probe4 g st op with Some sz => sz | None => 0%Z end
  | _ => 0%Z
  end.

Fixpoint sizes4 (g : opts4) (st : state4) (p : list operation) : Z :=
  match p with
  | [] => 0%Z
  | op :: rest =>
      match step4 g st op with
      | Ok st' => (op_size4 g st op + sizes4 g st' rest)%Z
      | _ => 0%Z
      end
  end.

Lemma step4_acc_size g st op st' : step4 g st op = Ok st' -> acc4 st' = (acc4 st + op_size4 g st op)%Z.
Proof.
  intro H. pose proof (step4_acc g st op st' H) as A. unfold op_size4.
  destruct (op_kind op); try lia. destruct A as [sz [-> ->]]. reflexivity.
Qed.

Theorem v4_total_is_sum g : forall p i st st' j,
  apply4_from g i st p = (Ok st', j) -> acc4 st' = (acc4 st + sizes4 g st p)%Z.
Proof.
  induction p as [|op p IH]; intros i st st' j; cbn [apply4_from sizes4].
  - intro H; inversion H; subst; lia.
  - destruct (step4 g st op) as [st1|e|] eqn:E; try discriminate. intro H.
    rewrite (IH (S i) st1 st' j H), (step4_acc_size g st op st1 E). lia.
Qed.

Lemma api_apply4_parse_none g indent p doc : doc <> [] -> parse doc = None -> api_apply4 g indent p doc = Err4 None EInvalid.
Proof. intros D P. destruct doc as [|b doc]; [congruence|]. unfold api_apply4. rewrite P. reflexivity. Qed.

(* the api: stopped by the limit, Apply / ApplyIndent return the error and no document; and it is
   the only way the api returns the limit error *)
Theorem v4_limit_stops_with_no_document g indent p doc j l a :
  api_apply4 g indent p doc = Err4 j (ECopyLimit l a) <->
  exists t c k, doc <> [] /\ parse doc = Some t /\ start4 t = Some c /\ j = Some k /\
                apply4_from g 0 (mkState4 c 0) p = (Err (ECopyLimit l a), k).
Proof.
  split.
  - destruct doc as [|b doc]; [discriminate|].
    destruct (parse (b :: doc)) as [t|] eqn:Pd.
    2: { rewrite (api_apply4_parse_none g indent p (b :: doc)); [discriminate | discriminate | exact Pd]. }
    rewrite (api_apply4_unfold g indent p b doc t Pd). destruct (start4 t) as [c|] eqn:HS; [|discriminate].
    destruct (apply4_from g 0 (mkState4 c 0) p) as [[st|e|] i] eqn:A; [discriminate | | discriminate].
    intro H; inversion H; subst. exists t, c, i. repeat (split; [assumption || reflexivity || discriminate|]). exact A.
  - intros [t [c [k [D [Pd [HS [-> A]]]]]]]. destruct doc as [|b doc]; [congruence|].
    rewrite (api_apply4_unfold g indent p b doc t Pd), HS, A. reflexivity.
Qed.

Corollary v4_api_limit_no_output g indent p doc t c k l a :
  doc <> [] -> parse doc = Some t -> start4 t = Some c ->
  apply4_from g 0 (mkState4 c 0) p = (Err (ECopyLimit l a), k) ->
  api_apply4 g indent p doc = Err4 (Some k) (ECopyLimit l a) /\
  forall out, api_apply4 g indent p doc <> Out4 out.
Proof.
  intros D P HS A.
  assert (E : api_apply4 g indent p doc = Err4 (Some k) (ECopyLimit l a)).
  { apply v4_limit_stops_with_no_document. exists t, c, k. auto. }
  split; [exact E|]. intros out H. rewrite E in H. discriminate.
Qed.

(* at the api: the error carries the package limit and a total above it; with a limit <= 0, never *)
Theorem v4_api_limit_error g indent p doc j l a :
  api_apply4 g indent p doc = Err4 j (ECopyLimit l a) ->
  (0 < g_limit g)%Z /\ l = g_limit g /\ (g_limit g < a)%Z /\
  exists k op, j = Some k /\ nth_error p k = Some op /\ op_kind op = KCopy.
Proof.
  intro H. apply v4_limit_stops_with_no_document in H as [t [c [k [_ [_ [_ [-> A]]]]]]].
  apply v4_limit_error_only_when_exceeded in A as [op [N [K [L1 [L2 [L3 _]]]]]].
  repeat (split; [assumption|]). exists k, op. auto.
Qed.

Theorem v4_api_zero_disables g indent p doc j l a :
  (g_limit g <= 0)%Z -> api_apply4 g indent p doc <> Err4 j (ECopyLimit l a).
Proof. intros Z0 H. apply v4_api_limit_error in H as [L _]. lia. Qed.

(* at the api: a document returned under a positive limit means the total stayed within it *)
Theorem v4_api_within_limit g indent p doc out :
  api_apply4 g indent p doc = Out4 out -> doc <> [] -> (0 < g_limit g)%Z ->
  exists t c st k, parse doc = Some t /\ start4 t = Some c /\
                   apply4_from g 0 (mkState4 c 0) p = (Ok st, k) /\
                   acc4 st = sizes4 g (mkState4 c 0) p /\ (acc4 st <= g_limit g)%Z.
Proof.
  intros H D L. destruct (parse doc) as [t|] eqn:Pd; [|rewrite (api_apply4_parse_none g indent p doc D Pd) in H; discriminate].
  apply (api_apply4_out g indent p doc t out Pd) in H as [tr [R _]]. apply result4_tree_inv in R as (c & st & k & HS & A & _).
  exists t, c, st, k. split; [reflexivity|]. split; [exact HS|]. split; [exact A|]. split.
  - rewrite (v4_total_is_sum g p 0%nat (mkState4 c 0) st k A). cbn [acc4]. lia.
  - apply (v4_total_within_limit g p 0%nat (mkState4 c 0) st k A L). cbn [acc4]. lia.
Qed.

(* ================================================================================================ *)
(* 3. the size counted is the length of the spelling                                                 *)
(* ================================================================================================ *)
(* legacy deepCopy: src.MarshalJSON() (marshal4: members sorted by name, HTML escaping on), the size is
   the length of those bytes, the copy is a raw message holding them.  The raw message is kept in the
   model as the escaped tree; written again (always with escaping on) it is spelled as the source. *)
(* a node that is not nil but marshals as null (the operation value null raw_nil4, the raw text null
   raw_null4, the entered nil map nil_doc4) is copied as the raw text null, counted with its 4 bytes *)
Lemma deep_copy4_fst g v : v <> NNil ->
  fst (deep_copy4 g v) = match render4 v with TNull => raw_null4 | t => NRaw (escape_tree true t) end.
Proof. destruct v; [congruence| | |]; unfold deep_copy4; cbn [fst]; destruct (render4 _); reflexivity. Qed.

Lemma deep_copy4_snd g v : v <> NNil -> snd (deep_copy4 g v) = zlen (marshal4 v).
Proof. destruct v; [congruence| | |]; reflexivity. Qed.

Theorem deep_copy4_nonnil g v : v <> NNil -> render4 v <> TNull ->
  deep_copy4 g v = (NRaw (escape_tree true (render4 v)), zlen (marshal4 v)).
Proof.
  intros N R. rewrite (surjective_pairing (deep_copy4 g v)), (deep_copy4_fst g v N), (deep_copy4_snd g v N).
  destruct (render4 v); congruence.
Qed.

(* what deepCopy stores is written as the escaped tree of the source (the raw text null for a source written null) *)
Lemma render4_deep_copy4 g v : render4 (fst (deep_copy4 g v)) = escape_tree true (render4 v).
Proof.
  destruct (ApplySim.nnil_or v) as [->|N]; [reflexivity|]. rewrite (deep_copy4_fst g v N). destruct (render4 v); reflexivity.
Qed.

Theorem v4_copy_spelled_as_source g v : marshal4 (fst (deep_copy4 g v)) = marshal4 v.
Proof. unfold marshal4. rewrite render4_deep_copy4. apply print_escape_tree. Qed.

Theorem v4_copy_spelled_as_source_pp g ind k v :
  pp true ind k (render4 (fst (deep_copy4 g v))) = pp true ind k (render4 v).
Proof. rewrite render4_deep_copy4. apply pp_escape_tree. Qed.

(* the size counted for a source that is not a nil node is the byte length of its re-encoding,
   which is the byte length of the spelling of the node stored *)
Theorem v4_counted_size_is_spelling_length g v : v <> NNil ->
  snd (deep_copy4 g v) = zlen (marshal4 v) /\
  snd (deep_copy4 g v) = zlen (marshal4 (fst (deep_copy4 g v))).
Proof.
  intro N. rewrite v4_copy_spelled_as_source. rewrite (deep_copy4_snd g v N). split; reflexivity.
Qed.

(* a nil node (an absent member, a null the decoder read; NOT the null value of an operation, which is
   the non-nil node raw_nil4 and counts 4): deepCopy
   returns nil and 0 as the code counts (g_nullsz = None), a fixed z otherwise; the copy is spelled
   with the 4 bytes null.  So for nil the size counted is NOT the length of the spelling. *)
Theorem v4_nil_size g :
  deep_copy4 g NNil = (NNil, match g_nullsz g with Some z => z | None => 0%Z end) /\ marshal4 NNil = B "null".
Proof. split; reflexivity. Qed.

Example v4_nil_counts_zero_spelled_with_four_bytes :
  snd (deep_copy4 (mkOpts4 true 0 None) NNil) = 0%Z /\ zlen (marshal4 (fst (deep_copy4 (mkOpts4 true 0 None) NNil))) = 4%Z.
Proof. vm_compute. split; reflexivity. Qed.

(* ================================================================================================ *)
(* 4. the bytes of the output                                                                         *)
(* ================================================================================================ *)
(* ---- 4a. the invariant: the member names of every Go map of the state are distinct ---- *)
Fixpoint nnd (n : node) : Prop :=
  match n with
  | NDoc _ obj =>
      NoDup (map fst obj) /\
      (fix all (m : list (bytes * node)) : Prop :=
         match m with [] => True | kv :: r => nnd (snd kv) /\ all r end) obj
  | NAry ns =>
      (fix all (l : list node) : Prop := match l with [] => True | x :: r => nnd x /\ all r end) ns
  | _ => True
  end.

Lemma nnd_doc ks obj : nnd (NDoc ks obj) <-> NoDup (map fst obj) /\ Forall (fun kv => nnd (snd kv)) obj.
Proof. cbn [nnd]. rewrite (all_fix_Forall (fun kv => nnd (snd kv)) obj). reflexivity. Qed.

Lemma nnd_ary ns : nnd (NAry ns) <-> Forall nnd ns.
Proof. exact (all_fix_Forall nnd ns). Qed.

Arguments nnd : simpl never.

Definition cnd (c : con4) : Prop := nnd (node_of_con4 c).
Definition snd4 (st : state4) : Prop := cnd (r4 st).

Lemma cnd_doc obj : cnd (DDoc obj) <-> NoDup (map fst obj) /\ Forall (fun kv => nnd (snd kv)) obj.
Proof. unfold cnd. cbn [node_of_con4]. apply nnd_doc. Qed.
Lemma cnd_ary ns : cnd (DAry ns) <-> Forall nnd ns.
Proof. unfold cnd. cbn [node_of_con4]. apply nnd_ary. Qed.
Lemma cnd_nil : cnd DDocNil.
Proof. unfold cnd. cbn [node_of_con4]. apply nnd_doc. split; constructor. Qed.

Lemma nnd_child t : nnd (child t).
Proof. destruct t; exact I. Qed.

Lemma build_obj_nnd ms : forall acc,
  NoDup (map fst acc) -> Forall (fun kv => nnd (snd kv)) acc ->
  NoDup (map fst (build_obj ms acc)) /\ Forall (fun kv => nnd (snd kv)) (build_obj ms acc).
Proof.
  intros acc N F. rewrite build_obj_with. split; [apply build_with_NoDup, N | apply build_with_Forall; [exact F|]].
  apply Forall_forall. intros; apply nnd_child.
Qed.

Lemma cnd_obj_of ms : cnd (DDoc (obj_of ms)).
Proof. apply cnd_doc. unfold obj_of. apply build_obj_nnd; constructor. Qed.

Lemma cnd_children l : cnd (DAry (map child l)).
Proof. apply cnd_ary. rewrite Forall_map. apply Forall_forall. intros t _. apply nnd_child. Qed.

Lemma into_con4_nnd n ch : nnd n -> into_con4 n = Some ch -> cnd ch.
Proof.
  intros N H. destruct n as [|t|keys obj|ns]; cbn [into_con4] in H; try discriminate.
  - destruct t; try discriminate; inversion H; subst; [apply cnd_children | apply cnd_obj_of].
  - destruct keys as [|k0 keys]; inversion H; subst; [exact N | apply cnd_nil].
  - inversion H; subst. exact N.
Qed.

Lemma nnd_closed4 : closed4 nnd.
Proof.
  split; [split; [exact I | exact nnd_ary | | |] | exact into_con4_nnd].
  - intros obj k v H E. apply nnd_doc in H as [_ H]. apply aget_In in E. rewrite Forall_forall in H. exact (H _ E).
  - intros obj k v H Hv. apply nnd_doc. apply nnd_doc in H as [N F].
    split; [apply NoDup_keys_aset; exact N | apply Forall_aset; auto].
  - intros obj k H. apply nnd_doc. apply nnd_doc in H as [N F].
    split; [apply NoDup_keys_adel; exact N | apply Forall_adel; exact F].
Qed.

Lemma upd_nnd {A} (r : res con4) c (a : A) :
  cnd c -> (forall c', r = Ok c' -> cnd c') -> cnd (snd (upd r c a)).
Proof. intros C H. destruct r as [c'| |]; cbn [upd snd]; auto. Qed.

Lemma get_fn4_nnd g c0 key :
  cnd c0 -> (forall v, fst (get_fn4 g c0 key) = Ok v -> nnd v) /\ cnd (snd (get_fn4 g c0 key)).
Proof.
  intro C. destruct (get_fn4_post nnd_closed4 g c0 key C) as [P Q]. split; [|exact Q]. intros v E. rewrite E in P. exact P.
Qed.

Lemma replace_fn4_nnd g v c0 key : nnd v -> cnd c0 -> cnd (snd (replace_fn4 g v c0 key)).
Proof. intros Hv C. exact (proj2 (replace_fn4_post nnd_closed4 g v c0 key Hv C)). Qed.

Lemma test_fn4_nnd g op c0 key : cnd c0 -> cnd (snd (test_fn4 g op c0 key)).
Proof. intro C. exact (proj2 (test_fn4_post nnd_closed4 g op c0 key C)). Qed.

Lemma opv4_nnd op : nnd (opv4 op).
Proof. unfold opv4, op_value4. destruct (aget (B "value") op) as [[t|]|]; exact I. Qed.

Lemma deep_copy4_nnd g v : nnd (fst (deep_copy4 g v)).
Proof.
  destruct (deep_copy4_cases g v) as [E|[E|E]]; rewrite E; try exact I.
  apply nnd_doc. split; constructor.
Qed.

(* the source a copy hands to deepCopy was read from a document with the invariant *)
Lemma copy_reach4_nnd g st op v c2 path : snd4 st -> copy_reach4 g st op = Some (v, c2, path) -> cnd c2.
Proof.
  intros HS R. unfold snd4 in HS. unfold copy_reach4 in R. destruct (op_str op (B "from")) as [from| |]; try discriminate.
  pose proof (find4_read_inv nnd_closed4 g (r4 st) from (get_fn4 g) (fun _ _ => eq_refl) HS) as C1.
  destruct (find4 g (r4 st) from (get_fn4 g)) as [[[v0|e|]|] c1]; cbn [fst snd] in *; try discriminate.
  destruct (op_str op (B "path")) as [path'| |]; try discriminate.
  pose proof (find4_read_inv nnd_closed4 g c1 path' unit_fn4 (fun _ _ => eq_refl) C1) as C2.
  destruct (find4 g c1 path' unit_fn4) as [[u'|] c2']; cbn [fst snd] in *; try discriminate.
  destruct (find4 g c2' from (get_fn4 g)) as [[[v'|e|]|] c3]; try discriminate.
  inversion R; subst. exact C2.
Qed.

Theorem step4_nnd g st op st' : snd4 st -> step4 g st op = Ok st' -> snd4 st'.
Proof. intros HS. apply (step4_inv nnd_closed4 I (fun g v _ => deep_copy4_nnd g v) g st op st' HS). intros t _. exact I. Qed.

Theorem apply4_from_nnd g : forall p i st st' j, snd4 st -> apply4_from g i st p = (Ok st', j) -> snd4 st'.
Proof.
  intros p i st st' j HS. apply (apply4_from_inv nnd_closed4 I (fun g v _ => deep_copy4_nnd g v) g p i st st' j HS).
  apply Forall_forall. intros op _ t _. exact I.
Qed.

Lemma start4_nnd t c : start4 t = Some c -> cnd c.
Proof.
  destruct t; cbn [start4]; try discriminate; intro H; inversion H; subst;
    [apply cnd_nil | apply cnd_children | apply cnd_obj_of].
Qed.

(* ---- 4b. what render4 shows of a node: every member of a map with distinct names, every element ---- *)
Definition nchild4 (sub n : node) : Prop :=
  match n with
  | NDoc [] obj => NoDup (map fst obj) /\ exists k, In (k, sub) obj   (* a live map; the tagged nodes are written as null *)
  | NAry ns => In sub ns
  | _ => False
  end.

Inductive subnode4 (sub : node) : node -> Prop :=
| subnode4_refl : subnode4 sub sub
| subnode4_step m n : nchild4 m n -> subnode4 sub m -> subnode4 sub n.

Lemma subnode4_child sub n : nchild4 sub n -> subnode4 sub n.
Proof. intro H. eapply subnode4_step; [exact H | apply subnode4_refl]. Qed.

Lemma subnode4_trans a b c : subnode4 a b -> subnode4 b c -> subnode4 a c.
Proof. intros H1 H2. induction H2 as [|m t Hc Hd IH]; [exact H1|]. eapply subnode4_step; eauto. Qed.

(* sorting the members by name loses none of them when the names are distinct *)
Lemma render4_child sub n : nchild4 sub n -> tchild (render4 sub) (render4 n).
Proof.
  destruct n as [|t|keys obj|ns]; cbn [nchild4]; try contradiction.
  - destruct keys as [|k0 keys]; [|contradiction]. intros [N [k Hk]]. rewrite render4_doc. cbn [tchild]. exists (quote true k).
    apply (in_map (fun kv : bytes * tjson => (quote true (fst kv), snd kv)) _ (k, render4 sub)).
    assert (P : Permutation (sort4 (msnd render4 obj)) (msnd render4 obj))
      by (apply V4MergeFacts.sort4_perm; rewrite msnd_keys; exact N).
    apply (Permutation_in _ (Permutation_sym P)).
    apply (in_map (fun kv : bytes * node => (fst kv, render4 (snd kv))) obj (k, sub)). exact Hk.
  - intro H. cbn [render4 tchild]. apply in_map. exact H.
Qed.

Theorem render4_desc sub n : subnode4 sub n -> tdesc (render4 sub) (render4 n).
Proof.
  induction 1 as [|m n Hc Hd IH]; [apply tdesc_refl|].
  eapply tdesc_step; [apply render4_child; exact Hc | exact IH].
Qed.

(* descendant => substring: what the legacy encoder writes for a node contains, as a contiguous
   part, what it writes for every node in it *)
Theorem subnode4_output cp root : subnode4 cp root -> infix (marshal4 cp) (marshal4 root).
Proof. intro H. unfold marshal4. apply print_desc. apply render4_desc. exact H. Qed.

(* ---- 4c. the node a copy adds is in the document afterwards ---- *)
Lemma In_aset_same {A} k (v : A) m : In (k, v) (aset k v m).
Proof. apply aget_In. apply aget_aset_same. Qed.

Lemma con4_add_child g c key v c' : cnd c -> con4_add g c key v = Ok c' -> nchild4 v (node_of_con4 c').
Proof.
  intros C H. destruct c as [obj| |ns]; cbn [con4_add] in H; try discriminate.
  - inversion H; subst. cbn [node_of_con4 nchild4]. apply cnd_doc in C as [C1 _].
    split; [apply NoDup_keys_aset; exact C1 | exists key; apply In_aset_same].
  - destruct (ary_add (o5 g) ns key v) as [ns'| |] eqn:E; inversion H; subst.
    cbn [node_of_con4 nchild4]. eapply ary_add_In; eauto.
Qed.

(* putting a container back where a get found a node that could be entered makes it a visible member
   (no condition on the token: the legacy get has no special case for the empty name) *)
Lemma con4_put_child g c key x ch0 ch :
  cnd c -> con4_get g c key = Ok x -> into_con4 x = Some ch0 -> nchild4 ch (node_of_con4 (con4_put g c key ch)).
Proof.
  intros C G IC. destruct c as [obj| |ns]; cbn [con4_get con4_put] in *.
  - cbn [node_of_con4 nchild4]. apply cnd_doc in C as [C1 _].
    split; [apply NoDup_keys_aset; exact C1 | exists key; apply In_aset_same].
  - inversion G; subst. discriminate.
  - destruct (resolve_idx_get (o5 g) (zlen ns) key) as [i| |]; try discriminate.
    cbn [node_of_con4 nchild4]. apply in_elt.
Qed.

Lemma walk4_add_subnode g v key parts : forall c u c3,
  cnd c -> walk4 g parts c (fun c' => add_fn4 g v c' key) = (Some (Ok u), c3) ->
  subnode4 v (node_of_con4 c3).
Proof.
  induction parts as [|p rest IH]; intros c u c3 C; cbn [walk4].
  - unfold add_fn4. destruct (con4_add g c key v) as [c''| |] eqn:E; cbn [upd]; intro H; inversion H; subst.
    apply subnode4_child. eapply con4_add_child; eauto.
  - destruct (con4_get g c (decode_token p)) as [next| |] eqn:G; try discriminate.
    destruct (into_con4 next) as [ch|] eqn:IC; [|discriminate].
    pose proof (con4_get_post nnd_closed4 g c (decode_token p) C) as Cch. rewrite G in Cch. apply (into_con4_nnd next ch) in Cch; [|exact IC].
    destruct (walk4 g rest ch (fun c' => add_fn4 g v c' key)) as [r' ch'] eqn:W.
    intro H; inversion H; subst.
    eapply subnode4_step; [eapply con4_put_child; eauto|].
    eapply IH; eauto.
Qed.

Lemma find4_add_subnode g c path v u c3 :
  cnd c -> find4 g c path (add_fn4 g v) = (Some (Ok u), c3) -> subnode4 v (node_of_con4 c3).
Proof.
  intros C. unfold find4. destruct (split_path path) as [[parts key]|]; [|discriminate].
  apply walk4_add_subnode. exact C.
Qed.

(* the root document null is the nil map nil_doc4, written as null: the tree of every container is
   the rendering of its node *)
Lemma tree4_render4 c : tree4 c = render4 (node_of_con4 c).
Proof. destruct c; reflexivity. Qed.

(* deepCopy returns the nil node, a raw message, or the raw text null raw_null4 *)
Lemma deep_copy4_not_live_doc g v obj : fst (deep_copy4 g v) <> NDoc [] obj.
Proof. destruct (deep_copy4_cases g v) as [E|[E|E]]; rewrite E; discriminate. Qed.

(* one successful copy: the source value v it read, the node cp deepCopy made of it and its size sz;
   sz is what the counter grew by, cp is in the tree of the new state, spelled as the source, its
   spelling is a contiguous part of the compact text of the new document, and (unless v is nil) sz
   is the length of that spelling *)
Theorem v4_copy_step_spelling g st op st' :
  snd4 st -> op_kind op = KCopy -> step4 g st op = Ok st' ->
  exists v cp sz,
    copy_src4 g st op = Some v /\ deep_copy4 g v = (cp, sz) /\ acc4 st' = (acc4 st + sz)%Z /\
    marshal4 cp = marshal4 v /\
    subnode4 cp (node_of_con4 (r4 st')) /\
    infix (marshal4 cp) (output4 [] (tree4 (r4 st'))) /\
    (v <> NNil -> sz = zlen (marshal4 cp)).
Proof.
  intros HS K H. destruct (v4_copy_counts g st op st' K H) as [v [c2 [path [u [R [A [_ F]]]]]]].
  pose proof (copy_reach4_nnd g st op v c2 path HS R) as C2.
  pose proof (find4_add_subnode g c2 path _ u (r4 st') C2 F) as Sub.
  exists v, (fst (deep_copy4 g v)), (snd (deep_copy4 g v)).
  split; [unfold copy_src4; rewrite R; reflexivity|].
  split; [destruct (deep_copy4 g v); reflexivity|]. split; [exact A|].
  split; [apply v4_copy_spelled_as_source|]. split; [exact Sub|]. split.
  - cbn [output4]. rewrite tree4_render4.
    apply (subnode4_output _ _ Sub).
  - intro N. apply (proj2 (v4_counted_size_is_spelling_length g v N)).
Qed.

(* a later state: as long as the node is still in the tree its spelling is in the compact output *)
Corollary v4_copied_node_in_output cp c :
  subnode4 cp (node_of_con4 c) ->
  infix (marshal4 cp) (output4 [] (tree4 c)).
Proof. intros Sub. cbn [output4]. rewrite tree4_render4. apply (subnode4_output _ _ Sub). Qed.

(* the copy at position length p1 of a patch that Apply runs to the end on a parsed document: what it
   adds to the counter is the length of the spelling of the node it stores (nil apart), that spelling is
   in the compact text of the document right after it, and, if the node is still in the tree at the
   end, in the bytes Apply returns (no indent) *)
Theorem v4_copy_in_patch_output g p1 op p2 st0 stf j :
  snd4 st0 -> op_kind op = KCopy ->
  apply4_from g 0 st0 (p1 ++ op :: p2) = (Ok stf, j) ->
  exists st1 st2 v cp sz,
    apply4_from g 0 st0 p1 = (Ok st1, length p1) /\ step4 g st1 op = Ok st2 /\
    apply4_from g (S (length p1)) st2 p2 = (Ok stf, j) /\
    copy_src4 g st1 op = Some v /\ deep_copy4 g v = (cp, sz) /\ acc4 st2 = (acc4 st1 + sz)%Z /\
    marshal4 cp = marshal4 v /\ (v <> NNil -> sz = zlen (marshal4 cp)) /\
    infix (marshal4 cp) (output4 [] (tree4 (r4 st2))) /\
    (subnode4 cp (node_of_con4 (r4 stf)) -> infix (marshal4 cp) (output4 [] (tree4 (r4 stf)))).
Proof.
  intros HS K H. rewrite apply4_from_app in H.
  destruct (apply4_from g 0 st0 p1) as [[st1|e|] j1] eqn:A1; try discriminate.
  pose proof (apply4_from_ok_index g p1 0%nat st0 st1 j1 A1) as Ej. cbn [Nat.add] in Ej. subst j1.
  cbn [apply4_from] in H. destruct (step4 g st1 op) as [st2|e|] eqn:St; try discriminate.
  pose proof (apply4_from_nnd g p1 0%nat st0 st1 _ HS A1) as S1.
  destruct (v4_copy_step_spelling g st1 op st2 S1 K St) as [v [cp [sz [Sv [D [A [Sp [Sub [Inf Z]]]]]]]]].
  exists st1, st2, v, cp, sz. repeat (split; [assumption || reflexivity|]).
  intro Sf. apply v4_copied_node_in_output. exact Sf.
Qed.

(* the copy is the last operation of a patch applied to a parsed document: the bytes Apply returns
   contain the copy's spelling and its length is what the copy added to the counter *)
Theorem v4_copy_last_output g p1 op doc t c out :
  parse doc = Some t -> start4 t = Some c -> op_kind op = KCopy ->
  api_apply4 g [] (p1 ++ [op]) doc = Out4 out ->
  exists st1 st2 v cp sz,
    apply4_from g 0 (mkState4 c 0) p1 = (Ok st1, length p1) /\ step4 g st1 op = Ok st2 /\
    copy_src4 g st1 op = Some v /\ deep_copy4 g v = (cp, sz) /\ acc4 st2 = (acc4 st1 + sz)%Z /\
    marshal4 cp = marshal4 v /\ (v <> NNil -> sz = zlen (marshal4 cp)) /\
    infix (marshal4 cp) out.
Proof.
  intros Pd St K H. apply (api_apply4_out g [] (p1 ++ [op]) doc t out Pd) in H as [tr [R ->]].
  unfold result4_tree in R. rewrite St in R.
  destruct (apply4_from g 0 (mkState4 c 0) (p1 ++ [op])) as [[stf|e|] j] eqn:A; try discriminate.
  inversion R; subst tr. clear R.
  destruct (v4_copy_in_patch_output g p1 op [] (mkState4 c 0) stf j (start4_nnd t c St) K A)
    as [st1 [st2 [v [cp [sz [A1 [A2 [A3 [Sv [D [Ac [Sp [Z [Inf _]]]]]]]]]]]]]].
  cbn [apply4_from] in A3. inversion A3; subst.
  exists st1, stf, v, cp, sz. repeat (split; [assumption|]). exact Inf.
Qed.

(* indented output: the codec's Compact of it (HTML escaping on) is the compact text, in which the
   copy's spelling is found *)
Theorem v4_compact_of_indented ind t :
  wsb ind = true -> twf t -> compact_go true (pp true ind 0 t) = Some (print true t).
Proof. apply compact_of_indented. Qed.

(* ================================================================================================ *)
(* 5. non-vacuity                                                                                     *)
(* ================================================================================================ *)
(* {"a":"<x>"}, copy /a to /b, copy /a to /c.  The legacy encoder always escapes HTML: the value is
   spelled with 15 bytes, each copy counts 15. *)
Definition v4_ex_doc := B "{""a"":""<x>""}".
Definition v4_ex_patch := B "[{""op"":""copy"",""from"":""/a"",""path"":""/b""},{""op"":""copy"",""from"":""/a"",""path"":""/c""}]".
Definition v4_ex_p : list operation := match api_decode4 v4_ex_patch with Some p => p | None => [] end.
Definition v4_ex_g (l : Z) : opts4 := mkOpts4 true l None.
Definition v4_ex_c : con4 := match parse v4_ex_doc with
                             | Some t => match start4 t with Some c => c | None => DDocNil end
                             | None => DDocNil end.
Definition v4_ex_sp : bytes := marshal4 (NRaw (TStr (B "<x>"))).

Example v4_ex_decodes : exists op1 op2, api_decode4 v4_ex_patch = Some [op1; op2] /\ op_kind op1 = KCopy /\ op_kind op2 = KCopy.
Proof. eexists. eexists. split; [vm_compute; reflexivity|]. split; vm_compute; reflexivity. Qed.

(* a limit strictly between the total after the first copy (15) and after the second (30): the
   error at the second copy, with the limit and the total; just below the first size: at the first
   copy; at the total, 0 and a negative limit: the document, with the three spellings *)
Example v4_nonvacuous :
  zlen v4_ex_sp = 15%Z /\
  api_apply4 (v4_ex_g 20) [] v4_ex_p v4_ex_doc = Err4 (Some 1%nat) (ECopyLimit 20 30) /\
  api_apply4 (v4_ex_g 29) [] v4_ex_p v4_ex_doc = Err4 (Some 1%nat) (ECopyLimit 29 30) /\
  api_apply4 (v4_ex_g 14) [] v4_ex_p v4_ex_doc = Err4 (Some 0%nat) (ECopyLimit 14 15) /\
  (let out := B "{""a"":" ++ v4_ex_sp ++ B ",""b"":" ++ v4_ex_sp ++ B ",""c"":" ++ v4_ex_sp ++ B "}" in
   api_apply4 (v4_ex_g 30) [] v4_ex_p v4_ex_doc = Out4 out /\
   api_apply4 (v4_ex_g 0) [] v4_ex_p v4_ex_doc = Out4 out /\
   api_apply4 (v4_ex_g (-5)) [] v4_ex_p v4_ex_doc = Out4 out).
Proof. vm_compute. repeat split; reflexivity. Qed.

(* the same with ApplyIndent: the limit error does not depend on the indent *)
Example v4_nonvacuous_indent :
  api_apply4 (v4_ex_g 20) (B "  ") v4_ex_p v4_ex_doc = Err4 (Some 1%nat) (ECopyLimit 20 30) /\
  exists out, api_apply4 (v4_ex_g 0) (B "  ") v4_ex_p v4_ex_doc = Out4 out.
Proof. vm_compute. split; [reflexivity | eexists; reflexivity]. Qed.

(* a member still held as a raw message ({"b":1, "a":[1, 2]} under /o) is re-encoded compact with its
   members in the order written: 17 bytes counted, and those 17 bytes appear in the output *)
Example v4_nonvacuous_raw_object :
  match api_decode4 (B "[{""op"":""copy"",""from"":""/o"",""path"":""/p""}]") with
  | Some p =>
      api_apply4 (v4_ex_g 1) [] p (B "{""o"":{""b"":1, ""a"":[1, 2]}}") = Err4 (Some 0%nat) (ECopyLimit 1 17) /\
      api_apply4 (v4_ex_g 0) [] p (B "{""o"":{""b"":1, ""a"":[1, 2]}}") =
        Out4 (B "{""o"":{""b"":1,""a"":[1,2]},""p"":{""b"":1,""a"":[1,2]}}")
  | None => False
  end.
Proof. vm_compute. split; reflexivity. Qed.

(* once an add has gone below /o the member is a decoded Go map: the copy re-encodes it with the
   member names sorted: 23 bytes {"a":[1,2],"b":1,"c":2} counted, and those bytes appear in the output *)
Example v4_nonvacuous_sorted_object :
  match api_decode4 (B "[{""op"":""add"",""path"":""/o/c"",""value"":2},{""op"":""copy"",""from"":""/o"",""path"":""/p""}]") with
  | Some p =>
      api_apply4 (v4_ex_g 1) [] p (B "{""o"":{""b"":1, ""a"":[1, 2]}}") = Err4 (Some 1%nat) (ECopyLimit 1 23) /\
      api_apply4 (v4_ex_g 0) [] p (B "{""o"":{""b"":1, ""a"":[1, 2]}}") =
        Out4 (B "{""o"":{""a"":[1,2],""b"":1,""c"":2},""p"":{""a"":[1,2],""b"":1,""c"":2}}")
  | None => False
  end.
Proof. vm_compute. split; reflexivity. Qed.

(* a copy of an absent member copies nil: it counts 0 (a limit of 1 lets it pass) and is written null *)
Example v4_nonvacuous_nil :
  match api_decode4 (B "[{""op"":""copy"",""from"":""/zz"",""path"":""/b""}]") with
  | Some p => api_apply4 (v4_ex_g 1) [] p (B "{""a"":1}") = Out4 (B "{""a"":1,""b"":null}")
  | None => False
  end.
Proof. vm_compute. reflexivity. Qed.

Example v4_main_theorems_apply :
  (* v4_limit_error_only_when_exceeded: under limit 20 the run stops at index 1; the theorem gives the copy, the limit and the total *)
  (exists op st1 v, nth_error v4_ex_p 1 = Some op /\ op_kind op = KCopy /\
                    apply4_from (v4_ex_g 20) 0 (mkState4 v4_ex_c 0) (firstn 1 v4_ex_p) = (Ok st1, 1%nat) /\
                    copy_src4 (v4_ex_g 20) st1 op = Some v /\
                    30%Z = (acc4 st1 + snd (deep_copy4 (v4_ex_g 20) v))%Z) /\
  (* v4_api_limit_no_output: and the api returns the error, no document *)
  (api_apply4 (v4_ex_g 20) [] v4_ex_p v4_ex_doc = Err4 (Some 1%nat) (ECopyLimit 20 30) /\
   forall out, api_apply4 (v4_ex_g 20) [] v4_ex_p v4_ex_doc <> Out4 out) /\
  (* v4_total_is_sum, v4_total_within_limit: under limit 30 the run ends and the counter, the sum of the sizes, is within the limit *)
  (exists st' j, apply4_from (v4_ex_g 30) 0 (mkState4 v4_ex_c 0) v4_ex_p = (Ok st', j) /\
                 acc4 st' = sizes4 (v4_ex_g 30) (mkState4 v4_ex_c 0) v4_ex_p /\ (acc4 st' <= 30)%Z) /\
  (* v4_zero_disables: under limit 0 no limit error *)
  (forall k l a, apply4_from (v4_ex_g 0) 0 (mkState4 v4_ex_c 0) v4_ex_p <> (Err (ECopyLimit l a), k)).
Proof.
  assert (E : apply4_from (v4_ex_g 20) 0 (mkState4 v4_ex_c 0) v4_ex_p = (Err (ECopyLimit 20 30), 1%nat))
    by (vm_compute; reflexivity).
  split; [|split; [|split]].
  - destruct (v4_limit_error_only_when_exceeded (v4_ex_g 20) v4_ex_p (mkState4 v4_ex_c 0) 1%nat 20%Z 30%Z E)
      as [op [H1 [H2 [_ [_ [_ [st1 [v [H3 [H4 H5]]]]]]]]]].
    exists op, st1, v. auto.
  - apply (v4_api_limit_no_output (v4_ex_g 20) [] v4_ex_p v4_ex_doc
             (match parse v4_ex_doc with Some t => t | None => TNull end) v4_ex_c 1%nat 20%Z 30%Z);
      [discriminate | vm_compute; reflexivity | vm_compute; reflexivity | exact E].
  - destruct (apply4_from (v4_ex_g 30) 0 (mkState4 v4_ex_c 0) v4_ex_p) as [[st'|e|] j] eqn:A;
      [|vm_compute in A; discriminate A|vm_compute in A; discriminate A].
    exists st', j. split; [reflexivity|]. split.
    + rewrite (v4_total_is_sum (v4_ex_g 30) v4_ex_p 0%nat (mkState4 v4_ex_c 0) st' j A). reflexivity.
    + apply (v4_total_within_limit (v4_ex_g 30) v4_ex_p 0%nat (mkState4 v4_ex_c 0) st' j A); [reflexivity | vm_compute; discriminate].
  - intros k l a. apply v4_zero_disables. vm_compute. discriminate.
Qed.

(* on the example: the copy that ends the one-copy patch adds 15, the length of the spelling that
   appears in the bytes returned *)
Example v4_spelling_nonvacuous :
  exists out st1 st2 v cp,
    api_apply4 (v4_ex_g 0) [] (firstn 1 v4_ex_p) v4_ex_doc = Out4 out /\
    step4 (v4_ex_g 0) st1 (nth 0 v4_ex_p []) = Ok st2 /\
    copy_src4 (v4_ex_g 0) st1 (nth 0 v4_ex_p []) = Some v /\ v <> NNil /\
    deep_copy4 (v4_ex_g 0) v = (cp, 15%Z) /\ acc4 st2 = (acc4 st1 + 15)%Z /\
    marshal4 cp = v4_ex_sp /\ zlen (marshal4 cp) = 15%Z /\ infix (marshal4 cp) out.
Proof.
  destruct (api_apply4 (v4_ex_g 0) [] (firstn 1 v4_ex_p) v4_ex_doc) as [out| |] eqn:A;
    [|vm_compute in A; discriminate A|vm_compute in A; discriminate A].
  assert (K : op_kind (nth 0 v4_ex_p []) = KCopy) by (vm_compute; reflexivity).
  assert (Pd : parse v4_ex_doc = Some (match parse v4_ex_doc with Some t => t | None => TNull end)) by (vm_compute; reflexivity).
  assert (St : start4 (match parse v4_ex_doc with Some t => t | None => TNull end) = Some v4_ex_c) by (vm_compute; reflexivity).
  assert (E1 : firstn 1 v4_ex_p = [] ++ [nth 0 v4_ex_p []]) by (vm_compute; reflexivity). rewrite E1 in A.
  destruct (v4_copy_last_output (v4_ex_g 0) [] (nth 0 v4_ex_p []) v4_ex_doc _ v4_ex_c out Pd St K A)
    as [st1 [st2 [v [cp [sz [A1 [A2 [Sv [D [Ac [Sp [Z Inf]]]]]]]]]]]].
  cbn [apply4_from length] in A1. inversion A1; subst st1.
  assert (Ev : v = NRaw (TStr (B "<x>"))) by (vm_compute in Sv; inversion Sv; reflexivity).
  subst v. assert (Nn : NRaw (TStr (B "<x>")) <> NNil) by discriminate.
  assert (Esz : sz = 15%Z) by (vm_compute in D; inversion D; reflexivity). subst sz.
  exists out, (mkState4 v4_ex_c 0), st2, (NRaw (TStr (B "<x>"))), cp.
  repeat (split; [assumption || reflexivity || exact Sp || (symmetry; apply Z; exact Nn)|]). exact Inf.
Qed.

Print Assumptions step4_limit_iff.
Print Assumptions v4_limit_error_iff.
Print Assumptions v4_limit_error_only_when_exceeded.
Print Assumptions v4_zero_disables.
Print Assumptions v4_api_zero_disables.
Print Assumptions v4_others_do_not_count.
Print Assumptions v4_copy_counts.
Print Assumptions step4_acc.
Print Assumptions v4_total_is_sum.
Print Assumptions v4_total_within_limit.
Print Assumptions v4_api_within_limit.
Print Assumptions v4_limit_stops_with_no_document.
Print Assumptions v4_api_limit_no_output.
Print Assumptions v4_api_limit_error.
Print Assumptions v4_counted_size_is_spelling_length.
Print Assumptions v4_copy_spelled_as_source.
Print Assumptions v4_nil_size.
Print Assumptions step4_nnd.
Print Assumptions apply4_from_nnd.
Print Assumptions subnode4_output.
Print Assumptions v4_copy_step_spelling.
Print Assumptions v4_copy_in_patch_output.
Print Assumptions v4_copy_last_output.
Print Assumptions v4_compact_of_indented.
Print Assumptions v4_nonvacuous.
Print Assumptions v4_main_theorems_apply.
Print Assumptions v4_spelling_nonvacuous.
