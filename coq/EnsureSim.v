(* EnsureSim.v — whole patches with EnsurePathExistsOnAdd ON (v5 model).

   AllowEnsureFacts.v relates ONE add with the option on to the reference: ensurePathExists builds
   ens (value level), the add that follows is the reference's add on that document.  This file
   builds the whole-patch statement.

   One side condition follows the reference run, next to the copy depth condition of ApplySim.v:
   no add walks into a null that sits where a parent container is needed (add_path_clear).  It
   cannot be dropped: whether the model then creates a container in place of the null or reports the
   missing path depends on how the null is REPRESENTED (a nil node, as decoded from the document,
   or a stored raw null, as left by an earlier add), which the document value does not show
   (null_parent_depends_on_representation).  The property C14 excludes nulls on the path. *)
From Coq Require Import Lia.
From JP Require Import Bytes Json Text Strings Den Pointer Rfc6902 ImplV5 DecodeFacts JsonFacts Abs EqualFacts
                       ImplFacts RefFacts ApplyFacts Depth ApplySim Domain ParseFacts AllowEnsureFacts CauseFacts.

(* 1. the options, the reference with the option on *)

Definition ensure_opts (o : opts) : Prop := o_ensure o = true /\ o_allow o = false /\ o_limit o = 0%Z.

Definition set_ensure (o : opts) (b : bool) : opts :=
  mkOpts (o_neg o) (o_limit o) (o_allow o) b (o_esc o) (o_stale o) (o_nullsz o).

Lemma set_ensure_self o : set_ensure o (o_ensure o) = o.
Proof. destruct o; reflexivity. Qed.

Lemma ensure_opts_off o : ensure_opts o -> plain_opts (set_ensure o false).
Proof. intros [_ [A L]]. split; [exact A|]. split; [reflexivity | exact L]. Qed.

(* add with the option: the whole document (path "") as without it; otherwise the missing parents
   are created first (ens, AllowEnsureFacts.v), then the RFC add runs on that document.  Where ens
   is undefined (a value that is no container, or a member name addressed in an array, stands where
   a parent is needed) nothing can be created and the location is unreachable *)
Definition rfc_ens_add (d : dialect) (doc : ojson) (toks : list bytes) (v : ojson) : Rfc6902.res ojson :=
  match toks with
  | [] => rfc_add d doc [] v
  | _ => match ens d toks doc with
         | Some doc1 => rfc_add d doc1 toks v
         | None => RFail FUnreachable
         end
  end.

Definition rfc_ens_step (d : dialect) (doc : ojson) (o : rop) : Rfc6902.res ojson :=
  match rkind o, ptr_tokens (rpath o) with
  | OpAdd, Some toks => rfc_ens_add d doc toks (value_or_null (rvalue o))
  | _, _ => rfc_step d doc o
  end.

Fixpoint rfc_ens_apply_from (d : dialect) (i : nat) (doc : ojson) (p : list rop) : outcome :=
  match p with
  | [] => Done doc
  | o :: rest =>
      match rfc_ens_step d doc o with
      | ROk doc' => rfc_ens_apply_from d (S i) doc' rest
      | RFail c => Failed i c
      end
  end.

Definition rfc_ens_apply (d : dialect) (doc : ojson) (p : list rop) : outcome := rfc_ens_apply_from d 0 doc p.

Lemma rfc_ens_step_not_add d doc o : rkind o <> OpAdd -> rfc_ens_step d doc o = rfc_step d doc o.
Proof. unfold rfc_ens_step. destruct (rkind o); try congruence; reflexivity. Qed.

(* ---- the side condition: no null where a parent container is needed ---- *)
(* the walk along the existing parents of toks meets a null (the last token is the add's own) *)
Fixpoint null_on_path (d : dialect) (toks : list bytes) (j : ojson) {struct toks} : bool :=
  match toks with
  | [] => false
  | [_] => false
  | t :: ((_ :: _) as rest) =>
      match child_at d j t with
      | Some c => if is_container c then null_on_path d rest c else onull c
      | None => false
      end
  end.

Lemma null_on_path_unfold d t next rest0 j :
  null_on_path d (t :: next :: rest0) j =
  match child_at d j t with
  | Some c => if is_container c then null_on_path d (next :: rest0) c else onull c
  | None => false
  end.
Proof. reflexivity. Qed.

Definition add_path_clear (d : dialect) (doc : ojson) (o : rop) : bool :=
  match rkind o, ptr_tokens (rpath o) with
  | OpAdd, Some toks => negb (null_on_path d toks doc)
  | _, _ => true
  end.

(* both conditions on one operation: the copy depth condition of ApplySim.v and the one above *)
Definition ens_fits (d : dialect) (doc : ojson) (o : rop) : bool := copy_fits d doc o && add_path_clear d doc o.

(* ... at every operation the reference run (with the option) reaches *)
Fixpoint ens_run_fits (d : dialect) (doc : ojson) (p : list rop) : bool :=
  match p with
  | [] => true
  | o :: rest =>
      ens_fits d doc o &&
      match rfc_ens_step d doc o with
      | ROk doc' => ens_run_fits d doc' rest
      | RFail _ => true
      end
  end.

(* ---- the domain of one operation: that of ApplySim.v, and the tokens of an add path are member
   names or canonical non-negative indices (ctok: what ensure_add_sim asks) ---- *)
Definition ens_op_dom (op : operation) : Prop :=
  op_dom op /\
  (op_kind op = KAdd -> forall r, op_str op (B "path") = Ok (x2f :: r) ->
     Forall ctok (map decode_token (split_slash r))).

(* 2. where ens is undefined *)

Lemma at_parent_noncontainer d f next rest0 c :
  (forall p t, is_container p = false -> f p t = RFail FUnreachable) ->
  is_container c = false -> at_parent d (next :: rest0) c f = RFail FUnreachable.
Proof.
  intros NC Cc. destruct rest0 as [|t2 rest1].
  - cbn [at_parent]. apply NC. exact Cc.
  - destruct c; try discriminate Cc; reflexivity.
Qed.

Lemma add_leaf_nc d v : forall p t, is_container p = false -> add_leaf d v p t = RFail FUnreachable.
Proof. intros p t Cp. apply (proj1 (leaf_noncontainer d p t Cp)). Qed.

(* reference level: where nothing can be created the plain add cannot reach the location either *)
Lemma ens_none_unreachable d f :
  (forall p t, is_container p = false -> f p t = RFail FUnreachable) ->
  forall toks j, ens d toks j = None -> at_parent d toks j f = RFail FUnreachable.
Proof.
  intros NC toks j H. assert (NE : toks <> []) by (intros ->; discriminate H).
  rewrite (app_removelast_last [] NE). change (list byte) with bytes. apply at_parent_unreachable; [exact NC|].
  (* were the parents there, ens had left the document as it is *)
  destruct (descend d (removelast toks) j) as [p|] eqn:Hd; [|exact I].
  destruct (is_container p) eqn:Cp; [|reflexivity]. rewrite (ens_all_exist d toks j p Hd Cp) in H. discriminate H.
Qed.

Lemma null_on_path_free d : forall toks j, null_on_path d toks j = false -> nullfree d toks j.
Proof.
  induction toks as [|t toks IH]; intros j H ps t' rest E NE; [destruct ps; discriminate|].
  destruct toks as [|next rest0]; [destruct ps as [|? [|]]; try discriminate; injection E as _ <-; congruence|].
  rewrite null_on_path_unfold in H. destruct ps as [|t0 ps]; cbn [app descend] in *; injection E as <- E.
  - destruct (child_at d j t) as [c|]; [|discriminate]. destruct (is_container c) eqn:C; [|intros [= ->]; discriminate].
    intros [= ->]. discriminate.
  - destruct (child_at d j t) as [c|] eqn:Ec; [|discriminate].
    destruct (is_container c) eqn:C; [exact (IH c H ps t' rest E NE)|].
    destruct (ps ++ [t']) eqn:Ea; [destruct ps; discriminate|]. cbn. destruct c; try discriminate C; discriminate.
Qed.

(* the model: ens undefined and no null on the way — ensurePathExists reports no error and leaves
   the document value as it is (the add that follows reports the missing path) *)
Lemma ensure_none_sim o : forall parts c,
  cgood c -> Forall ctok (map decode_token parts) ->
  ens (dia o) (map decode_token parts) (cval c) = None ->
  null_on_path (dia o) (map decode_token parts) (cval c) = false ->
  exists c1, ensure o parts c = (None, c1) /\ cval c1 = cval c /\ cgood c1.
Proof.
  intros parts c G D H N. destruct (ensure_spec o parts c G D) as [c1 [E [G1 V]]]. rewrite H in V.
  exists c1. split; [exact E|]. split; [exact (V (null_on_path_free _ _ _ N)) | exact G1].
Qed.

(* one add, option on, ens undefined, no null where a parent is needed: ErrMissing *)
Theorem ensure_add_none o st op r c :
  s_root st = RCon c -> cgood c -> o_ensure o = true ->
  op_str op (B "path") = Ok (x2f :: r) -> Forall ctok (map decode_token (split_slash r)) -> val_good op ->
  ens (dia o) (ptoks r) (cval c) = None -> null_on_path (dia o) (ptoks r) (cval c) = false ->
  op_add o st op = Err EMissing.
Proof.
  intros Hr G En Hp D Vg H NP.
  pose proof (ens_none_unreachable (dia o) _ (add_leaf_nc (dia o) (ref_value op)) (ptoks r) (cval c) H) as AP.
  rewrite ptoks_eq in H, NP.
  destruct (ensure_none_sim o (split_slash r) c G D H NP) as [c1 [E1 [E2 E3]]]. rewrite <- ensure_path_slash in E1.
  pose proof (ensured_add_sim o st op r c c1 Hr En Hp E1 E3 (ctok_dom _ D) Vg) as S. rewrite E2, AP in S.
  destruct S as [e [S1 S2]]. cbn [cause_rel] in S2. now subst e.
Qed.

(* 3. one operation *)

(* the reference for every setting of the two other options, on decoded operations: a remove that
   the plain reference cannot perform for a forgiven reason (AllowEnsureFacts.absent_remove) is
   skipped when allow is on; everything else is rfc_ens_step.  The copy-size limit is no part of the
   reference: it shows as the third alternative of the theorems (the limit error, at a copy) *)
Definition rfc_opt_step (allow : bool) (d : dialect) (doc : ojson) (op : operation) : Rfc6902.res ojson :=
  if allow && absent_remove d doc op then ROk doc else rfc_ens_step d doc (den_op op).

Fixpoint rfc_opt_apply_from (allow : bool) (d : dialect) (i : nat) (doc : ojson) (p : list operation) : outcome :=
  match p with
  | [] => Done doc
  | op :: rest =>
      match rfc_opt_step allow d doc op with
      | ROk doc' => rfc_opt_apply_from allow d (S i) doc' rest
      | RFail c => Failed i c
      end
  end.

Fixpoint opt_run_fits (allow : bool) (d : dialect) (doc : ojson) (p : list operation) : bool :=
  match p with
  | [] => true
  | op :: rest =>
      ens_fits d doc (den_op op) &&
      match rfc_opt_step allow d doc op with
      | ROk doc' => opt_run_fits allow d doc' rest
      | RFail _ => true
      end
  end.

Lemma absent_remove_not_remove d doc op : op_kind op <> KRemove -> absent_remove d doc op = false.
Proof. unfold absent_remove. destruct (op_kind op); congruence. Qed.

Lemma ref_kind_add k : ref_kind k = OpAdd -> k = KAdd.
Proof. destruct k; simpl; congruence. Qed.

Theorem opt_step_sim o st op :
  sgood st -> o_ensure o = true -> o_limit o = 0%Z -> ens_op_dom op ->
  ens_fits (dia o) (sval st) (den_op op) = true ->
  match rfc_opt_step (o_allow o) (dia o) (sval st) op with
  | ROk j' => exists st', step o st op = Ok st' /\ sval st' = j' /\ sgood st'
  | RFail cz => exists e, step o st op = Err e /\ cause_rel cz e
  end.
Proof.
  intros G En Lim [Dop Dadd] Fit. unfold ens_fits in Fit. apply andb_prop in Fit as [Fit Clr]. unfold rfc_opt_step.
  assert (Dec : op_kind op = KAdd \/ op_kind op <> KAdd) by (destruct (op_kind op); auto; right; discriminate).
  destruct Dec as [Ek|NA].
  2: { (* not an add: the option of this file is not consulted *)
       rewrite rfc_ens_step_not_add by (unfold den_op; cbn [rkind]; intro E; apply NA, ref_kind_add, E).
       exact (step_skip_sim o st op G (fun K => False_ind _ (NA K)) Lim Dop Fit). }
  rewrite absent_remove_not_remove, andb_false_r by congruence.
  destruct G as [c [Hr G]]. pose proof Dop as [Vg [path [Hp K]]]. rewrite Ek in K.
  pose proof (sval_con st c Hr) as SV.
  unfold rfc_ens_step, add_path_clear in *. rewrite ref_value_den_op. unfold den_op in *. cbn [rkind rpath] in *.
  rewrite Ek, Hp, SV in *. cbn [ref_kind str_or_empty] in *. unfold step. rewrite Ek.
  destruct K as [[r [-> D0]]|[-> [t [Hv NN]]]].
  - (* a location below the root *)
    pose proof (Dadd eq_refl r eq_refl) as D. rewrite ptr_tokens_slash in *. fold (ptoks r) in *.
    unfold rfc_ens_add. rewrite match_ptoks.
    destruct (ens (dia o) (ptoks r) (cval c)) as [j1|] eqn:E1.
    + unfold rfc_add. rewrite match_ptoks.
      pose proof (ensure_add_sim o st op r c j1 Hr G En Hp D Vg E1) as S.
      destruct (at_parent _ _ _ _); [destruct S as [st' [S1 [S2 [S3 _]]]]; eauto | exact S].
    + apply Bool.negb_true_iff in Clr.
      exists EMissing. split; [|reflexivity].
      exact (ensure_add_none o st op r c Hr G En Hp D Vg E1 Clr).
  - (* the whole document *)
    cbn [ptr_tokens rfc_ens_add rfc_add]. unfold ref_value. rewrite Hv.
    unfold val_good in Vg. rewrite Hv in Vg. destruct Vg as [T [L B]].
    exact (op_add_root_sim o st op t Hp Hv NN T L B).
Qed.

(* ... in particular with allow off *)
Theorem ens_step_sim o st op :
  sgood st -> ensure_opts o -> ens_op_dom op ->
  ens_fits (dia o) (sval st) (den_op op) = true ->
  match rfc_ens_step (dia o) (sval st) (den_op op) with
  | ROk j' => exists st', step o st op = Ok st' /\ sval st' = j' /\ sgood st'
  | RFail cz => exists e, step o st op = Err e /\ cause_rel cz e
  end.
Proof.
  intros G [En [Al Lim]] D F. pose proof (opt_step_sim o st op G En Lim D F) as S.
  unfold rfc_opt_step in S. rewrite Al in S. exact S.
Qed.

(* ... and under any copy-size limit: the limit error at a copy that reaches deepCopy with a size
   that pushes the total over the limit (CauseFacts.copy_over), otherwise as above *)
Theorem opt_step_sim_limit o st op :
  sgood st -> o_ensure o = true -> ens_op_dom op ->
  ens_fits (dia o) (sval st) (den_op op) = true ->
  match copy_over o st op with
  | Some total =>
      step o st op = Err (ECopyLimit (o_limit o) total) /\ op_kind op = KCopy /\
      (0 < o_limit o)%Z /\ (o_limit o < total)%Z
  | None =>
      match rfc_opt_step (o_allow o) (dia o) (sval st) op with
      | ROk j' => exists st', step o st op = Ok st' /\ sval st' = j' /\ sgood st'
      | RFail cz => exists e, step o st op = Err e /\ cause_rel cz e
      end
  end.
Proof.
  intros G En D Fit. rewrite step_split. destruct (copy_over o st op) as [total|] eqn:E.
  - split; [reflexivity|]. destruct (copy_over_inv o st op total E) as [K [sz [_ [_ [L1 L2]]]]]. auto.
  - exact (opt_step_sim (set_limit o 0) st op G En eq_refl D Fit).
Qed.

(* every setting of the options at once.  The reference on decoded operations: the step of RFC 6902, of this
   file when EnsurePathExistsOnAdd is on, and skipping the removes AllowMissingPathOnRemove forgives; the domain
   and the side condition are those of the setting.  skip_step and rfc_opt_step are all_step false and
   all_step true by computation *)
Definition all_step (ensure allow : bool) (d : dialect) (doc : ojson) (op : operation) : Rfc6902.res ojson :=
  if allow && absent_remove d doc op then ROk doc
  else if ensure then rfc_ens_step d doc (den_op op) else rfc_step d doc (den_op op).
Definition all_fit (ensure : bool) (d : dialect) (doc : ojson) (op : operation) : bool :=
  if ensure then ens_fits d doc (den_op op) else copy_fits d doc (den_op op).
Definition all_dom (ensure : bool) (op : operation) : Prop := if ensure then ens_op_dom op else op_dom op.

Theorem step_sim_all o st op :
  sgood st -> all_dom (o_ensure o) op -> all_fit (o_ensure o) (dia o) (sval st) op = true ->
  (exists e, step o st op = Err e /\ limit_stops o st op e) \/
  sim_res (all_step (o_ensure o) (o_allow o) (dia o) (sval st) op) (step o st op).
Proof.
  intros G D F. unfold all_step, all_dom, all_fit in *. destruct (o_ensure o) eqn:En.
  - pose proof F as F0. apply andb_prop in F0 as [F0 _]. apply limit_layer; [exact G | exact (proj1 D) | exact F0|].
    exact (opt_step_sim (set_limit o 0) st op G En eq_refl D F).
  - exact (step_stops_or_sim o st op G En D F).
Qed.

(* 4. whole patches *)

Definition ens_run (d : dialect) : ref_run :=
  Build_ref_run (fun doc op => rfc_ens_step d doc (den_op op)) (fun doc op => ens_fits d doc (den_op op))
                (fun i doc p => rfc_ens_apply_from d i doc (map den_op p)) (fun doc p => ens_run_fits d doc (map den_op p))
                (fun _ _ => eq_refl) (fun _ _ _ _ => eq_refl) (fun _ _ _ => eq_refl).

(* the reference of section 3, as it stands *)
Definition opt_run (allow : bool) (d : dialect) : ref_run :=
  Build_ref_run (rfc_opt_step allow d) (fun doc op => ens_fits d doc (den_op op)) (rfc_opt_apply_from allow d) (opt_run_fits allow d)
                (fun _ _ => eq_refl) (fun _ _ _ _ => eq_refl) (fun _ _ _ => eq_refl).

Definition all_run (ensure allow : bool) (d : dialect) : ref_run := gen_run (all_step ensure allow d) (all_fit ensure d).

Theorem ens_apply_sim o : ensure_opts o -> forall p i st,
  sgood st -> Forall ens_op_dom p ->
  ens_run_fits (dia o) (sval st) (map den_op p) = true ->
  match rfc_ens_apply_from (dia o) i (sval st) (map den_op p) with
  | Done doc => exists st', apply_from o i st p = AOk st' /\ sval st' = doc /\ sgood st'
  | Failed j cz => exists e, apply_from o i st p = AErr j e /\ cause_rel cz e
  end.
Proof. intro EO. exact (apply_from_sim0 o (ens_run (dia o)) sgood ens_op_dom (fun st op G => ens_step_sim o st op G EO)). Qed.

Theorem api_apply_ens_sim o indent p doc t :
  ensure_opts o -> parse doc = Some t -> root_container t = true -> tnodup t = true ->
  Forall ens_op_dom p ->
  ens_run_fits (dia o) (den t) (map den_op p) = true ->
  match rfc_ens_apply (dia o) (den t) (map den_op p) with
  | Done j => exists n, api_apply o indent p doc = ROut (output o indent (render (o_esc o) n)) /\ aval n = j /\ ngood n
  | Failed i cz => exists e, api_apply o indent p doc = RErr (Some i) e /\ cause_rel cz e
  end.
Proof.
  intros EO P RC T D F. destruct (api_apply_loop o indent p doc t P RC T) as [c [_ [G [V ->]]]]. rewrite <- V in *.
  apply apply_end_sim. exact (ens_apply_sim o EO p 0%nat (mkState (RCon c) 0) (sgood_con c _ G) D F).
Qed.

(* the patch is stopped by the limit error at operation k, a copy *)
Definition limit_stopped_at (o : opts) (i : nat) (st : state) (p : list operation) (k : nat) : Prop :=
  exists total, apply_from o i st p = AErr k (ECopyLimit (o_limit o) total) /\ (i <= k)%nat /\
                (0 < o_limit o)%Z /\ (o_limit o < total)%Z /\
                exists op, nth_error p (k - i) = Some op /\ op_kind op = KCopy.

(* whole patches, every setting of the options, from the model's outcome *)
Theorem apply_verdict_all o p i st :
  sgood st -> Forall (all_dom (o_ensure o)) p -> rr_fits (all_run (o_ensure o) (o_allow o) (dia o)) (sval st) p = true ->
  match apply_from o i st p with
  | AOk st' => rr_run (all_run (o_ensure o) (o_allow o) (dia o)) i (sval st) p = Done (sval st') /\ sgood st'
  | AErr k e => if is_copy_limit e
                then stopped_at o (all_run (o_ensure o) (o_allow o) (dia o)) sgood (limit_stops o) i st p k e
                else exists cz, rr_run (all_run (o_ensure o) (o_allow o) (dia o)) i (sval st) p = Failed k cz /\ cause_rel cz e
  | APanic _ => False
  end.
Proof.
  exact (apply_verdict o (all_run (o_ensure o) (o_allow o) (dia o)) sgood (limit_stops o) (all_dom (o_ensure o))
           (step_sim_all o) (limit_stops_limit o) p i st).
Qed.

(* whole patches, the option on, every setting of the two others: the document value of the
   reference, or failure at the same operation with an error of the corresponding class, or the
   limit error at a copy (not later than the reference's failure) *)
Theorem opt_apply_sim o : o_ensure o = true -> forall p i st,
  sgood st -> Forall ens_op_dom p ->
  opt_run_fits (o_allow o) (dia o) (sval st) p = true ->
  match rfc_opt_apply_from (o_allow o) (dia o) i (sval st) p with
  | Done doc => (exists st', apply_from o i st p = AOk st' /\ sval st' = doc /\ sgood st') \/
                (exists k, limit_stopped_at o i st p k)
  | Failed j cz => (exists e, apply_from o i st p = AErr j e /\ cause_rel cz e) \/
                   (exists k, limit_stopped_at o i st p k /\ (k <= j)%nat)
  end.
Proof.
  intros En p i st G D F. pose proof (step_sim_all o) as SS. rewrite En in SS.
  pose proof (apply_verdict o (opt_run (o_allow o) (dia o)) sgood (limit_stops o) ens_op_dom SS (limit_stops_limit o) p i st G D F) as V.
  cbn [opt_run rr_run] in V.
  destruct (apply_from o i st p) as [st'|k e|k] eqn:H; [destruct V as [-> V]; eauto | | destruct V].
  destruct (is_copy_limit e).
  - destruct (stopped_ref _ _ _ _ _ _ _ _ _ V) as [st1 [op [N [S [L Q]]]]].
    destruct (limit_stops_inv _ _ _ _ S) as [total [-> [_ [K [Z1 [Z2 _]]]]]].
    assert (LS : limit_stopped_at o i st p k) by (exists total; eauto 10).
    cbn [opt_run rr_run] in Q.
    destruct (rfc_opt_apply_from (o_allow o) (dia o) i (sval st) p) as [doc|j cz]; right; exists k; [exact LS|].
    split; [exact LS | exact (proj1 (Q j cz eq_refl))].
  - destruct V as [cz [-> V]]. eauto.
Qed.

(* EnsurePathExistsOnAdd off, on the reference run of the patch without the removes the option forgives
   (CauseFacts.stripb): the error is the limit error exactly when the limit stopped the patch; any other error
   is of the class of that run's failure, at the operation that has the same place in the patch *)
Lemma verdict_noensure o p st k1 e :
  o_ensure o = false -> sgood st -> Forall op_dom p ->
  copies_fit (dia o) (sval st) (map den_op (stripb (o_allow o) (dia o) (sval st) p)) = true ->
  apply_from o 0 st p = AErr k1 e ->
  if is_copy_limit e
  then limit_stop_s o 0 0 st p /\ exists op, nth_error p k1 = Some op /\ op_kind op = KCopy
  else exists k cz, rfc_apply_from (dia o) 0 (sval st) (map den_op (stripb (o_allow o) (dia o) (sval st) p)) = Failed k cz /\
                    cause_rel cz e /\ nth_error p k1 = nth_error (stripb (o_allow o) (dia o) (sval st) p) k.
Proof.
  intros En G Dp F H.
  pose proof (run_strip (o_allow o) (dia o) (stripb (o_allow o) (dia o)) (fun _ => eq_refl) (fun _ _ _ => eq_refl)) as RS.
  pose proof (apply_verdict_all o p 0%nat st G) as V. rewrite En, H in V.
  specialize (V Dp (fits_strip _ _ _ (fun _ _ _ => eq_refl) _ _ F)).
  unfold stopped_at in V. cbn [rr_run all_run gen_run] in V. destruct (is_copy_limit e).
  - destruct V as [p1 [op [p2 [st1 [-> [-> [L2 [L3 [L4 [total [-> [L5 L7]]]]]]]]]]]]. split.
    + exists p1, op, p2, st1, total. split; [reflexivity|]. split; [exact L2|]. split; [exact L3|]. split; [|auto].
      specialize (RS p1 0%nat 0%nat (sval st)). change (all_step false (o_allow o) (dia o)) with (skip_step (o_allow o) (dia o)) in L4.
      rewrite L4 in RS.
      destruct (rfc_apply_from _ _ _ _) as [doc|k cz]; [congruence | destruct RS as [? [RS _]]; discriminate RS].
    + exists op. split; [apply nth_error_mid | exact (proj1 (copy_over_inv o st1 op total L5))].
  - destruct V as [cz [V1 V2]]. specialize (RS p 0%nat 0%nat (sval st)).
    change (all_step false (o_allow o) (dia o)) with (skip_step (o_allow o) (dia o)) in V1.
    destruct (rfc_apply_from _ _ _ _) as [doc|k cz']; [congruence|].
    destruct RS as [k1' [R1 [_ [_ R4]]]]. rewrite V1 in R1. injection R1 as <- <-. rewrite !Nat.sub_0_r in R4. eauto.
Qed.

Theorem api_apply_opt_sim o indent p doc t :
  o_ensure o = true -> parse doc = Some t -> root_container t = true -> tnodup t = true ->
  Forall ens_op_dom p ->
  opt_run_fits (o_allow o) (dia o) (den t) p = true ->
  match rfc_opt_apply_from (o_allow o) (dia o) 0 (den t) p with
  | Done j => (exists n, api_apply o indent p doc = ROut (output o indent (render (o_esc o) n)) /\ aval n = j /\ ngood n) \/
              (exists k total, api_apply o indent p doc = RErr (Some k) (ECopyLimit (o_limit o) total) /\
                               (0 < o_limit o)%Z /\ (o_limit o < total)%Z)
  | Failed i cz => (exists e, api_apply o indent p doc = RErr (Some i) e /\ cause_rel cz e) \/
                   (exists k total, api_apply o indent p doc = RErr (Some k) (ECopyLimit (o_limit o) total) /\
                                    (k <= i)%nat /\ (0 < o_limit o)%Z /\ (o_limit o < total)%Z)
  end.
Proof.
  intros En P RC T D F. destruct (api_apply_loop o indent p doc t P RC T) as [c [_ [G [V ->]]]]. rewrite <- V in *.
  pose proof (opt_apply_sim o En p 0%nat (mkState (RCon c) 0) (sgood_con c _ G) D F) as AS.
  change (sval (mkState (RCon c) 0)) with (cval c) in AS.
  destruct (rfc_opt_apply_from (o_allow o) (dia o) 0 (cval c) p) as [j|i cz].
  - destruct AS as [AS|[k [total [A1 [_ [A3 [A4 _]]]]]]].
    + left. exact (apply_end_sim o indent _ (Done j) AS).
    + right. rewrite A1. exists k, total. auto.
  - destruct AS as [AS|[k [[total [A1 [_ [A3 [A4 _]]]]] Lk]]].
    + left. exact (apply_end_sim o indent _ (Failed i cz) AS).
    + right. rewrite A1. exists k, total. auto.
Qed.

(* 5. an add that succeeds without the option gives the same result with it *)

Lemma at_parent_ok_parents d f toks j j' :
  (forall p t, is_container p = false -> f p t = RFail FUnreachable) ->
  toks <> [] -> at_parent d toks j f = ROk j' ->
  exists p, descend d (removelast toks) j = Some p /\ is_container p = true.
Proof.
  intros NC NE H. rewrite (app_removelast_last [] NE) in H. exact (at_parent_ok_parent d f _ _ j j' NC H).
Qed.

Lemma descend_container_no_null d : forall toks j p,
  descend d (removelast toks) j = Some p -> is_container p = true -> null_on_path d toks j = false.
Proof.
  induction toks as [|t toks IH]; intros j p H Cp; [reflexivity|].
  destruct toks as [|next rest0]; [reflexivity|].
  change (removelast (t :: next :: rest0)) with (t :: removelast (next :: rest0)) in H.
  cbn [descend] in H. rewrite null_on_path_unfold.
  destruct (child_at d j t) as [c|] eqn:E; [|reflexivity].
  pose proof (descend_container d _ c p H Cp) as Cc.
  rewrite Cc. eapply IH; eauto.
Qed.

(* per step: ens is the identity when the parents exist *)
Lemma ens_step_agrees d doc o doc' :
  rfc_step d doc o = ROk doc' -> rfc_ens_step d doc o = ROk doc' /\ add_path_clear d doc o = true.
Proof.
  unfold rfc_ens_step, add_path_clear, rfc_step. intro H.
  destruct (ptr_tokens (rpath o)) as [toks|] eqn:Et; [|discriminate].
  destruct (rkind o); try (split; [exact H | reflexivity]).
  unfold rfc_ens_add. destruct toks as [|t toks]; [split; [exact H | reflexivity]|].
  unfold rfc_add in H.
  destruct (at_parent_ok_parents d (add_leaf d (value_or_null (rvalue o))) (t :: toks) doc doc'
              (add_leaf_nc d _) ltac:(discriminate) H) as [p [Hd Cp]].
  rewrite (ens_all_exist d (t :: toks) doc p Hd Cp), (descend_container_no_null d (t :: toks) doc p Hd Cp).
  split; [exact H | reflexivity].
Qed.

(* patches: where the plain reference runs to the end, the reference with the option does, with the
   same document; and the side condition of this file reduces to that of ApplySim.v *)
Theorem ens_agrees_from d : forall p i doc doc',
  rfc_apply_from d i doc p = Done doc' ->
  rfc_ens_apply_from d i doc p = Done doc' /\
  (copies_fit d doc p = true -> ens_run_fits d doc p = true).
Proof.
  induction p as [|o p IH]; intros i doc doc' H; cbn [rfc_apply_from rfc_ens_apply_from copies_fit ens_run_fits] in *.
  - split; [exact H | reflexivity].
  - destruct (rfc_step d doc o) as [doc1|cz] eqn:E; [|discriminate].
    destruct (ens_step_agrees d doc o doc1 E) as [E1 E2]. rewrite E1. unfold ens_fits. rewrite E2.
    destruct (IH (S i) doc1 doc' H) as [I1 I2]. split; [exact I1|].
    intro F. apply andb_prop in F as [F1 F2]. rewrite F1, (I2 F2). reflexivity.
Qed.

(* 6. error classes with the option on *)

(* the reference with the option fails with FTest only at a test operation *)
Lemma rfc_ens_step_ftest d doc rop : rfc_ens_step d doc rop = RFail FTest -> rkind rop = OpTest.
Proof.
  unfold rfc_ens_step. intro H.
  destruct (rkind rop) eqn:K; try reflexivity; try (rewrite <- K; apply (rfc_step_ftest d doc rop H)).
  destruct (ptr_tokens (rpath rop)) as [toks|]; [|rewrite <- K; apply (rfc_step_ftest d doc rop H)].
  exfalso. unfold rfc_ens_add in H. destruct toks as [|t toks].
  - cbn [rfc_add] in H. destruct (is_container (value_or_null (rvalue rop))); discriminate H.
  - destruct (ens d (t :: toks) doc) as [doc1|]; [|discriminate H]. unfold rfc_add in H.
    apply at_parent_ftest in H as [p [t' H]]. exact (proj1 (leaf_not_ftest d _ p t') H).
Qed.

Lemma rfc_ens_apply_ftest d : forall p i doc k,
  rfc_ens_apply_from d i doc p = Failed k FTest ->
  (i <= k)%nat /\ exists o, nth_error p (k - i) = Some o /\ rkind o = OpTest.
Proof.
  induction p as [|o p IH]; intros i doc k H; cbn [rfc_ens_apply_from] in H; [discriminate|].
  destruct (rfc_ens_step d doc o) as [doc'|cz] eqn:E.
  - destruct (IH (S i) doc' k H) as [L [o' [N K]]]. split; [lia|]. exists o'. split; [|exact K].
    replace (k - i)%nat with (S (k - S i))%nat by lia. exact N.
  - inversion H; subst. split; [lia|]. exists o. rewrite Nat.sub_diag. split; [reflexivity|].
    apply (rfc_ens_step_ftest d doc o E).
Qed.

Lemma op_dom_kind_test op : op_dom op -> rkind (den_op op) = OpTest -> op_kind op = KTest.
Proof.
  intros [_ [path [_ K]]]. unfold den_op. cbn [rkind]. destruct (op_kind op); cbn [ref_kind]; try discriminate; auto.
  contradiction.
Qed.

(* Apply fails at the reference's first failing operation; the class of the error corresponds to
   the reference's cause: ErrTestFailed exactly when that cause is a failed comparison, and then the
   operation is a test; an absent member or an unreachable location is ErrMissing; never the
   copy-size error *)
Theorem ens_cause o indent p doc t i cz :
  ensure_opts o -> parse doc = Some t -> root_container t = true -> tnodup t = true ->
  Forall ens_op_dom p -> ens_run_fits (dia o) (den t) (map den_op p) = true ->
  rfc_ens_apply (dia o) (den t) (map den_op p) = Failed i cz ->
  exists e, api_apply o indent p doc = RErr (Some i) e /\
    (e = ETestFailed <-> cz = FTest) /\
    (cz = FTest -> exists op, nth_error p i = Some op /\ op_kind op = KTest) /\
    (cz = FMissingMember \/ cz = FUnreachable -> e = EMissing) /\
    is_copy_limit e = false.
Proof.
  intros EO P RC T D F R.
  pose proof (api_apply_ens_sim o indent p doc t EO P RC T D F) as S. rewrite R in S.
  destruct S as [e [S1 S2]]. exists e. split; [exact S1|]. destruct (cause_rel_classes cz e S2) as [C1 C2].
  split; [exact C1|]. split; [|exact C2].
  intros ->. destruct (rr_failed_nth (ens_run (dia o)) p 0%nat _ i FTest R) as [_ [op [doc' [N Q]]]].
  rewrite Nat.sub_0_r in N. exists op. split; [exact N|].
  apply op_dom_kind_test; [|exact (rfc_ens_step_ftest _ _ _ Q)]. rewrite Forall_forall in D. exact (proj1 (D op (nth_error_In _ _ N))).
Qed.

(* 7. the side condition cannot be dropped *)

(* Two runs that reach the same document value {"a":null} and then add at /a/b with the option on.
   In the first the null was decoded from the document (a nil node): ensurePathExists takes it for a
   missing parent and puts an object in its place.  In the second the null was stored by an add (a
   raw node holding null): ensurePathExists takes it for an existing value that is no container,
   and the add reports the missing path.  No function of the document VALUE describes both; the
   reference of this file says unreachable, the first run is where add_path_clear fails. *)
Example null_parent_depends_on_representation :
  match api_decode (B "[{""op"":""add"",""path"":""/a/b"",""value"":1}]"),
        api_decode (B "[{""op"":""add"",""path"":""/a"",""value"":null},{""op"":""add"",""path"":""/a/b"",""value"":1}]") with
  | Some p1, Some p2 =>
      let o := mkOpts false 0 false true false [] None in
      api_apply o [] p1 (B "{""a"":null}") = ROut (B "{""a"":{""b"":1}}") /\
      rfc_ens_apply (dia o) (OObj [(B "a", ONull)]) (map den_op p1) = Failed 0 FUnreachable /\
      ens_run_fits (dia o) (OObj [(B "a", ONull)]) (map den_op p1) = false /\
      api_apply o [] p2 (B "{}") = RErr (Some 1%nat) EMissing /\
      rfc_ens_apply (dia o) (OObj []) (map den_op p2) = Failed 1 FUnreachable
  | _, _ => False
  end.
Proof. vm_compute. repeat split; reflexivity. Qed.

(* 8. the option together with AllowMissingPathOnRemove and a copy-size limit *)

(* with allow off this is the reference of section 1 *)
Lemma rfc_opt_apply_allow_off d : forall p i doc,
  rfc_opt_apply_from false d i doc p = rfc_ens_apply_from d i doc (map den_op p).
Proof.
  induction p as [|op p IH]; intros i doc; cbn [rfc_opt_apply_from rfc_ens_apply_from map]; [reflexivity|].
  unfold rfc_opt_step. cbn [andb]. destruct (rfc_ens_step d doc (den_op op)); [apply IH | reflexivity].
Qed.

Lemma opt_run_fits_allow_off d : forall p doc,
  opt_run_fits false d doc p = ens_run_fits d doc (map den_op p).
Proof.
  induction p as [|op p IH]; intro doc; cbn [opt_run_fits ens_run_fits map]; [reflexivity|].
  unfold rfc_opt_step. cbn [andb]. destruct (rfc_ens_step d doc (den_op op)); [now rewrite IH | reflexivity].
Qed.

(* the error classes, the option on, every setting of the two others: Apply fails not later than
   the reference; unless the error is the copy-size error (possible only under a positive limit) it
   fails AT the reference's first failing operation, with the class of the reference's cause *)
Theorem opt_cause o indent p doc t i cz :
  o_ensure o = true -> parse doc = Some t -> root_container t = true -> tnodup t = true ->
  Forall ens_op_dom p -> opt_run_fits (o_allow o) (dia o) (den t) p = true ->
  rfc_opt_apply_from (o_allow o) (dia o) 0 (den t) p = Failed i cz ->
  exists k e, api_apply o indent p doc = RErr (Some k) e /\ (k <= i)%nat /\
    (is_copy_limit e = false ->
       k = i /\ (e = ETestFailed <-> cz = FTest) /\ (cz = FMissingMember \/ cz = FUnreachable -> e = EMissing)) /\
    (is_copy_limit e = true -> (0 < o_limit o)%Z).
Proof.
  intros En P RC T D F R.
  pose proof (api_apply_opt_sim o indent p doc t En P RC T D F) as S. rewrite R in S.
  destruct S as [[e [S1 S2]]|[k [total [S1 [S2 [S3 S4]]]]]].
  - exists i, e. split; [exact S1|]. split; [lia|]. split.
    + intros _. split; [reflexivity|]. split; [apply cause_rel_test_iff; exact S2 | apply cause_rel_missing; exact S2].
    + intro CL. rewrite (cause_rel_not_limit cz e S2) in CL. discriminate CL.
  - exists k, (ECopyLimit (o_limit o) total). split; [exact S1|]. split; [exact S2|]. split.
    + intro CL. discriminate CL.
    + intros _. exact S3.
Qed.

(* 9. the theorems applied *)

From JP Require PointerDomain StrInv.

(* a boolean form of the add-path domain (tokens of ASCII bytes), to discharge ens_op_dom by computation *)
Definition ctok_ascii_ok (t : bytes) : bool :=
  PointerDomain.token_dom t && forallb (fun c => bn c <? 128) (decode_token t) &&
  match canonical_neg (decode_token t) with None => true | Some _ => false end.

Lemma ctok_ascii_ok_ctok t : ctok_ascii_ok t = true -> ctok (decode_token t).
Proof.
  unfold ctok_ascii_ok. intro H. apply andb_prop in H as [H C]. apply andb_prop in H as [A B0]. split.
  - apply PointerDomain.token_dom_iff. split; [exact A | apply StrInv.utf8_ascii; exact B0].
  - destruct (canonical_neg (decode_token t)); [discriminate C | reflexivity].
Qed.

Definition add_path_ok (op : operation) : bool :=
  match op_kind op, op_str op (B "path") with
  | KAdd, Ok (c :: r) => Byte.eqb c x2f && forallb ctok_ascii_ok (split_slash r)
  | _, _ => true
  end.

Lemma ctoks_ascii_ok l : forallb ctok_ascii_ok l = true -> Forall ctok (map decode_token l).
Proof. rewrite forallb_forall, Forall_map, Forall_forall. intros A t Ht. apply ctok_ascii_ok_ctok, A, Ht. Qed.

Lemma add_paths_ok_dom p : Forall op_dom p -> forallb add_path_ok p = true -> Forall ens_op_dom p.
Proof.
  rewrite forallb_forall, !Forall_forall. intros D A op Hin. split; [exact (D op Hin)|].
  intros Ek r Hp. specialize (A op Hin). unfold add_path_ok in A. rewrite Ek, Hp in A.
  apply andb_prop in A as [_ A]. apply ctoks_ascii_ok, A.
Qed.

(* The document {"k":[9],"x":{"z":0}} and four operations with EnsurePathExistsOnAdd on:
     add    /a/2/b {"v":1}   neither /a nor /a/2 exists: "a" becomes an array (the next token is an
                             index) padded with two nulls, its element 2 an object (the next token is
                             a name) that receives the member b
     test   /a/2/b {"v":1}   the created value is there
     copy   /a/2 -> /x/c     ... and can be copied out of the created array
     remove /k/0
   Every hypothesis of api_apply_ens_sim is discharged; the theorem yields the output as the
   encoding of a node denoting the reference's document; the bytes are shown. *)
Definition ens_ex_doc := B "{""k"":[9],""x"":{""z"":0}}".
Definition ens_ex_patch :=
  B "[{""op"":""add"",""path"":""/a/2/b"",""value"":{""v"":1}},{""op"":""test"",""path"":""/a/2/b"",""value"":{""v"":1}},{""op"":""copy"",""from"":""/a/2"",""path"":""/x/c""},{""op"":""remove"",""path"":""/k/0""}]".
Definition ens_ex_out := B "{""k"":[],""x"":{""z"":0,""c"":{""b"":{""v"":1}}},""a"":[null,null,{""b"":{""v"":1}}]}".
Definition ens_ex_o := mkOpts false 0 false true false [] None.
Definition ens_ex_t : tjson := Eval vm_compute in match parse ens_ex_doc with Some t => t | None => TNull end.
Definition ens_ex_p : list operation := Eval vm_compute in match api_decode ens_ex_patch with Some p => p | None => [] end.
Definition ens_ex_result : ojson :=
  Eval vm_compute in match parse ens_ex_out with Some t => den t | None => ONull end.

Example ens_main_theorem_applies :
  length ens_ex_p = 4%nat /\
  rfc_ens_apply (dia ens_ex_o) (den ens_ex_t) (map den_op ens_ex_p) = Done ens_ex_result /\
  (exists n, api_apply ens_ex_o [] ens_ex_p ens_ex_doc = ROut (output ens_ex_o [] (render (o_esc ens_ex_o) n)) /\
             aval n = ens_ex_result /\ ngood n) /\
  api_apply ens_ex_o [] ens_ex_p ens_ex_doc = ROut ens_ex_out /\
  (* without the option the first operation fails: the parent /a does not exist *)
  rfc_apply (dia ens_ex_o) (den ens_ex_t) (map den_op ens_ex_p) = Failed 0 FUnreachable.
Proof.
  assert (EO : ensure_opts ens_ex_o) by (split; [reflexivity | split; reflexivity]).
  assert (P : parse ens_ex_doc = Some ens_ex_t) by (vm_compute; reflexivity).
  assert (RC : root_container ens_ex_t = true) by reflexivity.
  assert (T : tnodup ens_ex_t = true) by (vm_compute; reflexivity).
  assert (Dc : api_decode ens_ex_patch = Some ens_ex_p) by (vm_compute; reflexivity).
  assert (D0 : Forall op_dom ens_ex_p)
    by (apply (PointerDomain.decoded_in_domain_op_dom ens_ex_patch ens_ex_p Dc); vm_compute; reflexivity).
  assert (D : Forall ens_op_dom ens_ex_p) by (apply add_paths_ok_dom; [exact D0 | vm_compute; reflexivity]).
  assert (F : ens_run_fits (dia ens_ex_o) (den ens_ex_t) (map den_op ens_ex_p) = true) by (vm_compute; reflexivity).
  assert (R : rfc_ens_apply (dia ens_ex_o) (den ens_ex_t) (map den_op ens_ex_p) = Done ens_ex_result) by (vm_compute; reflexivity).
  pose proof (api_apply_ens_sim ens_ex_o [] ens_ex_p ens_ex_doc ens_ex_t EO P RC T D F) as S. rewrite R in S.
  split; [reflexivity|]. split; [exact R|]. split; [exact S|]. split; vm_compute; reflexivity.
Qed.

(* the failure side: the same document, the created array addressed by a member name (nothing can be
   created there: ens undefined, no null on the way): ErrMissing at operation 1, as ens_cause says *)
Definition ens_ex_patch2 :=
  B "[{""op"":""add"",""path"":""/a/2/b"",""value"":1},{""op"":""add"",""path"":""/a/q/r"",""value"":2}]".
Definition ens_ex_p2 : list operation := Eval vm_compute in match api_decode ens_ex_patch2 with Some p => p | None => [] end.

Example ens_cause_applies :
  rfc_ens_apply (dia ens_ex_o) (den ens_ex_t) (map den_op ens_ex_p2) = Failed 1 FUnreachable /\
  api_apply ens_ex_o [] ens_ex_p2 ens_ex_doc = RErr (Some 1%nat) EMissing.
Proof.
  assert (EO : ensure_opts ens_ex_o) by (split; [reflexivity | split; reflexivity]).
  assert (P : parse ens_ex_doc = Some ens_ex_t) by (vm_compute; reflexivity).
  assert (RC : root_container ens_ex_t = true) by reflexivity.
  assert (T : tnodup ens_ex_t = true) by (vm_compute; reflexivity).
  assert (Dc : api_decode ens_ex_patch2 = Some ens_ex_p2) by (vm_compute; reflexivity).
  assert (D0 : Forall op_dom ens_ex_p2)
    by (apply (PointerDomain.decoded_in_domain_op_dom ens_ex_patch2 ens_ex_p2 Dc); vm_compute; reflexivity).
  assert (D : Forall ens_op_dom ens_ex_p2) by (apply add_paths_ok_dom; [exact D0 | vm_compute; reflexivity]).
  assert (F : ens_run_fits (dia ens_ex_o) (den ens_ex_t) (map den_op ens_ex_p2) = true) by (vm_compute; reflexivity).
  assert (R : rfc_ens_apply (dia ens_ex_o) (den ens_ex_t) (map den_op ens_ex_p2) = Failed 1 FUnreachable) by (vm_compute; reflexivity).
  destruct (ens_cause ens_ex_o [] ens_ex_p2 ens_ex_doc ens_ex_t 1%nat FUnreachable EO P RC T D F R) as [e [E1 [_ [_ [E3 _]]]]].
  split; [exact R|]. rewrite E1, (E3 (or_intror eq_refl)). reflexivity.
Qed.

(* all three options at once: EnsurePathExistsOnAdd and AllowMissingPathOnRemove on, a copy-size limit.
   The add creates /a (an array, one null of padding) and /a/1 (an object); the remove of the absent
   /zz/y is skipped; the copy out of the created array succeeds under the limit 1000; the test of the
   copied value fails: ErrTestFailed at operation 3, as opt_cause says.  Under the limit 5 the copy
   (9 bytes) trips the limit at operation 2, before the reference's failure *)
Definition ens_ex_doc3 := B "{""k"":[9]}".
Definition ens_ex_patch3 :=
  B "[{""op"":""add"",""path"":""/a/1/b"",""value"":[7]},{""op"":""remove"",""path"":""/zz/y""},{""op"":""copy"",""from"":""/a/1"",""path"":""/c""},{""op"":""test"",""path"":""/c/b/0"",""value"":8}]".
Definition ens_ex_o3 (limit : Z) := mkOpts false limit true true false [] None.
Definition ens_ex_t3 : tjson := Eval vm_compute in match parse ens_ex_doc3 with Some t => t | None => TNull end.
Definition ens_ex_p3 : list operation := Eval vm_compute in match api_decode ens_ex_patch3 with Some p => p | None => [] end.

Example opt_cause_applies :
  rfc_opt_apply_from true (mkDialect false) 0 (den ens_ex_t3) ens_ex_p3 = Failed 3 FTest /\
  api_apply (ens_ex_o3 1000) [] ens_ex_p3 ens_ex_doc3 = RErr (Some 3%nat) ETestFailed /\
  api_apply (ens_ex_o3 5) [] ens_ex_p3 ens_ex_doc3 = RErr (Some 2%nat) (ECopyLimit 5 9).
Proof.
  assert (P : parse ens_ex_doc3 = Some ens_ex_t3) by (vm_compute; reflexivity).
  assert (RC : root_container ens_ex_t3 = true) by reflexivity.
  assert (T : tnodup ens_ex_t3 = true) by (vm_compute; reflexivity).
  assert (Dc : api_decode ens_ex_patch3 = Some ens_ex_p3) by (vm_compute; reflexivity).
  assert (D0 : Forall op_dom ens_ex_p3)
    by (apply (PointerDomain.decoded_in_domain_op_dom ens_ex_patch3 ens_ex_p3 Dc); vm_compute; reflexivity).
  assert (D : Forall ens_op_dom ens_ex_p3) by (apply add_paths_ok_dom; [exact D0 | vm_compute; reflexivity]).
  assert (F : opt_run_fits true (mkDialect false) (den ens_ex_t3) ens_ex_p3 = true) by (vm_compute; reflexivity).
  assert (R : rfc_opt_apply_from true (mkDialect false) 0 (den ens_ex_t3) ens_ex_p3 = Failed 3 FTest) by (vm_compute; reflexivity).
  split; [exact R|]. split.
  - destruct (opt_cause (ens_ex_o3 1000) [] ens_ex_p3 ens_ex_doc3 ens_ex_t3 3%nat FTest eq_refl P RC T D F R)
      as [k [e [E1 [E2 [E3 E4]]]]].
    assert (V : api_apply (ens_ex_o3 1000) [] ens_ex_p3 ens_ex_doc3 = RErr (Some 3%nat) ETestFailed) by (vm_compute; reflexivity).
    rewrite V in E1. inversion E1; subst k e.
    destruct (E3 eq_refl) as [_ [Q _]]. pose proof (proj2 Q eq_refl) as Q'. exact V.
  - destruct (opt_cause (ens_ex_o3 5) [] ens_ex_p3 ens_ex_doc3 ens_ex_t3 3%nat FTest eq_refl P RC T D F R)
      as [k [e [E1 [E2 _]]]].
    vm_compute. reflexivity.
Qed.

Print Assumptions ensure_none_sim.
Print Assumptions ensure_add_none.
Print Assumptions ens_step_sim.
Print Assumptions ens_apply_sim.
Print Assumptions api_apply_ens_sim.
Print Assumptions ens_agrees_from.
Print Assumptions ens_cause.
Print Assumptions opt_step_sim.
Print Assumptions opt_step_sim_limit.
Print Assumptions opt_apply_sim.
Print Assumptions api_apply_opt_sim.
Print Assumptions opt_cause.
Print Assumptions null_parent_depends_on_representation.
Print Assumptions ens_main_theorem_applies.
Print Assumptions ens_cause_applies.
Print Assumptions opt_cause_applies.
