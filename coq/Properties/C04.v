(* C04 — no exported entry point panics or hangs.
   The model has an explicit Panic outcome for every Go construct of the patch engines that can panic
   (nil dereference, slice index/bounds, nil-map write, decoder on invalid text).  What is proved:
   - v5 Apply / ApplyIndent / ApplyWithOptions is TOTAL (Totality.v): for every options record, every
     indent, every document byte string and every operation list whose add / replace operations aimed
     at the whole document carry a value member (op_ok) the outcome is never RPanic
     (C04_apply_never_panics); every DecodePatch output satisfies op_ok, so DecodePatch followed by
     Apply never panics on any two byte strings (C04_decode_then_apply_never_panics); op_ok is exactly
     the panic condition of a single operation (C04_unvalidated_add_panics: a hand-assembled Patch
     without it does panic, which is outside the property's quantifier);
   - legacy Apply / ApplyIndent is TOTAL with no hypothesis at all (TotalityV4.v): every setting of the
     package variables, every indent, document and operation list (C04_legacy_apply_never_panics,
     C04_legacy_apply_total, C04_legacy_step_never_panics, C04_legacy_apply_from_never_panics,
     C04_legacy_decode_then_apply_never_panics); the statement is about the code after fix 1a7093a;
   - narrower statements about single steps: the index arithmetic never reaches the panicking slice
     expressions, set after get never panics, Apply in the domain of C01 yields a document or an error.
   Hangs: every modelled algorithm is a total Gallina function (structural recursion; explicit fuel in
   the reader, merge and equal, chosen from the input size), so the model cannot diverge.
   NOT a theorem: the entry points and helpers whose model type has no panic outcome (DecodePatch,
   Equal, MergePatch, MergeMergePatches, CreateMergePatch; load_doc, marshal_root, print, deep_copy
   inside Apply): that the Go code does not panic there rests on the correspondence (every generated
   input of every stream is executed under recover() with a crash replay, and under a watchdog). *)
From JP Require Import Bytes Json Text Strings Den Pointer Rfc6902 ImplV5 Domain ImplFacts ApplyFacts Depth ApplySim.

(* partialArray.add: the copy(ary[0:idx], ...) that could panic for a negative index is unreachable,
   for every length, every key and both settings *)
Theorem C04_array_add_never_panics : forall o ns key v, ary_add o ns key v <> Panic.
Proof. exact ary_add_never_panics. Qed.
Print Assumptions C04_array_add_never_panics.

(* partialArray.set indexes d.nodes[idx] unchecked: it cannot panic after the get that replace
   performs first *)
Theorem C04_set_after_get_never_panics : forall o (ns : list node) t v i,
  resolve_idx_get o (ImplV5.zlen ns) t = Ok i -> ary_set o ns t v <> Panic.
Proof. intros o ns t v i H. rewrite (ary_set_after_get o ns t v i H). discriminate. Qed.
Print Assumptions C04_set_after_get_never_panics.

(* the domain of C01 lies inside the condition under which Apply is total (Totality.op_ok, below): an add or
   replace of the whole document carries a value *)
From JP Require Totality.
Lemma op_dom_ok op : op_dom op -> Totality.op_ok op = true.
Proof.
  intros [_ [path [Hp K]]]. unfold Totality.op_ok. rewrite Hp.
  destruct path as [|b r]; [|destruct (op_kind op); reflexivity].
  (* the path "" is no pointer of the domain: an add or replace there is in it for its value *)
  destruct (op_kind op); try reflexivity;
    (destruct K as [[r' [E _]]|[_ [t [V _]]]]; [discriminate E | unfold amem; rewrite V; reflexivity]).
Qed.

(* Apply in the stated domain of C01 never panics: whether every copy fits the nesting limit of
   deepCopy (then Apply refines the reference) or not (then the copy is refused with an error) *)
Theorem C04_apply_in_domain_never_panics : forall o indent p doc t,
  plain_opts o -> parse doc = Some t -> root_container t = true -> tnodup t = true ->
  Forall op_dom p -> api_apply o indent p doc <> RPanic.
Proof.
  intros o indent p doc t _ _ _ _ D. apply Totality.api_apply_never_panics. apply forallb_forall. intros op Hin.
  rewrite Forall_forall in D. exact (op_dom_ok op (D op Hin)).
Qed.
Print Assumptions C04_apply_in_domain_never_panics.

(* ill-formed documents are rejected before anything is decoded *)
Theorem C04_malformed_document_is_an_error : forall o indent p doc,
  doc <> [] -> parse doc = None -> api_apply o indent p doc = RErr None EInvalid.
Proof. intros o indent p doc NE P. unfold api_apply. destruct doc; [congruence|]. now rewrite P. Qed.
Print Assumptions C04_malformed_document_is_an_error.

Example C04_nonvacuous :
  match api_decode (B "[{""op"":""test"",""path"":""/a"",""value"":[null]},{""op"":""replace"",""path"":"""",""value"":null},{""op"":""add"",""path"":""/0"",""value"":1}]") with
  | Some p => api_apply (mkOpts true 0 false false true [] None) [] p (B "{""a"":[null]}") = RErr (Some 2%nat) EMissing
  | None => False
  end.
Proof. vm_compute. reflexivity. Qed.

(* ---- totality of Apply over ALL inputs (Totality.v) ----
   Every options record (any o_neg, o_limit, o_allow, o_ensure, o_esc, o_stale, o_nullsz), every
   indent, every document byte string, every operation list with arbitrary op names, path/from
   bytes (empty tokens, non-canonical or huge indices, "-") and missing members, provided only
   that an add / replace aimed at the whole document (path "") has a value member (op_ok).
   DecodePatch guarantees op_ok; a hand-assembled operation without it does panic
   (C04_unvalidated_add_panics), so the hypothesis cannot be dropped. *)
From JP Require Import Totality.

Theorem C04_apply_never_panics : forall o indent p doc,
  forallb op_ok p = true -> api_apply o indent p doc <> RPanic.
Proof. exact api_apply_never_panics. Qed.
Print Assumptions C04_apply_never_panics.

(* DecodePatch followed by Apply / ApplyIndent / ApplyWithOptions: all byte strings on both sides *)
Theorem C04_decode_then_apply_never_panics : forall o indent patch doc p,
  api_decode patch = Some p -> api_apply o indent p doc <> RPanic.
Proof. exact decode_apply_never_panics. Qed.
Print Assumptions C04_decode_then_apply_never_panics.

(* op_ok is exactly the panic condition of a single operation, in every state *)
Theorem C04_unvalidated_add_panics : forall o st op, op_ok op = false -> step o st op = Panic.
Proof. exact op_not_ok_panics. Qed.
Print Assumptions C04_unvalidated_add_panics.

Example C04_apply_nonvacuous :
  (* duplicate names in the document, the same member removed until it is gone, then once more *)
  match api_decode (B "[{""op"":""remove"",""path"":""/a""},{""op"":""remove"",""path"":""/a""}]") with
  | Some p => api_apply (mkOpts true 0 false false true [] None) [] p (B "{""a"":1,""a"":2}") = RErr (Some 1%nat) EMissing
  | None => False
  end
  /\ api_apply (mkOpts false 0 false false true [] None) []
       [[(B "op", Some (TStr (B "add"))); (B "path", Some (TStr []))]] (B "{}") = RPanic.
Proof. vm_compute. split; reflexivity. Qed.

(* ---- the legacy root package (TotalityV4.v, model ImplV4.v) ----
   Unconditional: the legacy DecodePatch validates nothing, so no hypothesis on the patch is made.
   For every setting of the package variables SupportNegativeIndices / AccumulatedCopySizeLimit,
   every indent, every document byte string and every operation list (arbitrary op names, path /
   from bytes, missing or null members) Apply / ApplyIndent yield an output or an error.
   Before fix 1a7093a the decoded patch  [{"op":"replace","path":""}]  panicked on every document
   that loads (nil *lazyNode dereferenced in Patch.replace); since the fix it is ErrMissing.
   C04_legacy_nonvacuous records those inputs. *)
From JP Require Import ImplV4 TotalityV4.

Theorem C04_legacy_apply_never_panics : forall g indent p doc, api_apply4 g indent p doc <> Panic4.
Proof. exact api_apply4_never_panics. Qed.
Print Assumptions C04_legacy_apply_never_panics.

(* one legacy operation, in every state; the operation loop from every index and state *)
Theorem C04_legacy_step_never_panics : forall g st op, step4 g st op <> Panic.
Proof. exact step4_never_panics. Qed.
Print Assumptions C04_legacy_step_never_panics.

Theorem C04_legacy_apply_from_never_panics : forall g p i st, fst (apply4_from g i st p) <> Panic.
Proof. exact apply4_from_never_panics. Qed.
Print Assumptions C04_legacy_apply_from_never_panics.

(* the outcome is always an output or an error *)
Theorem C04_legacy_apply_total : forall g indent p doc,
  (exists out, api_apply4 g indent p doc = Out4 out) \/ (exists i e, api_apply4 g indent p doc = Err4 i e).
Proof. exact api_apply4_total. Qed.
Print Assumptions C04_legacy_apply_total.

(* DecodePatch followed by Apply / ApplyIndent: all byte strings on both sides *)
Theorem C04_legacy_decode_then_apply_never_panics : forall g indent patch doc p,
  api_decode4 patch = Some p -> api_apply4 g indent p doc <> Panic4.
Proof. exact decode4_apply4_never_panics. Qed.
Print Assumptions C04_legacy_decode_then_apply_never_panics.

(* a replace of the whole document without value member: ErrMissing, in every state *)
Theorem C04_legacy_replace_root_without_value : forall g st op,
  op_kind op = KReplace -> op_str op (B "path") = Ok [] -> aget (B "value") op = None ->
  step4 g st op = Err EMissing.
Proof. exact replace_root_without_value. Qed.
Print Assumptions C04_legacy_replace_root_without_value.

Example C04_legacy_nonvacuous :
  (* the formerly panicking inputs, with the default package variables and with others; the v5
     DecodePatch rejects the patch text *)
  match api_decode4 (B "[{""op"":""replace"",""path"":""""}]") with
  | Some p => api_apply4 (mkOpts4 true 0 None) [] p (B "{}") = Err4 (Some 0%nat) EMissing
              /\ api_apply4 (mkOpts4 true 0 None) [] p (B "[]") = Err4 (Some 0%nat) EMissing
              /\ api_apply4 (mkOpts4 true 0 None) [] p (B "null") = Err4 (Some 0%nat) EMissing
              /\ api_apply4 (mkOpts4 false 7 None) (B "  ") p (B "{""a"":[1,2]}") = Err4 (Some 0%nat) EMissing
  | None => False
  end
  /\ api_decode (B "[{""op"":""replace"",""path"":""""}]") = None
  (* other unvalidated operations: error or output *)
  /\ match api_decode4 (B "[{""op"":""add"",""path"":""""},{""op"":""replace"",""path"":""""}]") with
     | Some p => api_apply4 (mkOpts4 true 0 None) [] p (B "[]") = Err4 (Some 0%nat) EMissing
     | None => False
     end
  /\ match api_decode4 (B "[{""op"":""replace"",""path"":""/a""},{""op"":""copy"",""path"":""/b""}]") with
     | Some p => api_apply4 (mkOpts4 true 0 None) [] p (B "{""a"":1}") = Err4 (Some 1%nat) EMissing
     | None => False
     end
  (* the unchecked partialArray.set on its own would panic: replace reaches it only after a get *)
  /\ con4_set (mkOpts4 false 0 None) (DAry []) (B "0") NNil = Panic.
Proof. vm_compute. repeat split; reflexivity. Qed.

(* ---- CreateMergePatch: the Go algorithm modelled statement by statement (CreateImpl.v) has explicit panic
   outcomes — the default: branch of getDiff's type switch and a failed type assertion.  None of them is
   reachable: on decoded JSON the type test before each assertion fixes the constructor, and no value has a
   type outside the switch.  (api_create_go returns None for a panic.) ---- *)
From JP Require Import Rfc7396 ImplMerge.
From JP Require CreateImpl.

Theorem C04_getDiff_never_panics : forall am bm,
  CreateImpl.get_diff_go (OObj am) (OObj bm) <> CreateImpl.GoPanic.
Proof. exact CreateImpl.get_diff_go_no_panic. Qed.
Print Assumptions C04_getDiff_never_panics.

Theorem C04_create_never_panics : forall a b,
  (forall ta, parse a = Some ta -> tnodup ta = true) ->
  (forall tb, parse b = Some tb -> tnodup tb = true) ->
  CreateImpl.api_create_go a b = Some (api_create a b).
Proof. exact CreateImpl.api_create_go_eq. Qed.
Print Assumptions C04_create_never_panics.

(* the legacy index methods as re-translated from the root patch.go: get, add and remove never reach a
   panicking index or slice expression (arrays shorter than 2^63); set does exactly for idx >= len, and
   replace asks get first (C18_replace_never_reaches_it) *)
From JP Require IndexTie4.
From JP.gen Require IndexGen4.
Theorem C04_legacy_go_add_never_panics : forall neg len a keyeq,
  (0 <= len < int64_max)%Z -> IndexTie4.atoi_ok4 a -> IndexGen4.idx4_add_gen neg len a keyeq <> IndexGen4.GPanic4.
Proof. exact IndexTie4.add4_gen_never_panics. Qed.
Print Assumptions C04_legacy_go_add_never_panics.

Theorem C04_legacy_go_remove_never_panics : forall neg len a keyeq,
  (0 <= len <= int64_max)%Z -> IndexTie4.atoi_ok4 a -> IndexGen4.idx4_remove_gen neg len a keyeq <> IndexGen4.GPanic4.
Proof. exact IndexTie4.remove4_gen_never_panics. Qed.
Print Assumptions C04_legacy_go_remove_never_panics.

Theorem C04_legacy_go_get_never_panics : forall neg len a keyeq,
  (0 <= len <= int64_max)%Z -> IndexTie4.atoi_ok4 a -> IndexGen4.idx4_get_gen neg len a keyeq <> IndexGen4.GPanic4.
Proof. exact IndexTie4.get4_gen_never_panics. Qed.
Print Assumptions C04_legacy_go_get_never_panics.

(* ---- the string decoder unquoteBytes (every member name and string the library decodes) as re-translated from
   decode.go on every run: no index, slice or EncodeRune write out of range, for EVERY byte string (UnquoteTie.v) ---- *)
From JP Require UnquoteTie.
From JP.gen Require UnquoteGen.
Theorem C04_go_string_decoder_never_panics : forall s,
  UnquoteGen.unquote_full_gen s <> UnquoteGen.UPanic /\ UnquoteGen.unquote_full_gen s <> UnquoteGen.UFuel.
Proof. exact UnquoteTie.unquote_full_gen_no_panic. Qed.
Print Assumptions C04_go_string_decoder_never_panics.
