(* C10 — safe for concurrent use, including a shared Patch.
   Model: any number of threads, each running any program of calls; a step lets any thread take
   ANY scratch object from the pool (or a fresh one), run its next call on it atomically with
   respect to that object, and put it back with arbitrary contents.  Proved: in every reachable
   state every thread holds exactly the results its calls return when run alone (no bound on
   threads, program length or interleaving).  Inputs (documents, the shared Patch) are immutable
   values of the model.  The ownership discipline this rests on is evaluated on the facts extracted
   from the current source (FactsGen.v, regenerated on every run).
   Partial (DESIGN section 11): whether an execution of the Go code contains a data race is a fact
   about the runtime's memory accesses; it is observed under the race detector on every run, not
   proved. *)
From Coq Require Import String.
From JP Require Import Bytes Json Text ImplV5 Pool Cli.
From JP.gen Require Import FactsGen.

Theorem C10_schedule_independent : forall leaves progs s,
  reachable leaves (mkSched [] (map (fun p => mkThread p []) progs)) s ->
  Forall2 thread_ok progs (threads s).
Proof. exact schedule_independent. Qed.
Print Assumptions C10_schedule_independent.

Theorem C10_results : forall leaves progs s,
  reachable leaves (mkSched [] (map (fun p => mkThread p []) progs)) s ->
  Forall (fun th => todo th = []) (threads s) ->
  map done (threads s) = map (map solo) progs.
Proof. exact schedule_results. Qed.
Print Assumptions C10_results.

(* the same call on a shared Patch and shared documents, from any thread, on any scratch object *)
Theorem C10_shared_inputs : forall r1 r2 c, run_call r1 c = run_call r2 c.
Proof. intros. now rewrite !call_residue_independent. Qed.
Print Assumptions C10_shared_inputs.

Example C10_facts_ok : discipline_ok = true.
Proof. vm_compute. reflexivity. Qed.

(* non-vacuity: a two-thread schedule in which the second thread reuses the object the first one
   dirtied *)
Example C10_nonvacuous :
  let c := CApply Cli.default_opts [] (B "[{""op"":""test"",""path"":"""",""value"":null}]") (B "null") in
  let leaves := fun (r : list bytes) (_ : call) => B "dirty" :: r in
  let s0 := mkSched [] [mkThread [c] []; mkThread [c] []] in
  exists s1 s2, sstep leaves s0 s1 /\ sstep leaves s1 s2 /\
    pool s2 = [[B "dirty"; B "dirty"]] /\ map done (threads s2) = [[solo c]; [solo c]].
Proof.
  intros c leaves s0.
  exists (mkSched [leaves [] c] [mkThread [] [run_call [] c]; mkThread [c] []]). eexists. split; [|split].
  - exact (SStep leaves [] [mkThread [c] []; mkThread [c] []] 0 (mkThread [c] []) c [] [] true 0 eq_refl eq_refl eq_refl).
  - exact (SStep leaves [leaves [] c] [mkThread [] [run_call [] c]; mkThread [c] []] 1 (mkThread [c] []) c []
             [B "dirty"] false 0 eq_refl eq_refl eq_refl).
  - vm_compute. split; reflexivity.
Qed.
