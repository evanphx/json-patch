(* C02 — RFC 7396 merge patch application (v5).  The model of MergePatch (ImplMerge.api_merge,
   tied to merge.go by the correspondence) refines the RFC's MergePatch (Rfc7396.merge_patch). *)
From JP Require Import Bytes Json Text Strings Den ImplV5 ImplMerge Rfc7396 JsonFacts MergeFacts Abs ImplMergeFacts.
From JP Require Import Scan OutputFacts.

(* For every pair of well-formed texts with a non-null document (no duplicate names): MergePatch
   returns a scalar or null patch verbatim; otherwise it returns the encoding of a node whose
   value (Abs.aval) is exactly — member order included — RFC 7396's MergePatch(document, patch).
   No bound on size or nesting. *)
Theorem C02_merge_refines_rfc : forall doc patch td tp,
  parse doc = Some td -> parse patch = Some tp -> td <> TNull -> tnodup td = true -> tnodup tp = true ->
  (scalar_text tp = true /\ api_merge false doc patch = MOut patch) \/
  (scalar_text tp = false /\ exists n, api_merge false doc patch = MOut (marshal_node n) /\ nwf n /\
                                       aval n = merge_patch (den td) (den tp)).
Proof. exact api_merge_spec. Qed.
Print Assumptions C02_merge_refines_rfc.

(* the recursive core: merge(cur, patch) on any node in any parse state, at every depth *)
Theorem C02_merge_core : forall fuel p cur,
  (tsize p < fuel)%nat -> tnodup p = true -> nwf cur ->
  aval (merge_n fuel false cur p) = merge_patch (aval cur) (den p) /\ nwf (merge_n fuel false cur p).
Proof. exact merge_n_spec. Qed.
Print Assumptions C02_merge_core.

(* a new object value is stored with its own null members dropped (pruneNulls) *)
Theorem C02_new_value_pruned : forall t,
  tnodup t = true -> aval (prune_t t) = merge_patch ONull (den t) /\ nwf (prune_t t).
Proof. exact prune_t_spec. Qed.
Print Assumptions C02_new_value_pruned.

(* any non-object patch replaces the document wholesale: the reference has no array case *)
Theorem C02_nonobject_patch_replaces : forall t p, (forall ms, p <> OObj ms) -> merge_patch t p = p.
Proof. exact merge_patch_nonobj. Qed.
Print Assumptions C02_nonobject_patch_replaces.

(* a non-object document is treated as an empty object *)
Theorem C02_nonobject_document : forall t t' p,
  members_of t = members_of t' -> merge_patch t p = merge_patch t' p.
Proof. exact merge_patch_target_irrelevant. Qed.
Print Assumptions C02_nonobject_document.

(* the reference on one member name: absent in the patch -> kept, null -> deleted, otherwise merged *)
Theorem C02_member : forall t pms k,
  NoDup (map fst pms) ->
  aget k (members_of (merge_patch t (OObj pms))) = merge_lookup (aget k pms) (aget k (members_of t)).
Proof. intros. rewrite merge_patch_obj. simpl. now apply merge_members_lookup. Qed.
Print Assumptions C02_member.

(* the output BYTES: for every pair of well-formed texts (non-null document, no duplicate names) the
   bytes MergePatch returns are one well-formed JSON text (the independent reader Text.parse reads
   it, the scanner accepts it) whose value is exactly RFC 7396's MergePatch(document, patch).
   No hypothesis on nesting: the result is never nested deeper than the deeper of the two inputs. *)
Theorem C02_merge_output_bytes : forall doc patch td tp,
  parse doc = Some td -> parse patch = Some tp -> td <> TNull -> tnodup td = true -> tnodup tp = true ->
  exists out t', api_merge false doc patch = MOut out /\ parse out = Some t' /\
                 den t' = merge_patch (den td) (den tp) /\ valid_gen out = true.
Proof. exact api_merge_output. Qed.
Print Assumptions C02_merge_output_bytes.

(* ... and without any hypothesis on the inputs (duplicate names included): whatever MergePatch or
   MergeMergePatches returns is a well-formed JSON text *)
Theorem C02_merge_output_wellformed : forall mm doc patch out,
  api_merge mm doc patch = MOut out -> exists t', parse out = Some t'.
Proof. exact api_merge_output_general. Qed.
Print Assumptions C02_merge_output_wellformed.

Example C02_nonvacuous :
  api_merge false (B "{""a"":{""x"":1,""y"":[1,{""q"":null}]},""k"":""s"",""n"":1e400}")
                  (B " {""a"":{""x"":null,""z"":{""u"":null,""w"":[null]}},""n"":null,""m"":{""d"":null}} ")
  = MOut (B "{""a"":{""y"":[1,{""q"":null}],""z"":{""w"":[null]}},""k"":""s"",""m"":{}}") /\
  api_merge false (B "[1]") (B " 2 ") = MOut (B " 2 ").
Proof. vm_compute. split; reflexivity. Qed.

(* ---- the main theorems applied: every hypothesis of C02_merge_refines_rfc and C02_merge_output_bytes
   discharged on the document and patch of C02_nonvacuous (nulls at depth 1 and 2, a null inside an array,
   a new object member that is pruned, a number outside float range); the patch is an object, so the theorem
   yields its second branch ---- *)
Definition C02_ex_doc := B "{""a"":{""x"":1,""y"":[1,{""q"":null}]},""k"":""s"",""n"":1e400}".
Definition C02_ex_patch := B " {""a"":{""x"":null,""z"":{""u"":null,""w"":[null]}},""n"":null,""m"":{""d"":null}} ".
Definition C02_ex_td : tjson := match parse C02_ex_doc with Some t => t | None => TNull end.
Definition C02_ex_tp : tjson := match parse C02_ex_patch with Some t => t | None => TNull end.

Example C02_main_theorem_applies :
  (exists n, api_merge false C02_ex_doc C02_ex_patch = MOut (marshal_node n) /\ nwf n /\
             aval n = merge_patch (den C02_ex_td) (den C02_ex_tp)) /\
  (exists out t', api_merge false C02_ex_doc C02_ex_patch = MOut out /\ parse out = Some t' /\
                  den t' = merge_patch (den C02_ex_td) (den C02_ex_tp) /\ valid_gen out = true).
Proof.
  assert (Pd : parse C02_ex_doc = Some C02_ex_td) by (vm_compute; reflexivity).
  assert (Pp : parse C02_ex_patch = Some C02_ex_tp) by (vm_compute; reflexivity).
  assert (NN : C02_ex_td <> TNull) by (vm_compute; discriminate).
  assert (Nd : tnodup C02_ex_td = true) by (vm_compute; reflexivity).
  assert (Np : tnodup C02_ex_tp = true) by (vm_compute; reflexivity).
  split; [|exact (C02_merge_output_bytes _ _ _ _ Pd Pp NN Nd Np)].
  destruct (C02_merge_refines_rfc _ _ _ _ Pd Pp NN Nd Np) as [[S _] | [_ H]]; [|exact H].
  vm_compute in S. discriminate S.
Qed.
Print Assumptions C02_main_theorem_applies.
