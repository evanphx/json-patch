(* C14 — EnsurePathExistsOnAdd (v5 model). *)
From Coq Require Import Lia.
From JP Require Import Bytes Json Text Strings Den Pointer Rfc6902 ImplV5 Domain ImplFacts RefFacts ApplyFacts ApplySim AllowEnsureFacts.

(* an add that succeeds without the option gives the same result with it: when every parent of
   the path exists, ensurePathExists creates nothing and the add is the reference's add *)
Theorem C14_agrees_with_plain_add : forall o st op r c j',
  s_root st = RCon c -> cgood c -> o_ensure o = true ->
  op_str op (B "path") = Ok (x2f :: r) -> Forall tok_dom (map decode_token (split_slash r)) -> val_good op ->
  at_parent (dia o) (ptoks r) (cval c) (add_leaf (dia o) (ref_value op)) = Rfc6902.Ok j' ->
  exists st', op_add o st op = Ok st' /\ sval st' = j' /\ sgood st'.
Proof. exact ensure_agrees. Qed.
Print Assumptions C14_agrees_with_plain_add.

(* walking existing parents changes no value (it only parses them) *)
Theorem C14_existing_parents_untouched : forall o parts c,
  cgood c -> Forall tok_dom (map decode_token parts) ->
  (exists p, descend (dia o) (map decode_token (removelast parts)) (cval c) = Some p /\ is_container p = true) ->
  exists c', ensure o parts c = (None, c') /\ cval c' = cval c /\ cgood c'.
Proof. exact ensure_existing. Qed.
Print Assumptions C14_existing_parents_untouched.

Theorem C14_errors_are_plain : forall o parts c e c', ensure o parts c = (Some e, c') -> plain_err e = true.
Proof. intros o parts c e c' H. rewrite (ensure_errs o parts c e c' H). reflexivity. Qed.
Print Assumptions C14_errors_are_plain.

(* ensurePathExists builds exactly ens (the value-level creation function of AllowEnsureFacts.v: walk
   the existing containers; at the first missing token pad the array if it is one, create an array
   when the NEXT token is an index or "-" and an object otherwise, padded with nulls up to that index)
   for every path whose decoded tokens are member names or canonical non-negative indices *)
Theorem C14_ensure_is_ens : forall o parts c j1,
  cgood c -> Forall ctok (map decode_token parts) ->
  ens (dia o) (map decode_token parts) (cval c) = Some j1 ->
  exists c1, ensure o parts c = (None, c1) /\ cval c1 = j1 /\ cgood c1.
Proof. exact ensure_sim. Qed.
Print Assumptions C14_ensure_is_ens.

(* the add with the option on is the reference's add on the document ens built *)
Theorem C14_add_after_ens : forall o st op r c j1,
  s_root st = RCon c -> cgood c -> o_ensure o = true ->
  op_str op (B "path") = Ok (x2f :: r) -> Forall ctok (map decode_token (split_slash r)) -> val_good op ->
  ens (dia o) (ptoks r) (cval c) = Some j1 ->
  match at_parent (dia o) (ptoks r) j1 (add_leaf (dia o) (ref_value op)) with
  | Rfc6902.Ok j' => exists st', op_add o st op = Ok st' /\ sval st' = j' /\ sgood st' /\ s_acc st' = s_acc st
  | Rfc6902.Fail cz => exists e, op_add o st op = Err e /\ cause_rel cz e
  end.
Proof. exact ensure_add_sim. Qed.
Print Assumptions C14_add_after_ens.

(* the creation clauses in closed form: the parents ps exist and lead to the container p, the
   token t is missing there (growable: p is an object, or an array and t an index not below its
   length), rest are the tokens after t.  The add succeeds and the document is the old one in which
   p has grown by t holding chain rest v: created containers hold nothing but the path and the padding *)
Theorem C14_creates : forall o st op r c ps t rest p,
  s_root st = RCon c -> cgood c -> o_ensure o = true ->
  op_str op (B "path") = Ok (x2f :: r) -> Forall ctok (map decode_token (split_slash r)) -> val_good op ->
  map decode_token (split_slash r) = ps ++ t :: rest ->
  descend (dia o) ps (cval c) = Some p -> growable (dia o) p t -> rest <> [] -> Forall nodash (t :: removelast rest) ->
  exists st', op_add o st op = Ok st' /\
              sval st' = rebuild (dia o) ps (cval c) (grow p t (chain rest (ref_value op))) /\
              sgood st' /\ s_acc st' = s_acc st.
Proof. exact ensure_creates. Qed.
Print Assumptions C14_creates.

(* (b) a chain of several missing object parents *)
Theorem C14_creates_object_chain : forall o st op r c ps t rest ms,
  s_root st = RCon c -> cgood c -> o_ensure o = true ->
  op_str op (B "path") = Ok (x2f :: r) -> Forall ctok (map decode_token (split_slash r)) -> val_good op ->
  map decode_token (split_slash r) = ps ++ t :: rest ->
  descend (dia o) ps (cval c) = Some (OObj ms) -> aget t ms = None -> rest <> [] -> Forall is_name (t :: rest) ->
  exists st', op_add o st op = Ok st' /\
              sval st' = rebuild (dia o) ps (cval c) (OObj (ms ++ [(t, obj_chain rest (ref_value op))])) /\
              sgood st' /\ s_acc st' = s_acc st.
Proof.
  intros o st op r c ps t rest ms Hr G En Hp D Vg Tk Hd Ha NE Nm. inversion Nm as [|? ? Nt Nr]; subst.
  rewrite <- (chain_names rest (ref_value op) Nr), <- (grow_obj_missing ms t _ Ha).
  eapply ensure_creates; eauto.
  - split; [exact Ha | exact I].
  - constructor; [exact (proj1 Nt)|]. apply Forall_removelast. apply is_name_nodash. exact Nr.
Qed.
Print Assumptions C14_creates_object_chain.

(* (a) the single missing last parent of an object path *)
Theorem C14_creates_last_parent : forall o st op r c ps t k ms,
  s_root st = RCon c -> cgood c -> o_ensure o = true ->
  op_str op (B "path") = Ok (x2f :: r) -> Forall ctok (map decode_token (split_slash r)) -> val_good op ->
  map decode_token (split_slash r) = ps ++ [t; k] ->
  descend (dia o) ps (cval c) = Some (OObj ms) -> aget t ms = None -> is_name t -> is_name k ->
  exists st', op_add o st op = Ok st' /\
              sval st' = rebuild (dia o) ps (cval c) (OObj (ms ++ [(t, OObj [(k, ref_value op)])])) /\
              sgood st' /\ s_acc st' = s_acc st.
Proof.
  intros o st op r c ps t k ms Hr G En Hp D Vg Tk Hd Ha Nt Nk.
  apply (C14_creates_object_chain o st op r c ps t [k] ms Hr G En Hp D Vg Tk Hd Ha); [discriminate|].
  exact (Forall_cons _ Nt (Forall_cons _ Nk (Forall_nil _))).
Qed.
Print Assumptions C14_creates_last_parent.

(* (c) arrays: created when the next token is an index (padded with nulls up to it) or "-";
   an existing array that is too short is padded up to the index of the missing parent *)
Theorem C14_creates_array : forall o st op r c ps t i n rest ms,
  s_root st = RCon c -> cgood c -> o_ensure o = true ->
  op_str op (B "path") = Ok (x2f :: r) -> Forall ctok (map decode_token (split_slash r)) -> val_good op ->
  map decode_token (split_slash r) = ps ++ t :: i :: rest ->
  descend (dia o) ps (cval c) = Some (OObj ms) -> aget t ms = None -> nodash t ->
  canonical_nat i = Some n -> Forall nodash (removelast (i :: rest)) ->
  exists st', op_add o st op = Ok st' /\
              sval st' = rebuild (dia o) ps (cval c)
                           (OObj (ms ++ [(t, OArr (repeat ONull (Z.to_nat n) ++ [chain rest (ref_value op)]))])) /\
              sgood st' /\ s_acc st' = s_acc st.
Proof.
  intros o st op r c ps t i n rest ms Hr G En Hp D Vg Tk Hd Ha Nt Hn ND.
  rewrite <- (chain_index i n rest (ref_value op) Hn), <- (grow_obj_missing ms t _ Ha).
  eapply ensure_creates; eauto; try discriminate; try (split; [exact Ha | exact I]); try (constructor; auto).
Qed.
Print Assumptions C14_creates_array.

Theorem C14_creates_array_dash : forall o st op r c ps t ms,
  s_root st = RCon c -> cgood c -> o_ensure o = true ->
  op_str op (B "path") = Ok (x2f :: r) -> Forall ctok (map decode_token (split_slash r)) -> val_good op ->
  map decode_token (split_slash r) = ps ++ [t; [x2d]] ->
  descend (dia o) ps (cval c) = Some (OObj ms) -> aget t ms = None -> nodash t ->
  exists st', op_add o st op = Ok st' /\
              sval st' = rebuild (dia o) ps (cval c) (OObj (ms ++ [(t, OArr [ref_value op])])) /\
              sgood st' /\ s_acc st' = s_acc st.
Proof.
  intros o st op r c ps t ms Hr G En Hp D Vg Tk Hd Ha Nt.
  change (OArr [ref_value op]) with (chain [[x2d]] (ref_value op)). rewrite <- (grow_obj_missing ms t _ Ha).
  eapply ensure_creates; eauto; try discriminate; try (split; [exact Ha | exact I]); try (repeat constructor; auto).
Qed.
Print Assumptions C14_creates_array_dash.

Theorem C14_pads_array : forall o st op r c ps t n rest l,
  s_root st = RCon c -> cgood c -> o_ensure o = true ->
  op_str op (B "path") = Ok (x2f :: r) -> Forall ctok (map decode_token (split_slash r)) -> val_good op ->
  map decode_token (split_slash r) = ps ++ t :: rest ->
  descend (dia o) ps (cval c) = Some (OArr l) -> canonical_nat t = Some n -> (Z.of_nat (length l) <= n)%Z ->
  rest <> [] -> Forall nodash (removelast rest) ->
  exists st', op_add o st op = Ok st' /\
              sval st' = rebuild (dia o) ps (cval c)
                           (OArr (l ++ repeat ONull (Z.to_nat n - length l) ++ [chain rest (ref_value op)])) /\
              sgood st' /\ s_acc st' = s_acc st.
Proof.
  intros o st op r c ps t n rest l Hr G En Hp D Vg Tk Hd Hn Ln NE ND.
  rewrite <- (grow_arr_index l t n _ Hn).
  eapply ensure_creates; eauto.
  - split; [|right; eauto]. cbn [child_at]. unfold idx_existing, Rfc6902.zlen. rewrite Hn.
    replace (n <? Z.of_nat (length l))%Z with false by (symmetry; apply Z.ltb_ge; lia). reflexivity.
  - constructor; auto. intro E. subst t. discriminate.
Qed.
Print Assumptions C14_pads_array.

(* afterwards the added value is found at the path (last token a member name or an index; for "-"
   it is the last element of the array) *)
Theorem C14_found : forall o st op r c j1 st',
  s_root st = RCon c -> cgood c -> o_ensure o = true ->
  op_str op (B "path") = Ok (x2f :: r) -> Forall ctok (map decode_token (split_slash r)) -> val_good op ->
  ens (dia o) (ptoks r) (cval c) = Some j1 -> nodash (path_key r) ->
  op_add o st op = Ok st' ->
  get_at (dia o) (ptoks r) (sval st') = Rfc6902.Ok (ref_value op).
Proof. exact ensure_add_found. Qed.
Print Assumptions C14_found.

(* every location that existed before and is not on the path keeps its value (an add that had to
   create at least one parent; when all parents exist it is the plain add, C14_agrees_with_plain_add) *)
Theorem C14_frame : forall o st op r c j1 st',
  s_root st = RCon c -> cgood c -> o_ensure o = true ->
  op_str op (B "path") = Ok (x2f :: r) -> Forall ctok (map decode_token (split_slash r)) -> val_good op ->
  ens (dia o) (ptoks r) (cval c) = Some j1 ->
  Forall nodash (map decode_token (path_parts r)) ->
  descend (dia o) (map decode_token (path_parts r)) (cval c) = None ->
  op_add o st op = Ok st' ->
  forall q x, Forall nonneg q -> get_at (dia o) q (sval st) = Rfc6902.Ok x -> ~ is_prefix q (ptoks r) ->
              get_at (dia o) q (sval st') = Rfc6902.Ok x.
Proof. exact ensure_add_frame. Qed.
Print Assumptions C14_frame.

(* creation: missing parents are created — an array when the next token is an index or "-",
   an object otherwise — padded with nulls up to the index, tokens decoded; what existed stays *)
Example C14_nonvacuous :
  match api_decode (B "[{""op"":""add"",""path"":""/a~1b/2/c/-"",""value"":1},{""op"":""add"",""path"":""/x/y"",""value"":2},{""op"":""add"",""path"":""/k/0"",""value"":3}]") with
  | Some p => api_apply (mkOpts true 0 false true true [] None) [] p (B "{""k"":[9],""x"":{""z"":0}}")
              = ROut (B "{""k"":[3,9],""x"":{""z"":0,""y"":2},""a/b"":[null,null,{""c"":[1]}]}")
  | None => False
  end.
Proof. vm_compute. reflexivity. Qed.

(* ---- the main theorems applied: every hypothesis of C14_add_after_ens, C14_found and C14_frame discharged
   on the loaded document {"k":[9],"x":{"z":0}} and the add of {"v":1} at /a~1b/2/c/1, none of whose parents
   exists, with EnsurePathExistsOnAdd on (and, to show that the other options are free, the remove option on
   and a copy-size limit).  ens creates the array a/b padded with two nulls, the object at 2, the array c
   padded with one null; the theorems yield: the add succeeds with exactly that document, the value is found
   at the path, and the old location /k/0 still holds 9. ---- *)
From JP Require Abs StrInv PointerDomain EnsureSim.
Import PointerDomain.
Import Abs.
Definition C14_ex_doc := B "{""k"":[9],""x"":{""z"":0}}".
Definition C14_ex_patch := B "[{""op"":""add"",""path"":""/a~1b/2/c/1"",""value"":{""v"":1}}]".
Definition C14_ex_o := mkOpts false 7 true true false [] None.
Definition C14_ex_t : tjson := Eval vm_compute in match parse C14_ex_doc with Some t => t | None => TNull end.
Definition C14_ex_op : operation := Eval vm_compute in match api_decode C14_ex_patch with Some [op] => op | _ => [] end.
Definition C14_ex_c : con := Eval vm_compute in match load_doc C14_ex_o C14_ex_t with Ok (RCon c) => c | _ => KAry NNil [] end.
Definition C14_ex_r := B "a~1b/2/c/1".
Definition C14_ex_j1 : ojson :=
  Eval vm_compute in match ens (dia C14_ex_o) (ptoks C14_ex_r) (den C14_ex_t) with Some j => j | None => ONull end.
Definition C14_ex_result : ojson :=
  den (TObj [(B "k", TArr [TNum (B "9")]); (B "x", TObj [(B "z", TNum (B "0"))]);
             (B "a/b", TArr [TNull; TNull; TObj [(B "c", TArr [TNull; TObj [(B "v", TNum (B "1"))]])]])]).

Example C14_main_theorem_applies :
  exists st', op_add C14_ex_o (mkState (RCon C14_ex_c) 0) C14_ex_op = Ok st' /\
    sval st' = C14_ex_result /\ sgood st' /\ s_acc st' = 0%Z /\
    get_at (dia C14_ex_o) [B "a/b"; B "2"; B "c"; B "1"] (sval st') = Rfc6902.Ok (den (TObj [(B "v", TNum (B "1"))])) /\
    get_at (dia C14_ex_o) [B "k"; B "0"] (sval st') = Rfc6902.Ok (ONum (B "9")).
Proof.
  assert (P : parse C14_ex_doc = Some C14_ex_t) by (vm_compute; reflexivity).
  destruct (CauseFacts.api_start C14_ex_o C14_ex_doc C14_ex_t P eq_refl eq_refl) as [c0 [_ [_ [[c [Hr G]] V]]]].
  change (CauseFacts.init_state C14_ex_o C14_ex_t) with (mkState (RCon C14_ex_c) 0) in Hr, V.
  injection Hr as <-. change (cval C14_ex_c = den C14_ex_t) in V.
  assert (VG : val_good C14_ex_op).
  { assert (Dp : Forall op_dom [C14_ex_op])
      by (apply (PointerDomain.decoded_in_domain_op_dom C14_ex_patch); vm_compute; reflexivity).
    inversion Dp as [|? ? D _]. exact (proj1 D). }
  assert (CT : Forall ctok (map decode_token (split_slash C14_ex_r)))
    by (apply EnsureSim.ctoks_ascii_ok; vm_compute; reflexivity).
  assert (EN : ens (dia C14_ex_o) (ptoks C14_ex_r) (cval C14_ex_c) = Some C14_ex_j1) by (rewrite V; vm_compute; reflexivity).
  pose proof (C14_add_after_ens C14_ex_o (mkState (RCon C14_ex_c) 0) C14_ex_op C14_ex_r C14_ex_c C14_ex_j1
                eq_refl G eq_refl eq_refl CT VG EN) as H.
  assert (R : at_parent (dia C14_ex_o) (ptoks C14_ex_r) C14_ex_j1 (add_leaf (dia C14_ex_o) (ref_value C14_ex_op))
              = Rfc6902.Ok C14_ex_result) by (vm_compute; reflexivity).
  rewrite R in H. destruct H as [st' [H1 [H2 [H3 H4]]]]. exists st'.
  split; [exact H1|]. split; [exact H2|]. split; [exact H3|]. split; [exact H4|]. split.
  - assert (ND : nodash (path_key C14_ex_r)) by (vm_compute; discriminate).
    exact (C14_found C14_ex_o (mkState (RCon C14_ex_c) 0) C14_ex_op C14_ex_r C14_ex_c C14_ex_j1 st'
             eq_refl G eq_refl eq_refl CT VG EN ND H1).
  - apply (C14_frame C14_ex_o (mkState (RCon C14_ex_c) 0) C14_ex_op C14_ex_r C14_ex_c C14_ex_j1 st'
             eq_refl G eq_refl eq_refl CT VG EN).
    + change (path_parts C14_ex_r) with [B "a~1b"; B "2"; B "c"]. cbn [map].
      repeat (apply Forall_cons; [vm_compute; discriminate|]). apply Forall_nil.
    + rewrite V. vm_compute. reflexivity.
    + exact H1.
    + repeat (apply Forall_cons; [vm_compute; reflexivity|]). apply Forall_nil.
    + unfold sval. cbn [s_root]. rewrite V. vm_compute. reflexivity.
    + intros [s Hs]. vm_compute in Hs. discriminate Hs.
Qed.
Print Assumptions C14_main_theorem_applies.

(* ---- whole patches with the option on (EnsureSim.v): "followed by arbitrary further operations".
   The reference rfc_ens_step creates the missing parents (ens) before an add and is rfc_step otherwise;
   Apply of the model simulates it for every patch in the domain, with the first failing operation and its
   cause class.  DOMAIN: ensure_opts (option on, AllowMissingPathOnRemove off, no copy limit), the C01 token
   domain, the tokens of add paths names or canonical non-negative indices (ctok), and no null on the
   existing part of an add path (ens_run_fits) — the property excludes null and scalar values on the path,
   and the hypothesis is needed: C14_null_parent_depends_on_representation. ---- *)
From JP Require Import Rfc6902 Domain ApplySim.

Theorem C14_whole_patch : forall o indent p doc t,
  EnsureSim.ensure_opts o -> parse doc = Some t -> root_container t = true -> tnodup t = true ->
  Forall EnsureSim.ens_op_dom p ->
  EnsureSim.ens_run_fits (dia o) (den t) (map den_op p) = true ->
  match EnsureSim.rfc_ens_apply (dia o) (den t) (map den_op p) with
  | Done j => exists n, api_apply o indent p doc = ROut (output o indent (render (o_esc o) n)) /\ aval n = j /\ ngood n
  | Failed i cz => exists e, api_apply o indent p doc = RErr (Some i) e /\ cause_rel cz e
  end.
Proof. exact EnsureSim.api_apply_ens_sim. Qed.
Print Assumptions C14_whole_patch.

(* "an add that succeeds without the option gives the same result with it", for whole patches *)
Theorem C14_agrees_when_parents_exist : forall d doc p doc',
  rfc_apply d doc p = Done doc' -> EnsureSim.rfc_ens_apply d doc p = Done doc'.
Proof. intros d doc p doc' H. exact (proj1 (EnsureSim.ens_agrees_from d p 0%nat doc doc' H)). Qed.
Print Assumptions C14_agrees_when_parents_exist.

Theorem C14_apply_agrees_when_parents_exist : forall o indent p doc t j,
  EnsureSim.ensure_opts o -> parse doc = Some t -> root_container t = true -> tnodup t = true ->
  Forall EnsureSim.ens_op_dom p ->
  copies_fit (dia o) (den t) (map den_op p) = true ->
  rfc_apply (dia o) (den t) (map den_op p) = Done j ->
  exists n, api_apply o indent p doc = ROut (output o indent (render (o_esc o) n)) /\ aval n = j /\ ngood n.
Proof.
  intros o indent p doc t j EO P RC T D F R.
  destruct (EnsureSim.ens_agrees_from (dia o) (map den_op p) 0%nat (den t) j R) as [A1 A2].
  pose proof (EnsureSim.api_apply_ens_sim o indent p doc t EO P RC T D (A2 F)) as S.
  unfold EnsureSim.rfc_ens_apply in S. rewrite A1 in S. exact S.
Qed.
Print Assumptions C14_apply_agrees_when_parents_exist.

(* the option is consulted by add only *)
Theorem C14_option_only_read_by_add : forall o b st op,
  op_kind op <> KAdd -> step (EnsureSim.set_ensure o b) st op = step o st op.
Proof.
  intros o b st op K. apply step_opts. split; [reflexivity|]. destruct (op_kind op); try congruence; repeat split.
Qed.
Print Assumptions C14_option_only_read_by_add.

Definition C14_null_parent_depends_on_representation := EnsureSim.null_parent_depends_on_representation.
Definition C14_whole_patch_applies := EnsureSim.ens_main_theorem_applies.
Check C14_null_parent_depends_on_representation.
