(* C01 — RFC 6902 application computes the RFC result (v5).
   The model of patch.go (ImplV5: lazily parsed nodes, ordered key lists + member maps, in-place
   index arithmetic, the pointer walk of findObject, the six operations) is proved to refine the
   reference semantics Rfc6902.rfc_apply, for ALL documents and ALL operation sequences in the
   property's stated domain, with SupportNegativeIndices on or off.  The model is tied to the Go
   code by the correspondence run (see evidence). *)
From JP Require Import Bytes Json Text Strings Den Pointer Rfc6902 ImplV5 Domain JsonFacts Abs EqualFacts ImplFacts RefFacts ApplyFacts Codec StrInv Depth ApplySim PointerDomain.
From JP Require IndexTie.
From JP.gen Require IndexGen.

(* Apply on bytes.  Hypotheses = the property's domain: root object/array without duplicate names
   (tnodup), operations in op_dom (pointers "" or /tok/.../tok with non-empty tokens whose numeric
   spellings are canonical and which are valid UTF-8; "" not the target of remove/copy/move; root
   not replaced by null; patch values without duplicate names and with string bodies the scanner
   accepts), plain options (the three behavioural options are C12, C13, C14).  The two string
   conditions hold of EVERY decoded patch (C01_decoded_strings below): pointers are decoded strings,
   values are parsed texts.  Patches that contain a copy are covered like all others: the codec
   round trip of deepCopy is proved (StrInv.codec_thm) from the string invariant carried by ngood.
   copies_fit (Domain.v): no copy operation that the reference run reaches has a source value nested
   deeper than 10000 levels (Text.max_depth, the decoder's limit): deepCopy refuses such a value
   (fix dc05ac4; before it, the copy was stored raw and a later lazy parse panicked).  The condition
   follows the reference run; it holds for every patch without copy (copies_fit_no_copy_ops) and
   whenever the documents the run passes through are themselves at most 10000 deep
   (C01_shallow_document_fits below).  What happens when it fails: C01_copy_too_deep_is_an_error below.
   Conclusion: Apply succeeds exactly when the reference does; then the output encodes a node
   whose value IS the reference result (so, a fortiori, structurally equal); a failure is reported
   at the same operation index. *)
Theorem C01_apply_refines_rfc : forall o indent p doc t,
  plain_opts o -> parse doc = Some t -> root_container t = true -> tnodup t = true ->
  Forall op_dom p ->
  copies_fit (dia o) (den t) (map den_op p) = true ->
  match rfc_apply (dia o) (den t) (map den_op p) with
  | Done j => exists n, api_apply o indent p doc = ROut (output o indent (render (o_esc o) n)) /\ aval n = j /\ ngood n
  | Failed i cz => exists e, api_apply o indent p doc = RErr (Some i) e /\ cause_rel cz e
  end.
Proof. exact api_apply_sim. Qed.
Print Assumptions C01_apply_refines_rfc.

(* the string conditions of op_dom are theorems for decoded patches: every text stored in a decoded
   operation has scanner-accepted string bodies (so path and from, being decoded strings, are valid
   UTF-8, and so is every reference token: splitting at '/' and undoing ~0 ~1 keep validity) *)
Theorem C01_decoded_strings : forall bs p, api_decode bs = Some p ->
  Forall (fun op => op_tsb op /\
                    (forall k s, op_str op k = Ok s -> utf8 s) /\
                    (forall k r, op_str op k = Ok (x2f :: r) -> Forall utf8 (map decode_token (split_slash r)))) p.
Proof.
  intros bs p H. apply api_decode_tsb in H. rewrite Forall_forall in *. intros op Hin. specialize (H op Hin).
  split; [exact H|]. split.
  - intros k s E. eapply op_tsb_str; eauto.
  - intros k r E. apply utf8_pointer_tokens. eapply op_tsb_str; eauto.
Qed.
Print Assumptions C01_decoded_strings.

(* the same theorem with the domain stated by the boolean predicates the harness evaluates on the
   decoded patch (Domain.in_domain_C01, plus op_small: canonical numbers fit 64 bits) *)
Theorem C01_apply_refines_rfc_decoded : forall o indent patch p doc t,
  plain_opts o ->
  api_decode patch = Some p -> in_domain_C01 p = true -> forallb op_small p = true ->
  parse doc = Some t -> root_container t = true -> tnodup t = true ->
  copies_fit (dia o) (den t) (map den_op p) = true ->
  match rfc_apply (dia o) (den t) (map den_op p) with
  | Done j => exists n, api_apply o indent p doc = ROut (output o indent (render (o_esc o) n)) /\ aval n = j /\ ngood n
  | Failed i cz => exists e, api_apply o indent p doc = RErr (Some i) e /\ cause_rel cz e
  end.
Proof. exact C01_on_boolean_domain. Qed.
Print Assumptions C01_apply_refines_rfc_decoded.

(* one operation on any reachable state, whatever lazy parsing earlier operations left behind *)
Theorem C01_step_refines_rfc : forall o st op,
  sgood st -> plain_opts o -> op_dom op ->
  copy_fits (dia o) (sval st) (den_op op) = true ->
  match rfc_step (dia o) (sval st) (den_op op) with
  | Rfc6902.Ok j' => exists st', step o st op = Ok st' /\ sval st' = j' /\ sgood st'
  | Rfc6902.Fail cz => exists e, step o st op = Err e /\ cause_rel cz e
  end.
Proof. exact step_sim. Qed.
Print Assumptions C01_step_refines_rfc.

(* the complementary case: the operation is a copy whose source resolves (in the reference) to a
   value nested deeper than the decoder's limit.  The library then reports deepCopy's error — for
   every option setting (the depth check precedes the size limit) — unless the destination parent
   is unreachable, which copy() checks first and the reference reports too.  Never a success,
   never a panic. *)
Theorem C01_copy_too_deep_is_an_error : forall o st op,
  sgood st -> op_dom op ->
  copy_fits (dia o) (sval st) (den_op op) = false ->
  step o st op = Err EInvalid \/
  (step o st op = Err EMissing /\ rfc_step (dia o) (sval st) (den_op op) = Rfc6902.Fail FUnreachable).
Proof. exact step_copy_too_deep. Qed.
Print Assumptions C01_copy_too_deep_is_an_error.

(* the same for whole patches on bytes: the patch is rejected, at the copy that does not fit *)
Theorem C01_copy_too_deep_rejects_patch : forall o indent p doc t,
  plain_opts o -> parse doc = Some t -> root_container t = true -> tnodup t = true ->
  Forall op_dom p ->
  copies_fit (dia o) (den t) (map den_op p) = false ->
  match rfc_apply (dia o) (den t) (map den_op p) with
  | Done _ => exists j, api_apply o indent p doc = RErr (Some j) EInvalid
  | Failed k cz => exists j e, api_apply o indent p doc = RErr (Some j) e /\ (e = EInvalid \/ (j = k /\ cause_rel cz e))
  end.
Proof. exact api_apply_copy_too_deep. Qed.
Print Assumptions C01_copy_too_deep_rejects_patch.

(* the check the model makes (on the re-encoded text) is a check of the VALUE copied: copy_fits and
   copies_fit speak about exactly what deepCopy measures *)
Theorem C01_depth_check_is_value_depth : forall o v,
  nwf v -> copy_too_deep o v = (max_depth <? odepth (aval v))%N.
Proof. exact copy_too_deep_val. Qed.
Print Assumptions C01_depth_check_is_value_depth.

Theorem C01_no_copy_fits : forall d p doc,
  Forall (fun op => op_kind op <> KCopy) p -> copies_fit d doc (map den_op p) = true.
Proof. exact copies_fit_no_copy_ops. Qed.
Print Assumptions C01_no_copy_fits.

Theorem C01_shallow_document_fits : forall d doc o, (odepth doc <= max_depth)%N -> copy_fits d doc o = true.
Proof.
  intros d doc o B. unfold copy_fits. destruct (rkind o); try reflexivity.
  destruct (ptr_tokens (rfrom o)) as [ftoks|]; [|reflexivity].
  destruct (get_at d ftoks doc) as [v|] eqn:E; [|reflexivity].
  apply get_at_depth in E. apply N.leb_le. exact (N.le_trans _ _ _ E B).
Qed.
Print Assumptions C01_shallow_document_fits.

(* the pointer walk: findObject reaches exactly the container the reference descends to, and lazy
   parsing along the way never changes the document's value *)
Theorem C01_walk : forall o parts c,
  cgood c -> Forall tok_dom (map decode_token parts) ->
  match descend (dia o) (map decode_token parts) (cval c) with
  | Some p =>
      if is_container p then
        exists cp (back : con -> con), cval cp = p /\ cgood cp /\
          (forall A (f : con -> A * con), walk o parts c f = (Some (fst (f cp)), back (snd (f cp)))) /\
          (forall cp', cgood cp' ->
             cval (back cp') = rebuild (dia o) (map decode_token parts) (cval c) (cval cp') /\ cgood (back cp'))
      else exists c', (forall A (f : con -> A * con), walk o parts c f = (None, c')) /\ cval c' = cval c /\ cgood c'
  | None => exists c', (forall A (f : con -> A * con), walk o parts c f = (None, c')) /\ cval c' = cval c /\ cgood c'
  end.
Proof. exact walk_spec. Qed.
Print Assumptions C01_walk.

(* the index arithmetic of partialArray for every length and every canonical token *)
Theorem C01_get_index : forall o (l : list node) t,
  tok_small t -> tok_canonical t ->
  match idx_existing (dia o) (Rfc6902.zlen l) t with
  | Some i => resolve_idx_get o (ImplV5.zlen l) t = Ok i /\ (i < length l)%nat
  | None => exists e, resolve_idx_get o (ImplV5.zlen l) t = Err e /\ (e = EInvalidIndex \/ e = EAtoi)
  end.
Proof. intros. now apply resolve_idx_get_ref. Qed.
Print Assumptions C01_get_index.

Theorem C01_add_index : forall o (ns : list node) t v,
  tok_small t -> add_tok t ->
  match idx_insert (dia o) (Rfc6902.zlen ns) t with
  | Some i => ary_add o ns t v = Ok (insert_at i v ns) /\ (i <= length ns)%nat
  | None => exists e, ary_add o ns t v = Err e /\ (e = EInvalidIndex \/ e = EAtoi)
  end.
Proof. exact ary_add_ref. Qed.
Print Assumptions C01_add_index.

Theorem C01_remove_index : forall o (ns : list node) t,
  o_allow o = false -> tok_small t -> tok_canonical t ->
  match idx_existing (dia o) (Rfc6902.zlen ns) t with
  | Some i => ary_remove o ns t = Ok (remove_at i ns) /\ (i < length ns)%nat
  | None => exists e, ary_remove o ns t = Err e /\ (e = EInvalidIndex \/ e = EAtoi)
  end.
Proof. exact ary_remove_ref. Qed.
Print Assumptions C01_remove_index.

(* a passing test is decided by structural equality of the values, in any parse state; an absent
   member compares as null; a stored null is null *)
Theorem C01_test_is_structural_equality : forall v ov, ngood v -> ngood ov ->
  jeq (aval v) (aval ov) = if is_null v then is_null ov else if is_null ov then false else node_equal v ov.
Proof. exact test_value_rel. Qed.
Print Assumptions C01_test_is_structural_equality.

(* The index arithmetic of partialArray.get/set/add/remove is RE-TRANSLATED from /repo/v5/patch.go on
   every run (tools/goidx2v -> gen/IndexGen.v: Go int arithmetic with 64-bit wrap-around, every slice
   expression with its bounds test, the slice operations as an effect list) and proved equal to the
   model's functions for every token, option setting and array shorter than 2^63 (IndexTie.v). *)
Theorem C01_array_get_is_the_code : forall o self ns key,
  (ImplV5.zlen ns <= int64_max)%Z ->
  con_get o (KAry self ns) key = IndexTie.res_node self ns (IndexGen.idx_get_gen (o_neg o) (o_allow o) (ImplV5.zlen ns) (atoi key) (bseq key)).
Proof. exact IndexTie.con_get_tie. Qed.
Print Assumptions C01_array_get_is_the_code.

Theorem C01_array_set_is_the_code : forall o ns key v,
  (ImplV5.zlen ns <= int64_max)%Z ->
  ary_set o ns key v = IndexTie.res_nodes ns v (IndexGen.idx_set_gen (o_neg o) (o_allow o) (ImplV5.zlen ns) (atoi key) (bseq key)).
Proof. exact IndexTie.ary_set_tie. Qed.
Print Assumptions C01_array_set_is_the_code.

Theorem C01_array_add_is_the_code : forall o ns key v,
  (ImplV5.zlen ns < int64_max)%Z ->
  ary_add o ns key v = IndexTie.res_nodes ns v (IndexGen.idx_add_gen (o_neg o) (o_allow o) (ImplV5.zlen ns) (atoi key) (bseq key)).
Proof. exact IndexTie.ary_add_tie. Qed.
Print Assumptions C01_array_add_is_the_code.

Theorem C01_array_remove_is_the_code : forall o ns key,
  (ImplV5.zlen ns <= int64_max)%Z ->
  ary_remove o ns key = IndexTie.res_nodes ns NNil (IndexGen.idx_remove_gen (o_neg o) (o_allow o) (ImplV5.zlen ns) (atoi key) (bseq key)).
Proof. exact IndexTie.ary_remove_tie. Qed.
Print Assumptions C01_array_remove_is_the_code.

(* all six operations, a negative index, "-", "~1", null round trip *)
Example C01_nonvacuous :
  match api_decode (B "[{""op"":""add"",""path"":""/a/-"",""value"":null},{""op"":""test"",""path"":""/a/-1"",""value"":null},{""op"":""copy"",""from"":""/a"",""path"":""/x~1y""},{""op"":""move"",""from"":""/a/0"",""path"":""/a/1""},{""op"":""replace"",""path"":""/x~1y/0"",""value"":{""k"":1.0}},{""op"":""remove"",""path"":""/b""},{""op"":""test"",""path"":""/a"",""value"":[2,1,null]}]") with
  | Some p => api_apply (mkOpts true 0 false false true [] None) [] p (B "{""a"":[1,2],""b"":0}")
              = ROut (B "{""a"":[2,1,null],""x/y"":[{""k"":1.0},2,null]}")
  | None => False
  end.
Proof. vm_compute. reflexivity. Qed.

(* the hypotheses are satisfiable for that very patch (copy included): it is in op_dom *)
Example C01_nonvacuous_dom :
  match api_decode (B "[{""op"":""add"",""path"":""/a/-"",""value"":null},{""op"":""test"",""path"":""/a/-1"",""value"":null},{""op"":""copy"",""from"":""/a"",""path"":""/x~1y""},{""op"":""move"",""from"":""/a/0"",""path"":""/a/1""},{""op"":""replace"",""path"":""/x~1y/0"",""value"":{""k"":1.0}},{""op"":""remove"",""path"":""/b""},{""op"":""test"",""path"":""/a"",""value"":[2,1,null]}]") with
  | Some p => Forall op_dom p /\ has_copy p
  | None => False
  end.
Proof.
  destruct (api_decode _) as [p|] eqn:E; [|vm_compute in E; discriminate E].
  split.
  - eapply decoded_in_domain_op_dom; [exact E | |];
      (pose proof E as E'; vm_compute in E'; inversion E'; subst p; vm_compute; reflexivity).
  - vm_compute in E. inversion E; subst p. eexists. split; [right; right; left; reflexivity | vm_compute; reflexivity].
Qed.

(* ... and its copy fits: the side condition copies_fit holds on that patch and document *)
Example C01_nonvacuous_copies_fit :
  match api_decode (B "[{""op"":""add"",""path"":""/a/-"",""value"":null},{""op"":""test"",""path"":""/a/-1"",""value"":null},{""op"":""copy"",""from"":""/a"",""path"":""/x~1y""},{""op"":""move"",""from"":""/a/0"",""path"":""/a/1""},{""op"":""replace"",""path"":""/x~1y/0"",""value"":{""k"":1.0}},{""op"":""remove"",""path"":""/b""},{""op"":""test"",""path"":""/a"",""value"":[2,1,null]}]"),
        parse (B "{""a"":[1,2],""b"":0}") with
  | Some p, Some t => copies_fit (dia (mkOpts true 0 false false true [] None)) (den t) (map den_op p) = true
  | _, _ => False
  end.
Proof. vm_compute. reflexivity. Qed.

(* the complementary case fires: a state whose member a holds a value nested 10001 deep (such a value
   cannot be parsed in one piece; it arises from adds into a deep document); copying it is refused *)
Fixpoint nest (n : nat) : tjson := match n with O => TNull | S k => TArr [nest k] end.

Example C01_copy_too_deep_fires :
  match api_decode (B "[{""op"":""copy"",""from"":""/a"",""path"":""/b""}]") with
  | Some [op] =>
      let o := mkOpts false 0 false false true [] None in
      let st := mkState (RCon (KDoc NNil [B "a"] [(B "a", NRaw (nest (N.to_nat 10001)))])) 0 in
      copy_fits (dia o) (sval st) (den_op op) = false /\ step o st op = Err EInvalid /\
      (* one level less: it fits and the copy is made *)
      let st' := mkState (RCon (KDoc NNil [B "a"] [(B "a", NRaw (nest (N.to_nat 10000)))])) 0 in
      copy_fits (dia o) (sval st') (den_op op) = true /\
      match step o st' op with Ok _ => True | _ => False end
  | _ => False
  end.
Proof.
  destruct (api_decode _) as [[|op []]|] eqn:E; vm_compute in E; try discriminate E.
  injection E as <-. cbv zeta. split; [|split; [|split]]; [vm_compute; reflexivity ..|].
  (* lazy, not vm_compute: with the limit off the size of the copy (the printer, quadratic on 10000 levels) is
     never forced *)
  lazy. exact I.
Qed.

(* ---- the main theorem applied: every hypothesis of C01_apply_refines_rfc discharged on the document and the
   seven-operation patch (all six kinds, a copy, "-", a negative index, an escaped token) of C01_nonvacuous;
   the reference run is Done, and the theorem yields the success branch ---- *)
Definition C01_ex_doc := B "{""a"":[1,2],""b"":0}".
Definition C01_ex_patch := B "[{""op"":""add"",""path"":""/a/-"",""value"":null},{""op"":""test"",""path"":""/a/-1"",""value"":null},{""op"":""copy"",""from"":""/a"",""path"":""/x~1y""},{""op"":""move"",""from"":""/a/0"",""path"":""/a/1""},{""op"":""replace"",""path"":""/x~1y/0"",""value"":{""k"":1.0}},{""op"":""remove"",""path"":""/b""},{""op"":""test"",""path"":""/a"",""value"":[2,1,null]}]".
Definition C01_ex_o := mkOpts true 0 false false true [] None.
Definition C01_ex_t : tjson := match parse C01_ex_doc with Some t => t | None => TNull end.
Definition C01_ex_p : list operation := match api_decode C01_ex_patch with Some p => p | None => [] end.
Definition C01_ex_result : ojson :=
  den (TObj [(B "a", TArr [TNum (B "2"); TNum (B "1"); TNull]); (B "x/y", TArr [TObj [(B "k", TNum (B "1.0"))]; TNum (B "2"); TNull])]).

Example C01_main_theorem_applies :
  exists n, api_apply C01_ex_o [] C01_ex_p C01_ex_doc = ROut (output C01_ex_o [] (render (o_esc C01_ex_o) n)) /\
            aval n = C01_ex_result /\ ngood n.
Proof.
  pose proof (C01_apply_refines_rfc C01_ex_o [] C01_ex_p C01_ex_doc C01_ex_t) as H.
  assert (R : rfc_apply (dia C01_ex_o) (den C01_ex_t) (map den_op C01_ex_p) = Done C01_ex_result) by (vm_compute; reflexivity).
  rewrite R in H. apply H.
  - repeat split.
  - vm_compute; reflexivity.
  - reflexivity.
  - vm_compute; reflexivity.
  - apply (decoded_in_domain_op_dom C01_ex_patch); vm_compute; reflexivity.
  - vm_compute; reflexivity.
Qed.
Print Assumptions C01_main_theorem_applies.
