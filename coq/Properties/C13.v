(* C13 — AllowMissingPathOnRemove (v5 model). *)
From JP Require Import Bytes Json Text Strings Den Pointer Rfc6902 ImplV5 Domain ImplFacts RefFacts ApplyFacts Depth ApplySim AllowEnsureFacts.

(* all other operations behave exactly as without the option: the step function of every
   operation that is not a remove is the same function with the option on or off
   (for move: when the last reference token of from is not empty — an empty token is outside the
   stated domain) *)
Theorem C13_other_operations_unaffected : forall o b st op,
  op_kind op <> KRemove ->
  (forall from, op_str op (B "from") = Ok from -> leaf_key from <> []) ->
  step (set_allow o b) st op = step o st op.
Proof.
  intros o b st op K LK. destruct (op_kind op) eqn:E; try congruence;
    try (apply step_opts; unfold same_reads, reads_alike; rewrite E; repeat split; fail).
  unfold step. rewrite E. apply op_move_allow, LK.
Qed.
Print Assumptions C13_other_operations_unaffected.

(* removes of existing targets behave exactly as without the option: whenever an operation
   (a remove in particular) succeeds with the option off, it gives the same state with it on *)
Theorem C13_existing_targets_unaffected : forall o st op st',
  step (set_allow o false) st op = Ok st' -> step (set_allow o true) st op = Ok st'.
Proof.
  intros o st op st'.
  assert (FN : forall A c path (f : con -> bytes -> A * con) b, find (set_allow o b) c path f = find o c path f)
    by (intros; apply find_neg; reflexivity).
  destruct (op_kind op) eqn:K;
    try (intro H; rewrite <- H; apply step_opts; unfold same_reads, reads_alike; rewrite K; repeat split; fail);
    unfold step; rewrite K.
  - unfold op_remove.
    destruct (op_str op (B "path")) as [path| |]; auto.
    change (o_allow (set_allow o false)) with false. change (o_allow (set_allow o true)) with true.
    destruct (s_root st); [|discriminate]. rewrite !FN.
    match goal with |- context [find o c path ?f] => destruct (find o c path f) as [[| |[v| |]] c1] eqn:E; try discriminate end.
    eapply find_leaf_ext in E.
    + rewrite E. auto.
    + intros c0 k. simpl. destruct (con_remove (set_allow o false) c0 k) eqn:R; simpl; try discriminate.
      intros _. apply con_remove_allow_ok in R. now rewrite R.
  - (* move: success means get succeeded, after which remove does not consult the option *)
    unfold op_move. destruct (op_str op (B "from")) as [[|x from]| |]; auto.
    destruct (s_root st); auto. rewrite !FN.
    match goal with |- context [find o c (x :: from) ?f] => destruct (find o c (x :: from) f) as [[| |[v| |]] c1] eqn:E; try discriminate end.
    eapply find_leaf_ext in E.
    + rewrite E. destruct (op_str op (B "path")) as [path| |]; auto. rewrite !FN. auto.
    + intros c0 k. simpl.
      change (con_get (set_allow o false) c0 k) with (con_get o c0 k). change (con_get (set_allow o true) c0 k) with (con_get o c0 k).
      destruct (con_get o c0 k); simpl; try discriminate.
      destruct (con_remove (set_allow o false) c0 k) eqn:R; simpl; try discriminate.
      intros _. apply con_remove_allow_ok in R. now rewrite R.
Qed.
Print Assumptions C13_existing_targets_unaffected.

(* the option never turns a remove into an error that the plain remove does not raise, and never
   produces the copy-limit or test-failed error *)
Theorem C13_no_new_error_kinds : forall o st op e,
  op_kind op = KRemove -> step o st op = Err e -> plain_err e = true.
Proof. intros o st op e K. apply step_plain; rewrite K; discriminate. Qed.
Print Assumptions C13_no_new_error_kinds.

(* the skip case, one remove (path "/tok/.../tok", tokens in the domain of C01): against the
   reference's remove on the document value.  The reference removes: so does the model.  The
   reference fails because the member is absent, an ancestor is absent or no container, or the
   index (an index of the dialect) is out of range: the operation succeeds, the document value and
   the accumulated copy size are unchanged.  NOT forgiven: a last token on an array that is no index
   of the dialect (a name, or a negative number while SupportNegativeIndices is off) *)
Theorem C13_skip_one_remove : forall o st op r c,
  s_root st = RCon c -> cgood c -> o_allow o = true ->
  op_str op (B "path") = Ok (x2f :: r) -> Forall tok_dom (map decode_token (split_slash r)) ->
  match at_parent (dia o) (ptoks r) (cval c) (remove_leaf (dia o)) with
  | Rfc6902.Ok j' => exists st', op_remove o st op = Ok st' /\ sval st' = j' /\ sgood st' /\ s_acc st' = s_acc st
  | Rfc6902.Fail cz =>
      if skip_cause (dia o) (path_key r) cz
      then exists st', op_remove o st op = Ok st' /\ sval st' = sval st /\ sgood st' /\ s_acc st' = s_acc st
      else cz = FIndex /\ exists e, op_remove o st op = Err e /\ (e = EInvalidIndex \/ e = EAtoi)
  end.
Proof. exact op_remove_allow_sim. Qed.
Print Assumptions C13_skip_one_remove.

(* a document that was replaced by null: every remove is skipped *)
Theorem C13_skip_on_null_root : forall o st op path,
  s_root st = RNull -> o_allow o = true -> op_str op (B "path") = Ok path -> op_remove o st op = Ok st.
Proof. intros o st op path Hr Al Hp. unfold op_remove. now rewrite Hp, Hr, Al. Qed.
Print Assumptions C13_skip_on_null_root.

(* whole patches (option on, EnsurePathExistsOnAdd off, no copy-size limit, operations in the
   domain of C01): the outcome equals that of applying, with the option off, the patch with exactly
   the skipped removes deleted (strip follows the reference run and deletes the removes whose
   target does not resolve at that moment): both succeed with the same document value, or both fail
   at the same operation for the same reference cause.
   copies_fit (see C01: no copy the reference run reaches has a source nested deeper than deepCopy
   accepts) is stated on the reference run of the STRIPPED patch: a skipped remove leaves the
   document value unchanged, so both runs of the library meet every copy at the document value at
   which that reference run meets it *)
Theorem C13_equals_stripped_patch : forall o p i st,
  allow_opts o -> sgood st -> Forall op_dom p ->
  let p' := strip (dia o) (sval st) p in
  copies_fit (dia o) (sval st) (map den_op p') = true ->
  match apply_from (set_allow o false) i st p' with
  | AOk st2 => exists st1, apply_from o i st p = AOk st1 /\ sval st1 = sval st2 /\ sgood st1 /\ sgood st2
  | AErr k e2 => exists k1 e1 cz, apply_from o i st p = AErr k1 e1 /\ cause_rel cz e1 /\ cause_rel cz e2 /\
                   (i <= k1)%nat /\ (i <= k)%nat /\ nth_error p (k1 - i) = nth_error p' (k - i)
  | APanic _ => False
  end.
Proof. exact allow_equals_stripped. Qed.
Print Assumptions C13_equals_stripped_patch.

(* the same against the reference: the run with the option on IS the reference run of the stripped patch *)
Theorem C13_reference_of_stripped_patch : forall o, allow_opts o -> forall p i i' st,
  sgood st -> Forall op_dom p ->
  copies_fit (dia o) (sval st) (map den_op (strip (dia o) (sval st) p)) = true ->
  match rfc_apply_from (dia o) i' (sval st) (map den_op (strip (dia o) (sval st) p)) with
  | Done doc => exists st', apply_from o i st p = AOk st' /\ sval st' = doc /\ sgood st'
  | Failed k cz => exists k1 e, apply_from o i st p = AErr k1 e /\ cause_rel cz e /\
                     (i <= k1)%nat /\ (i' <= k)%nat /\
                     nth_error p (k1 - i) = nth_error (strip (dia o) (sval st) p) (k - i')
  end.
Proof. exact allow_strip_ref. Qed.
Print Assumptions C13_reference_of_stripped_patch.

(* non-vacuity: absent member, out-of-range index and absent ancestor are skipped; the existing
   target is removed; the add in between is applied *)
Example C13_nonvacuous :
  match api_decode (B "[{""op"":""remove"",""path"":""/x""},{""op"":""remove"",""path"":""/a/7""},{""op"":""add"",""path"":""/b"",""value"":1},{""op"":""remove"",""path"":""/q/r/s""},{""op"":""remove"",""path"":""/a/0""}]") with
  | Some p =>
      api_apply (mkOpts true 0 true false true [] None) [] p (B "{""a"":[1,2]}") = ROut (B "{""a"":[2],""b"":1}") /\
      api_apply (mkOpts true 0 false false true [] None) [] p (B "{""a"":[1,2]}") = RErr (Some 0%nat) EMissing
  | None => False
  end.
Proof. vm_compute. split; reflexivity. Qed.

(* ---- the main theorems applied: every hypothesis of C13_reference_of_stripped_patch and
   C13_equals_stripped_patch discharged on the loaded document {"a":[1,2],"s":3} and a seven-operation patch:
   removes of an absent member, of an out-of-range index, through an absent ancestor and through a scalar
   (all four skipped: strip deletes them), a copy, a remove of an existing element, and a test that fails.
   The reference run of the stripped patch fails at ITS operation 2 (the test) with cause FTest; the theorem
   yields: the run with the option on fails with the corresponding error at the operation of the full patch
   that is the stripped patch's operation 2. ---- *)
From JP Require PointerDomain Abs CauseFacts.
Import Abs.
Definition C13_ex_doc := B "{""a"":[1,2],""s"":3}".
Definition C13_ex_patch := B "[{""op"":""remove"",""path"":""/x""},{""op"":""remove"",""path"":""/a/7""},{""op"":""copy"",""from"":""/a"",""path"":""/b""},{""op"":""remove"",""path"":""/q/r/s""},{""op"":""remove"",""path"":""/s/t""},{""op"":""remove"",""path"":""/a/0""},{""op"":""test"",""path"":""/b"",""value"":[1]}]".
Definition C13_ex_o := mkOpts true 0 true false false [] None.
Definition C13_ex_t : tjson := Eval vm_compute in match parse C13_ex_doc with Some t => t | None => TNull end.
Definition C13_ex_p : list operation := Eval vm_compute in match api_decode C13_ex_patch with Some p => p | None => [] end.
Definition C13_ex_c : con := Eval vm_compute in match load_doc C13_ex_o C13_ex_t with Ok (RCon c) => c | _ => KAry NNil [] end.
Definition C13_ex_st := mkState (RCon C13_ex_c) 0.
Definition C13_ex_stripped : list operation := Eval vm_compute in strip (dia C13_ex_o) (den C13_ex_t) C13_ex_p.

Example C13_main_theorem_applies :
  length C13_ex_p = 7%nat /\ length C13_ex_stripped = 3%nat /\
  (exists k1 e, apply_from C13_ex_o 0 C13_ex_st C13_ex_p = AErr k1 e /\ cause_rel FTest e /\
                nth_error C13_ex_p k1 = nth_error C13_ex_stripped 2) /\
  (exists k e2, apply_from (set_allow C13_ex_o false) 0 C13_ex_st C13_ex_stripped = AErr k e2 /\
     exists k1 e1 cz, apply_from C13_ex_o 0 C13_ex_st C13_ex_p = AErr k1 e1 /\ cause_rel cz e1 /\ cause_rel cz e2 /\
                      nth_error C13_ex_p k1 = nth_error C13_ex_stripped k).
Proof.
  assert (P : parse C13_ex_doc = Some C13_ex_t) by (vm_compute; reflexivity).
  destruct (CauseFacts.api_start C13_ex_o C13_ex_doc C13_ex_t P eq_refl eq_refl) as [c [_ [_ [SG SV]]]].
  change (CauseFacts.init_state C13_ex_o C13_ex_t) with C13_ex_st in SG, SV.
  assert (D : Forall op_dom C13_ex_p)
    by (apply (PointerDomain.decoded_in_domain_op_dom C13_ex_patch); vm_compute; reflexivity).
  assert (AO : allow_opts C13_ex_o) by (split; [reflexivity | split; reflexivity]).
  assert (CF : copies_fit (dia C13_ex_o) (sval C13_ex_st) (map den_op (strip (dia C13_ex_o) (sval C13_ex_st) C13_ex_p)) = true)
    by (rewrite SV; vm_compute; reflexivity).
  split; [vm_compute; reflexivity|]. split; [vm_compute; reflexivity|]. split.
  - pose proof (C13_reference_of_stripped_patch C13_ex_o AO C13_ex_p 0%nat 0%nat C13_ex_st SG D CF) as H.
    rewrite SV in H. change (strip (dia C13_ex_o) (den C13_ex_t) C13_ex_p) with C13_ex_stripped in H.
    assert (R : rfc_apply_from (dia C13_ex_o) 0 (den C13_ex_t) (map den_op C13_ex_stripped) = Failed 2 FTest)
      by (vm_compute; reflexivity).
    rewrite R in H. destruct H as [k1 [e [H1 [H2 [_ [_ H5]]]]]].
    exists k1, e. split; [exact H1|]. split; [exact H2|]. rewrite !Nat.sub_0_r in H5. exact H5.
  - pose proof (C13_equals_stripped_patch C13_ex_o C13_ex_p 0%nat C13_ex_st AO SG D CF) as H.
    cbv zeta in H. rewrite SV in H. change (strip (dia C13_ex_o) (den C13_ex_t) C13_ex_p) with C13_ex_stripped in H.
    destruct (apply_from (set_allow C13_ex_o false) 0 C13_ex_st C13_ex_stripped) as [st2|k e2|k] eqn:A;
      [vm_compute in A; discriminate A | | destruct H].
    exists k, e2. split; [reflexivity|].
    destruct H as [k1 [e1 [cz [H1 [H2 [H3 [_ [_ H6]]]]]]]].
    exists k1, e1, cz. split; [exact H1|]. split; [exact H2|]. split; [exact H3|]. rewrite !Nat.sub_0_r in H6. exact H6.
Qed.
Print Assumptions C13_main_theorem_applies.
