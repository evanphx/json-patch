(* C16 — exactly RFC 8259 JSON is accepted, everywhere.
   (1) The scanner is RE-TRANSLATED from scanner.go on every run (gen/ScannerGen.v) and proved equal
       to the reference automaton ScannerRef.ref_step for every state, stack and byte, together with
       the end-of-input rule.  Any behavioural change of scanner.go breaks C16_scanner_is_reference.
   (2) Every public entry point of the model rejects a text that the independent RFC 8259 reader
       (Text.parse) rejects, and accepts every well-formed one of the right shape.
   (3) checkValid over the translated scanner accepts a byte string if and only if the reader
       Text.parse (recursive descent over the RFC 8259 grammar, nesting limit 10000) reads it:
       ScannerCorrect.v (the automaton on state and stack), ScannerGrammar.v (one step; the token
       readers as runs of the token table), ScannerParse.v (a loop over the scanner is a run of the
       automaton, gfin_grun; the run against values/elements/members by induction on the reader's
       fuel, struct_run), for every byte string. *)
From JP Require Import Bytes Json Text Strings Den ImplV5 ImplMerge Scan ScannerRef ScannerTie ScannerCorrect ScannerGrammar ScannerParse ScanFacts ApplySim Domain.
From JP.gen Require Import ScannerGen.

Theorem C16_scanner_is_reference : forall s c, step_fn (step s) s c = ref_step s c.
Proof. exact gen_eq_ref. Qed.
Print Assumptions C16_scanner_is_reference.

Theorem C16_eof_is_reference : forall s,
  negb (snd (scanner_eof s) =? scanError)%Z = ref_accepts_at_eof s.
Proof. exact eof_eq_ref. Qed.
Print Assumptions C16_eof_is_reference.

(* Valid(bs) of the translated scanner <-> bs is an RFC 8259 text (as read by Text.parse) *)
Theorem C16_valid_iff_grammar : forall bs, valid_gen bs = true <-> exists t, parse bs = Some t.
Proof. exact valid_gen_iff_parse. Qed.
Print Assumptions C16_valid_iff_grammar.

(* Compact and Indent (loop models of indent.go over the translated scanner) accept exactly what Valid accepts *)
Theorem C16_compact_accepts_iff_valid : forall esc bs, (exists out, compact_go esc bs = Some out) <-> valid_gen bs = true.
Proof. exact compact_accepts_iff_valid. Qed.
Print Assumptions C16_compact_accepts_iff_valid.

Theorem C16_indent_accepts_iff_valid : forall ind bs, (exists out, indent_go ind bs = Some out) <-> valid_gen bs = true.
Proof. exact indent_accepts_iff_valid. Qed.
Print Assumptions C16_indent_accepts_iff_valid.

(* the nesting limit of the translated scanner is the one the property names *)
Theorem C16_nesting_limit : maxNestingDepth = 10000%Z /\ Text.max_depth = 10000%N.
Proof. split; reflexivity. Qed.
Print Assumptions C16_nesting_limit.

(* ill-formed input is rejected by every entry point (Equal with false) *)
Theorem C16_apply_rejects : forall o indent p doc, doc <> [] -> parse doc = None -> api_apply o indent p doc = RErr None EInvalid.
Proof. intros o indent p doc NE P. unfold api_apply. destruct doc; [congruence|]. now rewrite P. Qed.
Print Assumptions C16_apply_rejects.

Theorem C16_decode_rejects : forall bs, parse bs = None -> api_decode bs = None.
Proof. intros bs P. unfold api_decode. now rewrite P. Qed.
Print Assumptions C16_decode_rejects.

Theorem C16_equal_rejects : forall a b, parse a = None \/ parse b = None -> api_equal a b = false.
Proof. intros a b [H|H]; unfold api_equal; rewrite H; auto. destruct (parse a); auto. Qed.
Print Assumptions C16_equal_rejects.

Theorem C16_merge_rejects : forall mm doc patch,
  parse doc = None \/ parse patch = None -> exists e, api_merge mm doc patch = MErr e.
Proof.
  intros mm doc patch [H|H]; unfold api_merge; rewrite H; eauto. destruct (parse doc); eauto.
Qed.
Print Assumptions C16_merge_rejects.

Theorem C16_create_rejects : forall a b, parse a = None \/ parse b = None -> exists e, api_create a b = MErr e.
Proof. intros a b [H|H]; unfold api_create; rewrite H; eauto. destruct (parse a); eauto. Qed.
Print Assumptions C16_create_rejects.

(* a well-formed object/array document is accepted (here with the empty patch) *)
Theorem C16_apply_accepts : forall o indent doc t,
  plain_opts o -> parse doc = Some t -> root_container t = true -> tnodup t = true ->
  exists out, api_apply o indent [] doc = ROut out.
Proof.
  intros o indent doc t PO P RC T.
  destruct (api_apply_sim o indent [] doc t PO P RC T (Forall_nil _) eq_refl) as [n [H _]]. eauto.
Qed.
Print Assumptions C16_apply_accepts.

(* leading and trailing whitespace are accepted by the reader and by the translated scanner *)
Example C16_nonvacuous :
  parse (B " [1 , {""a"" : null} ]  ") <> None /\ valid_gen (B " [1 , {""a"" : null} ]  ") = true /\
  parse (B "[1,]") = None /\ valid_gen (B "[1,]") = false /\
  parse (B "-01") = None /\ valid_gen (B "-01") = false /\
  parse (B "[1] x") = None /\ valid_gen (B "[1] x") = false /\
  parse (B """\u12g4""") = None /\ valid_gen (B """\u12g4""") = false.
Proof. vm_compute. repeat split; try reflexivity; discriminate. Qed.

(* ---- Compact and Indent as re-translated from indent.go on every run are the model's compact_go / indent_go
   (IndentTie.v), whose acceptance is that of Valid (above) ---- *)
From JP Require IndentTie.
From JP.gen Require IndentGen.
Theorem C16_go_compact_is_model : forall esc bs, IndentGen.compact_gen esc bs = Scan.compact_go esc bs.
Proof. exact IndentTie.compact_gen_is_model. Qed.
Print Assumptions C16_go_compact_is_model.
Theorem C16_go_indent_is_model : forall indent bs, IndentGen.indent_gen [] indent bs = Scan.indent_go indent bs.
Proof. exact IndentTie.indent_gen_is_model. Qed.
Print Assumptions C16_go_indent_is_model.
