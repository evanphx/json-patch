(* C07 — MergeMergePatches composes.  Only the property theorems live here, each closed by a lemma
   of MergeFacts.v / ImplMergeFacts.v, with Print Assumptions beneath. *)
From JP Require Import Bytes Json Text Strings Den ImplV5 ImplMerge Rfc7396 JsonFacts MergeFacts Abs ImplMergeFacts.
From JP Require Import Scan OutputFacts.

(* The composition law at the level of RFC 7396 values, for every document and every pair of
   compatible patches (no bound on size or nesting; "no duplicate member names" is the property's
   own domain). *)
Theorem C07_compose_law : forall d p1 p2,
  onodup d = true -> onodup p1 = true -> onodup p2 = true -> compatible p1 p2 = true ->
  jeq (merge_patch d (mm p1 p2)) (merge_patch (merge_patch d p1) p2) = true.
Proof. intros d p1 p2. exact (compose_law p2 d p1). Qed.
Print Assumptions C07_compose_law.

(* MergeMergePatches itself (the model of merge.go in mergeMerge mode): for an object P1 and any
   compatible P2 the result encodes a node whose value is exactly mm P1 P2 — the combined patch of
   the law above; a scalar or null P2 is returned verbatim *)
Theorem C07_mergemerge_refines_mm : forall p1 p2 ms1 t2,
  parse p1 = Some (TObj ms1) -> parse p2 = Some t2 -> tnodup (TObj ms1) = true -> tnodup t2 = true ->
  compatible (den (TObj ms1)) (den t2) = true ->
  (scalar_text t2 = true /\ api_merge true p1 p2 = MOut p2) \/
  (scalar_text t2 = false /\ exists n, api_merge true p1 p2 = MOut (marshal_node n) /\ nwf n /\
                                       aval n = mm (den (TObj ms1)) (den t2)).
Proof. exact api_mergemerge_spec. Qed.
Print Assumptions C07_mergemerge_refines_mm.

(* the output BYTES of MergeMergePatches: one well-formed JSON text (read by the independent reader,
   accepted by the scanner) whose value is exactly the combined patch mm P1 P2 of the law above *)
Theorem C07_mergemerge_output_bytes : forall p1 p2 ms1 t2,
  parse p1 = Some (TObj ms1) -> parse p2 = Some t2 -> tnodup (TObj ms1) = true -> tnodup t2 = true ->
  compatible (den (TObj ms1)) (den t2) = true ->
  exists out t', api_merge true p1 p2 = MOut out /\ parse out = Some t' /\
                 den t' = mm (den (TObj ms1)) (den t2) /\ valid_gen out = true.
Proof. exact api_mergemerge_output. Qed.
Print Assumptions C07_mergemerge_output_bytes.

(* deletions of both patches survive; a later value overrides an earlier one *)
Theorem C07_combined_member : forall ms1 ms2 k,
  NoDup (map fst ms2) ->
  aget k (members_of (mm (OObj ms1) (OObj ms2))) = mm_lookup (aget k ms2) (aget k ms1).
Proof. intros. rewrite mm_obj. simpl. now apply mm_members_lookup. Qed.
Print Assumptions C07_combined_member.

Theorem C07_deletion_of_p2_survives : forall ms1 ms2 k,
  NoDup (map fst ms2) -> aget k ms2 = Some ONull ->
  aget k (members_of (mm (OObj ms1) (OObj ms2))) = Some ONull.
Proof. intros ms1 ms2 k N H. rewrite C07_combined_member, H by auto. reflexivity. Qed.
Print Assumptions C07_deletion_of_p2_survives.

Theorem C07_deletion_of_p1_survives : forall ms1 ms2 k,
  NoDup (map fst ms2) -> aget k ms1 = Some ONull -> aget k ms2 = None ->
  aget k (members_of (mm (OObj ms1) (OObj ms2))) = Some ONull.
Proof. intros ms1 ms2 k N H1 H2. rewrite C07_combined_member, H1, H2 by auto. reflexivity. Qed.
Print Assumptions C07_deletion_of_p1_survives.

(* if P2 is not an object the combined patch is P2 *)
Theorem C07_nonobject_p2 : forall p1 p2, (forall ms, p2 <> OObj ms) -> mm p1 p2 = p2.
Proof. exact mm_nonobj2. Qed.
Print Assumptions C07_nonobject_p2.

(* the side condition is needed: without it the law is false *)
Theorem C07_needs_compatibility :
  exists d p1 p2, onodup d = true /\ onodup p1 = true /\ onodup p2 = true /\ compatible p1 p2 = false /\
    jeq (merge_patch d (mm p1 p2)) (merge_patch (merge_patch d p1) p2) = false.
Proof.
  exists (OObj [(B "a", OObj [(B "x", ONum (B "1"))])]), (OObj [(B "a", ONull)]),
         (OObj [(B "a", OObj [(B "y", ONum (B "2"))])]).
  vm_compute. repeat split; reflexivity.
Qed.

(* non-vacuity: a compatible triple with nulls at depth 2, a type change and an array value *)
Example C07_nonvacuous :
  let d := OObj [(B "a", OObj [(B "x", ONum (B "1")); (B "y", ONum (B "2"))]); (B "k", OStr (B "s"))] in
  let p1 := OObj [(B "a", OObj [(B "x", ONull); (B "z", OArr [ONull])]); (B "n", ONum (B "0"))] in
  let p2 := OObj [(B "a", OObj [(B "y", ONull); (B "z", OStr (B "t"))]); (B "k", ONull); (B "n", OStr (B "u")); (B "m", OObj [(B "q", ONull)])] in
  compatible p1 p2 = true /\ onodup d && onodup p1 && onodup p2 = true /\
  merge_patch (merge_patch d p1) p2 = OObj [(B "a", OObj [(B "z", OStr (B "t"))]); (B "n", OStr (B "u")); (B "m", OObj [])] /\
  mm p1 p2 = OObj [(B "a", OObj [(B "x", ONull); (B "z", OStr (B "t")); (B "y", ONull)]); (B "n", OStr (B "u")); (B "k", ONull); (B "m", OObj [(B "q", ONull)])].
Proof. vm_compute. repeat split; reflexivity. Qed.

(* ---- the main theorems applied: every hypothesis of C07_mergemerge_refines_mm, C07_mergemerge_output_bytes
   and C07_compose_law discharged on the texts of the compatible pair of C07_nonvacuous and a document ---- *)
Definition C07_ex_p1 := B "{""a"":{""x"":null,""z"":[null]},""n"":0}".
Definition C07_ex_p2 := B "{""a"":{""y"":null,""z"":""t""},""k"":null,""n"":""u"",""m"":{""q"":null}}".
Definition C07_ex_doc := B "{""a"":{""x"":1,""y"":2},""k"":""s""}".
Definition C07_ex_ms1 : list (bytes * tjson) := match parse C07_ex_p1 with Some (TObj ms) => ms | _ => [] end.
Definition C07_ex_t2 : tjson := match parse C07_ex_p2 with Some t => t | None => TNull end.
Definition C07_ex_td : tjson := match parse C07_ex_doc with Some t => t | None => TNull end.

Example C07_main_theorem_applies :
  (exists n, api_merge true C07_ex_p1 C07_ex_p2 = MOut (marshal_node n) /\ nwf n /\
             aval n = mm (den (TObj C07_ex_ms1)) (den C07_ex_t2)) /\
  (exists out t', api_merge true C07_ex_p1 C07_ex_p2 = MOut out /\ parse out = Some t' /\
                  den t' = mm (den (TObj C07_ex_ms1)) (den C07_ex_t2) /\ valid_gen out = true) /\
  jeq (merge_patch (den C07_ex_td) (mm (den (TObj C07_ex_ms1)) (den C07_ex_t2)))
      (merge_patch (merge_patch (den C07_ex_td) (den (TObj C07_ex_ms1))) (den C07_ex_t2)) = true.
Proof.
  assert (P1 : parse C07_ex_p1 = Some (TObj C07_ex_ms1)) by (vm_compute; reflexivity).
  assert (P2 : parse C07_ex_p2 = Some C07_ex_t2) by (vm_compute; reflexivity).
  assert (N1 : tnodup (TObj C07_ex_ms1) = true) by (vm_compute; reflexivity).
  assert (N2 : tnodup C07_ex_t2 = true) by (vm_compute; reflexivity).
  assert (Nd : onodup (den C07_ex_td) = true) by (vm_compute; reflexivity).
  assert (C : compatible (den (TObj C07_ex_ms1)) (den C07_ex_t2) = true) by (vm_compute; reflexivity).
  split; [|split; [exact (C07_mergemerge_output_bytes _ _ _ _ P1 P2 N1 N2 C) | exact (C07_compose_law _ _ _ Nd N1 N2 C)]].
  destruct (C07_mergemerge_refines_mm _ _ _ _ P1 P2 N1 N2 C) as [[S _] | [_ H]]; [|exact H].
  vm_compute in S. discriminate S.
Qed.
Print Assumptions C07_main_theorem_applies.
