(* C09 — calls are pure; history does not matter.
   What carries over from one call to the next in the Go code is the state of the recycled
   decoder/encoder/scanner objects.  The one piece of it that a later call can RECEIVE is the
   decoder's lastKeys (returned for a non-object text and stored as the key list of a null
   document): in the model it is the `stale` payload of KDocNil, taken from an arbitrary residue.
   Proved: no result ever depends on it — for every call, every residue and every finite history.
   The discipline the rest relies on (no package variable written, pooled objects released
   by the function that takes them and never used after release or leaked, no store through []byte/Operation/Patch
   parameters, no goroutines) is evaluated by the kernel on the facts extracted from the current
   source by tools/gofacts (FactsGen.v is regenerated on every run).
   Partial (DESIGN section 11): that the Go code never writes into caller-owned memory is observed
   by the correspondence (byte snapshots of every input around every call), not proved. *)
From Coq Require Import String.
From JP Require Import Bytes Json Text ImplV5 Pool Cli.
From JP.gen Require Import FactsGen.

Theorem C09_apply_residue_independent : forall o s1 s2 indent p doc,
  api_apply (set_stale o s1) indent p doc = api_apply (set_stale o s2) indent p doc.
Proof. exact apply_residue_independent. Qed.
Print Assumptions C09_apply_residue_independent.

(* one step of the patch loop never reads the stale key list, in any state *)
Theorem C09_step_ignores_residue : forall o st op,
  step (set_stale o []) (erase_st st) op = map_res erase_st (step o st op).
Proof. exact step_erase. Qed.
Print Assumptions C09_step_ignores_residue.

Theorem C09_call_independent : forall residue c, run_call residue c = solo c.
Proof. exact call_residue_independent. Qed.
Print Assumptions C09_call_independent.

(* every finite history, whatever each call leaves behind in the scratch object: each call
   returns what it returns when run alone; hence repeating and reordering calls changes nothing *)
Theorem C09_history_independent : forall leaves h residue,
  run_history leaves residue h = map solo h.
Proof. exact history_independent. Qed.
Print Assumptions C09_history_independent.

(* the discipline holds of the source as it is now *)
Example C09_facts_ok : discipline_ok = true.
Proof. vm_compute. reflexivity. Qed.

Example C09_nonvacuous :
  let c1 := CApply Cli.default_opts [] (B "[{""op"":""test"",""path"":"""",""value"":null}]") (B "null") in
  let c2 := CApply Cli.default_opts [] (B "[{""op"":""add"",""path"":""/a"",""value"":1}]") (B "{""b"":2}") in
  run_history (fun r _ => B "stale" :: r) [B "k1"; B "k2"] [c1; c2; c1; CEqual (B "[1]") (B " [1] ")] =
  [OApply (Some (RErr (Some 0%nat) ETestFailed)); OApply (Some (ROut (B "{""b"":2,""a"":1}")));
   OApply (Some (RErr (Some 0%nat) ETestFailed)); OBool true].
Proof. vm_compute. reflexivity. Qed.
