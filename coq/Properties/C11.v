(* C11 — DecodePatch accepts exactly well-formed RFC 6902 patch documents (v5).
   Only the property theorems live here; each is closed by a lemma proved in place from the
   facts files, with Print Assumptions beneath. *)
From JP Require Import Bytes Json Text Strings Den ImplV5 DecodeFacts JsonFacts.

(* The property's sentence as a declarative predicate on the parsed text.  member name ms is the
   LAST member whose decoded name is name (Go map semantics for repeated names). *)
Definition member (name : bytes) (ms : list (bytes * tjson)) : option tjson := lookup_last name ms None.

Definition is_string (o : option tjson) : Prop := exists b, o = Some (TStr b).

Definition op_name (ms : list (bytes * tjson)) (s : bytes) : Prop :=
  exists b, member (B "op") ms = Some (TStr b) /\ unquote b = s.

Definition wf_operation (ms : list (bytes * tjson)) : Prop :=
  is_string (member (B "path") ms) /\
  (   ((op_name ms (B "add") \/ op_name ms (B "replace")) /\ member (B "value") ms <> None)
   \/ ((op_name ms (B "move") \/ op_name ms (B "copy")) /\ is_string (member (B "from") ms))
   \/ op_name ms (B "remove") \/ op_name ms (B "test")).

Definition wf_patch (t : tjson) : Prop :=
  exists els, t = TArr els /\ Forall (fun e => exists ms, e = TObj ms /\ wf_operation ms) els.

Lemma op_str_ok name ms s :
  op_str (operation_of ms) name = Ok s <-> exists b, lookup_last name ms None = Some (TStr b) /\ unquote b = s.
Proof.
  unfold op_str. rewrite operation_of_spec.
  destruct (lookup_last name ms None) as [v|]; simpl.
  - destruct v; simpl; split; intro H; try discriminate;
      try (destruct H as [b [H1 H2]]; discriminate).
    + inversion H; subst. eexists; split; eauto.
    + destruct H as [b [H1 H2]]. inversion H1; subst. reflexivity.
  - split; [discriminate | intros [b [H _]]; discriminate].
Qed.

Lemma op_str_is_string name ms :
  (exists s, op_str (operation_of ms) name = Ok s) <-> is_string (lookup_last name ms None).
Proof.
  split.
  - intros [s H]. apply op_str_ok in H as [b [H _]]. now exists b.
  - intros [b H]. exists (unquote b). apply op_str_ok. eauto.
Qed.

Lemma amem_value ms : amem (B "value") (operation_of ms) = true <-> member (B "value") ms <> None.
Proof.
  unfold amem, member. rewrite operation_of_spec.
  destruct (lookup_last (B "value") ms None); simpl; split; intro H; congruence.
Qed.

Lemma op_str_is_ok name ms :
  match op_str (operation_of ms) name with Ok _ => true | _ => false end = true <-> is_string (member name ms).
Proof.
  unfold member. rewrite <- op_str_is_string. destruct (op_str (operation_of ms) name); split; try discriminate; eauto;
    intros [s E]; discriminate E.
Qed.

Lemma kind_op_name ms k : k <> KUnknown -> (op_kind (operation_of ms) = k <-> op_name ms (kind_name k)).
Proof. intro NK. rewrite (op_kind_name _ k NK). apply op_str_ok. Qed.

Lemma validate_iff ms : validate_operation (operation_of ms) = true <-> wf_operation ms.
Proof.
  unfold validate_operation, wf_operation. rewrite andb_true_iff, op_str_is_ok, and_comm.
  apply and_iff_compat_l.
  rewrite <- (kind_op_name ms KAdd), <- (kind_op_name ms KReplace), <- (kind_op_name ms KMove),
    <- (kind_op_name ms KCopy), <- (kind_op_name ms KRemove), <- (kind_op_name ms KTest) by discriminate.
  rewrite <- amem_value, <- (op_str_is_ok (B "from")).
  destruct (op_kind (operation_of ms)); intuition discriminate.
Qed.

Lemma decode_patch_t_iff t :
  t <> TNull -> ((exists p, decode_patch_t t = Some p) <-> wf_patch t).
Proof.
  intro NN. unfold wf_patch. split.
  - intros [p H]. apply decode_patch_spec in H as [[-> _]|(mss & -> & _ & F)]; [congruence|].
    eexists. split; [reflexivity|]. rewrite Forall_map. revert F. apply Forall_impl. intros ms V.
    exists ms. split; [reflexivity | now apply validate_iff].
  - intros (els & -> & F). eexists. apply decode_patch_spec. right.
    exists (map (fun e => match e with TObj ms => ms | _ => [] end) els). rewrite !map_map. split; [|split; [reflexivity|]].
    + f_equal. rewrite <- (map_id els) at 1. apply map_ext_in. intros e He. rewrite Forall_forall in F.
      destruct (F e He) as (ms & -> & _). reflexivity.
    + rewrite Forall_map. revert F. apply Forall_impl. intros e (ms & -> & W). now apply validate_iff.
Qed.

(* ---- the property ---- *)

(* DecodePatch returns a Patch exactly when the input is a well-formed JSON text (parse is the
   independent RFC 8259 reader) denoting a well-formed patch; the text null is excluded as stated *)
Theorem C11_accept_iff : forall bs,
  parse bs <> Some TNull ->
  ((exists p, api_decode bs = Some p) <-> exists t, parse bs = Some t /\ wf_patch t).
Proof.
  intros bs NN. unfold api_decode. destruct (parse bs) as [t|].
  - assert (t <> TNull) by congruence.
    rewrite (decode_patch_t_iff t H). split.
    + intro W. exists t. auto.
    + intros [t' [E W]]. inversion E. now subst.
  - split; [intros [p H]; discriminate | intros [t [H _]]; discriminate].
Qed.
Print Assumptions C11_accept_iff.

(* rejection returns no patch: api_decode is an option, None carries nothing *)
Theorem C11_reject_no_patch : forall bs,
  parse bs <> Some TNull -> ~ (exists t, parse bs = Some t /\ wf_patch t) -> api_decode bs = None.
Proof.
  intros bs NN H. destruct (api_decode bs) eqn:E; auto.
  exfalso. apply H. apply C11_accept_iff; eauto.
Qed.
Print Assumptions C11_reject_no_patch.

(* accessors: for the i-th accepted operation, Kind/Path/From are the decoded members and the
   value is the value member (last occurrence), a null member being present-as-null *)
Theorem C11_accessors : forall ms name s,
  op_str (operation_of ms) name = Ok s <-> exists b, member name ms = Some (TStr b) /\ unquote b = s.
Proof. intros ms name s. exact (op_str_ok name ms s). Qed.
Print Assumptions C11_accessors.

Theorem C11_value_member : forall ms,
  aget (B "value") (operation_of ms) = option_map nullify (member (B "value") ms).
Proof. intro ms. apply operation_of_spec. Qed.
Print Assumptions C11_value_member.

Theorem C11_order : forall els ops,
  decode_patch_t (TArr els) = Some ops ->
  ops = map (fun e => match e with TObj ms => operation_of ms | _ => [] end) els.
Proof.
  intros els ops H. unfold decode_patch_t in H.
  destruct (forallb _ els); try discriminate.
  destruct (forallb validate_operation _); try discriminate. now inversion H.
Qed.
Print Assumptions C11_order.

(* non-vacuity: a concrete two-operation patch with a repeated member, a null value and an
   unknown extra member is accepted, and its accessors are as stated *)
Example C11_nonvacuous :
  option_map (fun ops => (map op_kind ops, map (fun o => op_str o (B "from")) ops))
    (api_decode (B "[{""op"":""add"",""path"":""/a"",""value"":null,""x"":1},{""path"":""/b"",""op"":""copy"",""from"":""/a"",""from"":""/c""}]"))
  = Some ([KAdd; KCopy], [Err EMissing; Ok (B "/c")]).
Proof. vm_compute. reflexivity. Qed.

(* ---- the accessors decode op / path / from with unquoteBytes: as re-translated from decode.go on every run it is
   the model's unquote on every string body the scanner accepts (UnquoteTie.v) ---- *)
From JP Require Import Strings Codec.
From JP Require UnquoteTie.
From JP.gen Require UnquoteGen.
Theorem C11_go_string_decoder_is_unquote : forall body, sbody body ->
  UnquoteGen.unquote_full_gen ([x22] ++ body ++ [x22]) = UnquoteGen.UOk (unquote body).
Proof. exact UnquoteTie.unquote_full_gen_is_unquote. Qed.
Print Assumptions C11_go_string_decoder_is_unquote.
