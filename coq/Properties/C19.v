(* C19 — legacy root package: merge patches and Equal.
   The legacy package implements the same RFC 7396 functions; the laws below are the ones proved
   once at the level of the reference (MergeFacts.v) and are what the correspondence judges the
   staged legacy package against on every run (MergePatch vs merge_patch, CreateMergePatch vs diff
   on float-stable numbers, MergeMergePatches vs mm under compatibility, Equal vs jeq on
   escape-free texts).  The refinement of the legacy model (ImplV4.v) to these references is proved
   in V4MergeFacts.v (prune4_t, merge4_n in both modes, api_merge4) and V4EqualFacts.v (equal4,
   api_equal4), on the value aval4 a legacy node denotes (members in the order of the model's
   association list; marshal4 then sorts the names). *)
From JP Require Import Bytes Json Text Strings Den Rfc7396 ImplV5 ImplMerge ImplV4 JsonFacts MergeFacts
  Abs ImplMergeFacts Codec V4MergeFacts V4EqualFacts Domain V4EqualDomain.

Theorem C19_compose_law : forall d p1 p2,
  onodup d = true -> onodup p1 = true -> onodup p2 = true -> compatible p1 p2 = true ->
  jeq (merge_patch d (mm p1 p2)) (merge_patch (merge_patch d p1) p2) = true.
Proof. intros d p1 p2. exact (compose_law p2 d p1). Qed.
Print Assumptions C19_compose_law.

Theorem C19_create_roundtrip : forall a b,
  onodup a = true -> onodup b = true -> no_null_member b = true -> is_obj a = true -> is_obj b = true ->
  jeq (merge_patch a (diff a b)) b = true.
Proof. intros a b. exact (diff_roundtrip b a). Qed.
Print Assumptions C19_create_roundtrip.

Theorem C19_create_minimal : forall a b,
  onodup a = true -> onodup b = true -> is_obj a = true -> is_obj b = true ->
  (diff a b = OObj [] <-> jeq a b = true).
Proof. intros a b. exact (diff_empty_iff b a). Qed.
Print Assumptions C19_create_minimal.

(* structural equality, the relation the legacy Equal is compared with, is an equivalence *)
Theorem C19_equality_is_equivalence : forall a b c,
  onodup a = true -> onodup b = true -> onodup c = true ->
  jeq a a = true /\ (jeq a b = true -> jeq b a = true) /\ (jeq a b = true -> jeq b c = true -> jeq a c = true).
Proof.
  intros a b c Na Nb Nc. split; [apply jeq_refl; auto|]. split; [apply jeq_sym; auto | apply jeq_trans; auto].
Qed.
Print Assumptions C19_equality_is_equivalence.

(* ---- the legacy model refines the references ---- *)
Theorem C19_prune4 : forall t,
  tnodup t = true -> aval4 (prune4_t t) = merge_patch ONull (den t) /\ nwf4 (prune4_t t).
Proof. exact prune4_t_spec. Qed.
Print Assumptions C19_prune4.

Theorem C19_merge4_refines : forall fuel p cur,
  (tsize p < fuel)%nat -> tnodup p = true -> nwf4 cur ->
  aval4 (merge4_n fuel false cur p) = merge_patch (aval4 cur) (den p) /\ nwf4 (merge4_n fuel false cur p).
Proof. exact merge4_n_spec. Qed.
Print Assumptions C19_merge4_refines.

Theorem C19_merge4_refines_jeq : forall fuel p cur,
  (tsize p < fuel)%nat -> tnodup p = true -> nwf4 cur ->
  jeq (aval4 (merge4_n fuel false cur p)) (merge_patch (aval4 cur) (den p)) = true.
Proof. exact merge4_n_jeq. Qed.
Print Assumptions C19_merge4_refines_jeq.

Theorem C19_mergemerge4_refines : forall fuel p cur,
  (tsize p < fuel)%nat -> tnodup p = true -> p <> TNull -> nwf4 cur -> nclean cur = true ->
  (is_obj (den p) = true -> compatible (aval4 cur) (den p) = true) ->
  aval4 (merge4_n fuel true cur p) = mm (aval4 cur) (den p) /\ nwf4 (merge4_n fuel true cur p) /\
  nclean (merge4_n fuel true cur p) = true.
Proof. exact merge4_n_mm_spec. Qed.
Print Assumptions C19_mergemerge4_refines.

Theorem C19_MergePatch : forall doc patch td tp,
  parse doc = Some td -> parse patch = Some tp -> td <> TNull -> tnodup td = true -> tnodup tp = true ->
  (scalar_text tp = true /\ api_merge4 false doc patch = MErr MBadPatch) \/
  (scalar_text tp = false /\ exists n, api_merge4 false doc patch = MOut (marshal4 n) /\ nwf4 n /\
                                       aval4 n = merge_patch (den td) (den tp)).
Proof. exact api_merge4_spec. Qed.
Print Assumptions C19_MergePatch.

Theorem C19_MergeMergePatches : forall p1 p2 ms1 t2,
  parse p1 = Some (TObj ms1) -> parse p2 = Some t2 -> tnodup (TObj ms1) = true -> tnodup t2 = true ->
  compatible (den (TObj ms1)) (den t2) = true ->
  (scalar_text t2 = true /\ api_merge4 true p1 p2 = MErr MBadPatch) \/
  (scalar_text t2 = false /\ exists n, api_merge4 true p1 p2 = MOut (marshal4 n) /\ nwf4 n /\
                                       aval4 n = mm (den (TObj ms1)) (den t2)).
Proof. exact api_mergemerge4_spec. Qed.
Print Assumptions C19_MergeMergePatches.

Theorem C19_MergeMergePatches_composes : forall p1 p2 ms1 t2 d,
  parse p1 = Some (TObj ms1) -> parse p2 = Some t2 -> tnodup (TObj ms1) = true -> tnodup t2 = true ->
  compatible (den (TObj ms1)) (den t2) = true -> scalar_text t2 = false -> onodup d = true ->
  exists n, api_merge4 true p1 p2 = MOut (marshal4 n) /\
            jeq (merge_patch d (aval4 n)) (merge_patch (merge_patch d (den (TObj ms1))) (den t2)) = true.
Proof. exact api_mergemerge4_composes. Qed.
Print Assumptions C19_MergeMergePatches_composes.

(* what is printed: marshal4 n = print true (render4 n), and the rendered tree (member names sorted)
   denotes the node's value up to member order *)
Theorem C19_marshalled_tree : forall n, nwf4 n -> nku n ->
  onodup (den (render4 n)) = true /\ jeq (den (render4 n)) (aval4 n) = true.
Proof. exact render4_den. Qed.
Print Assumptions C19_marshalled_tree.

Theorem C19_MergePatch_output : forall doc patch td tp,
  parse doc = Some td -> parse patch = Some tp -> td <> TNull -> tnodup td = true -> tnodup tp = true ->
  tsb td -> tsb tp -> scalar_text tp = false ->
  exists t, api_merge4 false doc patch = MOut (print true t) /\
            onodup (den t) = true /\ jeq (den t) (merge_patch (den td) (den tp)) = true.
Proof. exact api_merge4_output. Qed.
Print Assumptions C19_MergePatch_output.

Theorem C19_MergeMergePatches_output : forall p1 p2 ms1 t2,
  parse p1 = Some (TObj ms1) -> parse p2 = Some t2 -> tnodup (TObj ms1) = true -> tnodup t2 = true ->
  tsb (TObj ms1) -> tsb t2 -> compatible (den (TObj ms1)) (den t2) = true -> scalar_text t2 = false ->
  exists t, api_merge4 true p1 p2 = MOut (print true t) /\
            onodup (den t) = true /\ jeq (den t) (mm (den (TObj ms1)) (den t2)) = true.
Proof. exact api_mergemerge4_output. Qed.
Print Assumptions C19_MergeMergePatches_output.

Theorem C19_null_rejected : forall mm doc patch td tp,
  parse doc = Some td -> parse patch = Some tp ->
  (td = TNull -> api_merge4 mm doc patch = MErr MBadDoc) /\
  (td <> TNull -> tp = TNull -> api_merge4 mm doc patch = MErr MBadPatch).
Proof. exact api_merge4_null_rejected. Qed.
Print Assumptions C19_null_rejected.

Theorem C19_node_equal4 : forall n o, good4 n -> good4 o -> node_equal4 n o = jeq (aval4 n) (aval4 o).
Proof. exact node_equal4_spec. Qed.
Print Assumptions C19_node_equal4.

(* Equal, on the property's domain: texts whose root is an object or an array (Domain.root_container).
   The restriction is needed for the statement to be about the library: the Go legacy Equal answers
   true for (null, {}), ({}, null) and ([], null) -- a node read from the text null is the nil pointer
   and falls through the comparison -- while the model api_equal4 answers Some false there (see
   C19_Equal_null_root_outside_domain below).  Without root_container the theorems would assert the
   model's answer for null-rooted texts, which is not the library's.  V4EqualDomain.v. *)
Theorem C19_Equal : forall a b ta tb,
  parse a = Some ta -> parse b = Some tb -> root_container ta = true -> root_container tb = true ->
  tnodup ta = true -> tnodup tb = true -> tplain ta = true -> tplain tb = true ->
  api_equal4 a b = Some (jeq (den ta) (den tb)).
Proof. exact api_equal4_spec_container. Qed.
Print Assumptions C19_Equal.

(* without the hypothesis on strings one direction remains: what legacy Equal accepts is equal *)
Theorem C19_Equal_sound : forall a b ta tb,
  parse a = Some ta -> parse b = Some tb -> root_container ta = true -> root_container tb = true ->
  tnodup ta = true -> tnodup tb = true ->
  api_equal4 a b = Some true -> jeq (den ta) (den tb) = true.
Proof. exact api_equal4_sound_container. Qed.
Print Assumptions C19_Equal_sound.

(* OUTSIDE the property's domain: at a null root the model says Some false; the Go function says
   true for these three pairs.  Recorded so that nobody reads the model's answer here as a claim
   about the library: root_container TNull = false, so C19_Equal / C19_Equal_sound do not apply. *)
Example C19_Equal_null_root_outside_domain :
  api_equal4 (B "null") (B "{}") = Some false /\ api_equal4 (B "{}") (B "null") = Some false /\
  api_equal4 (B "[]") (B "null") = Some false /\
  root_container TNull = false /\ parse (B "null") = Some TNull.
Proof. exact api_equal4_null_root. Qed.

Theorem C19_node_equal4_sound : forall n o,
  good4w n -> good4w o -> node_equal4 n o = true -> jeq (aval4 n) (aval4 o) = true.
Proof. exact node_equal4_sound. Qed.
Print Assumptions C19_node_equal4_sound.

(* ASCII strings without a backslash are spelled as they decode *)
Theorem C19_plain_strings : forall b, forallb plain_byte b = true -> unquote b = b.
Proof. exact unquote_ascii_plain. Qed.
Print Assumptions C19_plain_strings.

(* the hypothesis on strings cannot be dropped: legacy Equal compares spellings *)
Theorem C19_Equal_compares_spellings :
  node_equal4 (NRaw (TStr (B "\/"))) (NRaw (TStr (B "/"))) = false /\
  jeq (aval4 (NRaw (TStr (B "\/")))) (aval4 (NRaw (TStr (B "/")))) = true /\
  api_equal4 (B "{""a"":""\/""}") (B "{""a"":""/""}") = Some false.
Proof. exact equal4_naive_false_strings. Qed.
Print Assumptions C19_Equal_compares_spellings.

(* ---- wiring of OutputFacts.v / V4EqualDomain.v: the bytes the legacy MergePatch / MergeMergePatches return
   are a JSON text that parses to a value WITHOUT REPEATED NAMES equal, up to member order, to the RFC 7396
   result (no hypothesis on strings).  The no-repeated-names half matters: jeq looks the members of its left
   argument up in the right one, so jeq (den t') spec alone would also be met by an output that repeats a
   name (V4EqualDomain.jeq_onesided_with_repeated_name); with onodup (den t') the comparison holds in both
   directions (C19_MergePatch_output_bytes_both).  Same shape as C18_apply_output_bytes. ---- *)
From JP Require Import Scan OutputFacts.

Theorem C19_MergePatch_output_bytes : forall doc patch td tp,
  parse doc = Some td -> parse patch = Some tp -> td <> TNull -> tnodup td = true -> tnodup tp = true ->
  scalar_text tp = false ->
  exists out t', api_merge4 false doc patch = MOut out /\ parse out = Some t' /\
                 jeq (den t') (merge_patch (den td) (den tp)) = true /\ onodup (den t') = true /\
                 valid_gen out = true.
Proof. exact api_merge4_output_bytes_strong. Qed.
Print Assumptions C19_MergePatch_output_bytes.

Theorem C19_MergePatch_output_bytes_both : forall doc patch td tp,
  parse doc = Some td -> parse patch = Some tp -> td <> TNull -> tnodup td = true -> tnodup tp = true ->
  scalar_text tp = false ->
  exists out t', api_merge4 false doc patch = MOut out /\ parse out = Some t' /\
                 jeq (den t') (merge_patch (den td) (den tp)) = true /\
                 jeq (merge_patch (den td) (den tp)) (den t') = true.
Proof. exact api_merge4_output_bytes_both. Qed.
Print Assumptions C19_MergePatch_output_bytes_both.

Theorem C19_MergeMergePatches_output_bytes : forall p1 p2 ms1 t2,
  parse p1 = Some (TObj ms1) -> parse p2 = Some t2 -> tnodup (TObj ms1) = true -> tnodup t2 = true ->
  compatible (den (TObj ms1)) (den t2) = true -> scalar_text t2 = false ->
  exists out t', api_merge4 true p1 p2 = MOut out /\ parse out = Some t' /\
                 jeq (den t') (mm (den (TObj ms1)) (den t2)) = true /\ onodup (den t') = true /\
                 valid_gen out = true.
Proof. exact api_mergemerge4_output_bytes_strong. Qed.
Print Assumptions C19_MergeMergePatches_output_bytes.

Example C19_nonvacuous :
  api_merge4 false (B "{""b"":{""x"":1,""y"":2},""a"":1}") (B "{""b"":{""x"":null,""z"":[null]},""c"":{""d"":null}}")
    = MOut (B "{""a"":1,""b"":{""y"":2,""z"":[null]},""c"":{}}") /\
  api_merge4 true (B "{""a"":{""x"":1}}") (B "{""a"":{""x"":null,""y"":2}}") = MOut (B "{""a"":{""x"":null,""y"":2}}") /\
  api_equal4 (B "{""a"":[1,null],""b"":""s""}") (B " {""b"":""s"",""a"":[1,null]}") = Some true.
Proof. vm_compute. repeat split; reflexivity. Qed.

(* ---- the main theorems applied: every hypothesis of C19_MergePatch, C19_MergePatch_output_bytes (strong
   form), C19_MergeMergePatches, C19_MergeMergePatches_output_bytes, C19_Equal and C19_Equal_sound discharged
   on the texts of C19_nonvacuous (object roots, plain strings).  The patches are objects, so the merge
   theorems yield their second branch. ---- *)
Definition C19_ex_doc := B "{""b"":{""x"":1,""y"":2},""a"":1}".
Definition C19_ex_patch := B "{""b"":{""x"":null,""z"":[null]},""c"":{""d"":null}}".
Definition C19_ex_p1 := B "{""a"":{""x"":1}}".
Definition C19_ex_p2 := B "{""a"":{""x"":null,""y"":2}}".
Definition C19_ex_e1 := B "{""a"":[1,null],""b"":""s""}".
Definition C19_ex_e2 := B " {""b"":""s"",""a"":[1,null]}".
Definition C19_ex_td : tjson := Eval vm_compute in match parse C19_ex_doc with Some t => t | None => TNull end.
Definition C19_ex_tp : tjson := Eval vm_compute in match parse C19_ex_patch with Some t => t | None => TNull end.
Definition C19_ex_ms1 : list (bytes * tjson) := Eval vm_compute in match parse C19_ex_p1 with Some (TObj ms) => ms | _ => [] end.
Definition C19_ex_t2 : tjson := Eval vm_compute in match parse C19_ex_p2 with Some t => t | None => TNull end.
Definition C19_ex_ta : tjson := Eval vm_compute in match parse C19_ex_e1 with Some t => t | None => TNull end.
Definition C19_ex_tb : tjson := Eval vm_compute in match parse C19_ex_e2 with Some t => t | None => TNull end.

Example C19_main_theorem_applies :
  (exists n, api_merge4 false C19_ex_doc C19_ex_patch = MOut (marshal4 n) /\ nwf4 n /\
             aval4 n = merge_patch (den C19_ex_td) (den C19_ex_tp)) /\
  (exists out t', api_merge4 false C19_ex_doc C19_ex_patch = MOut out /\ parse out = Some t' /\
             jeq (den t') (merge_patch (den C19_ex_td) (den C19_ex_tp)) = true /\ onodup (den t') = true /\
             valid_gen out = true) /\
  (exists n, api_merge4 true C19_ex_p1 C19_ex_p2 = MOut (marshal4 n) /\ nwf4 n /\
             aval4 n = mm (den (TObj C19_ex_ms1)) (den C19_ex_t2)) /\
  (exists out t', api_merge4 true C19_ex_p1 C19_ex_p2 = MOut out /\ parse out = Some t' /\
             jeq (den t') (mm (den (TObj C19_ex_ms1)) (den C19_ex_t2)) = true /\ onodup (den t') = true /\
             valid_gen out = true) /\
  api_equal4 C19_ex_e1 C19_ex_e2 = Some (jeq (den C19_ex_ta) (den C19_ex_tb)) /\
  jeq (den C19_ex_ta) (den C19_ex_tb) = true.
Proof.
  assert (Pd : parse C19_ex_doc = Some C19_ex_td) by (vm_compute; reflexivity).
  assert (Pp : parse C19_ex_patch = Some C19_ex_tp) by (vm_compute; reflexivity).
  assert (NN : C19_ex_td <> TNull) by discriminate.
  assert (P1 : parse C19_ex_p1 = Some (TObj C19_ex_ms1)) by (vm_compute; reflexivity).
  assert (P2 : parse C19_ex_p2 = Some C19_ex_t2) by (vm_compute; reflexivity).
  assert (Pa : parse C19_ex_e1 = Some C19_ex_ta) by (vm_compute; reflexivity).
  assert (Pb : parse C19_ex_e2 = Some C19_ex_tb) by (vm_compute; reflexivity).
  (* the trees are literals: what is asked of them is decided by evaluation (eq_refl) *)
  split; [|split; [|split; [|split; [|split]]]].
  - destruct (C19_MergePatch _ _ _ _ Pd Pp NN eq_refl eq_refl) as [[S _] | [_ H]]; [discriminate S | exact H].
  - exact (C19_MergePatch_output_bytes _ _ _ _ Pd Pp NN eq_refl eq_refl eq_refl).
  - destruct (C19_MergeMergePatches _ _ _ _ P1 P2 eq_refl eq_refl eq_refl) as [[S _] | [_ H]]; [discriminate S | exact H].
  - exact (C19_MergeMergePatches_output_bytes _ _ _ _ P1 P2 eq_refl eq_refl eq_refl eq_refl).
  - apply (C19_Equal _ _ _ _ Pa Pb eq_refl eq_refl eq_refl eq_refl); vm_compute; reflexivity.
  - apply (C19_Equal_sound _ _ _ _ Pa Pb eq_refl eq_refl eq_refl eq_refl). vm_compute. reflexivity.
Qed.
Print Assumptions C19_main_theorem_applies.

(* ---- the legacy MergePatch / MergeMergePatches write valid UTF-8 given UTF-8 input (Utf8Out.v) ---- *)
From JP Require Utf8Out.
Theorem C19_merge_output_utf8 : forall mm doc patch out,
  Utf8Out.utf8_text doc -> Utf8Out.utf8_text patch -> api_merge4 mm doc patch = MOut out -> Utf8Out.utf8_text out.
Proof. exact Utf8Out.api_merge4_utf8. Qed.
Print Assumptions C19_merge_output_utf8.
