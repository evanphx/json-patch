(* C15 — outputs are well-formed; escaping and indentation never change the value.
   The escape tables safeSet/htmlSafeSet are RE-TRANSLATED from tables.go on every run
   (gen/TablesGen.v); the theorems below are re-checked against them.
   Proved (on the model of the string codec, Strings.v, and of compact's escaping, Text.html_escape):
   EscapeHTML only changes the spelling — what every string and member name denotes is unchanged —
   and with EscapeHTML on no < > & U+2028 U+2029 is written raw.
   Proved on the output BYTES (OutputFacts.v): every successful result of Apply / ApplyIndent (v5) for
   EVERY parsed document, EVERY decoded patch and every options record is a tree of tokens the
   independent reader accepts; if the result is nested no deeper than the reader's limit (the one
   hypothesis: a decoded copy can nest the result deeper, C15_nesting_hypothesis_needed; it holds
   for the empty patch) the bytes are one well-formed JSON text, read back as the value of that
   tree, accepted by the scanner, and ApplyIndent's bytes are exactly Indent of Apply's bytes.  In
   the domain of the simulation (C01) the value read back IS the RFC 6902 result and the nesting
   hypothesis is one on that result.  MergePatch, MergeMergePatches and CreateMergePatch: every
   successful result is a well-formed JSON text, no hypothesis at all (their results are never
   nested deeper than their inputs).
   Removing the tests of a patch that succeeds leaves the output bytes unchanged
   (C15_passing_tests_transparent): proved for a document and stored values in the encoder's own
   spelling (canonical_spelling, stored_canon); for other spellings it is compared on every run. *)
From JP Require Import Bytes Json Text Strings Den Pointer Rfc6902 ImplV5 Domain ImplFacts RefFacts Codec ApplySim.
From JP Require Import ImplMerge Scan PrintParse OutputFacts.
From JP.gen Require Import TablesGen.

(* escaping a string body never changes the string it denotes *)
Theorem C15_escape_keeps_string : forall b, sbody b -> unquote (html_escape b) = unquote b.
Proof. exact unquote_he. Qed.
Print Assumptions C15_escape_keeps_string.

(* ... nor the value of a whole text: every string and member name, at every depth *)
Theorem C15_escape_keeps_value : forall t, tsb t -> den (escape_tree true t) = den t.
Proof. exact escape_tree_den. Qed.
Print Assumptions C15_escape_keeps_value.

(* with EscapeHTML on, none of < > & U+2028 U+2029 is left raw in an escaped body, whatever the
   body was (no validity assumption) *)
Theorem C15_escape_on_nothing_raw : forall b, has_raw (html_escape b) = false.
Proof. exact he_no_raw. Qed.
Print Assumptions C15_escape_on_nothing_raw.

(* member names and strings written by the encoder: decoding what it wrote gives the string back,
   with EscapeHTML on or off (valid UTF-8) *)
Theorem C15_encoded_string_decodes_back : forall esc s, utf8 s -> unquote (quote esc s) = s.
Proof. exact unquote_quote. Qed.
Print Assumptions C15_encoded_string_decodes_back.

(* the switch changes nothing but the spelling *)
Theorem C15_switch_only_spelling : forall b, sbody b ->
  unquote (quote true (unquote b)) = unquote (quote false (unquote b)).
Proof. exact escape_switch_same_value. Qed.
Print Assumptions C15_switch_only_spelling.

(* decoded strings are valid UTF-8 (invalid input bytes and lone surrogates become U+FFFD) *)
Theorem C15_decoded_is_utf8 : forall b, sbody b -> utf8 (unquote b).
Proof. exact sbody_unquote_utf8. Qed.
Print Assumptions C15_decoded_is_utf8.

(* the regenerated tables: everything HTML-safe is safe; the three HTML characters are not HTML-safe *)
Theorem C15_tables : forall c, tbl htmlSafeSet c = true ->
  tbl safeSet c = true /\ c <> x3c /\ c <> x3e /\ c <> x26.
Proof. intros c H. destruct c; vm_compute in H; try discriminate; repeat split; try reflexivity; discriminate. Qed.
Print Assumptions C15_tables.

(* ---- the output bytes of Apply / ApplyIndent ---- *)
(* EVERY parsed document, EVERY patch whose values are made of tokens the reader accepts (every
   decoded patch: C15_decoded_patch_values), every options record, every indent.  tr is the tree
   Apply encodes (OutputFacts.result_tree); the result bytes are its compact or indented text; it is
   made of well-formed string bodies and complete number literals (tok) and is an object, an array or
   null; if it is nested within the reader's limit: with a white-space indent (or none) the bytes
   are read back as tr with its strings escaped as EscapeHTML says, the scanner accepts them, the
   value read is the value of tr; and for a non-empty indent the bytes are exactly Indent (the loop
   over the translated scanner) of the bytes Apply returns *)
Theorem C15_apply_output_wellformed : forall o indent p doc t out,
  parse doc = Some t -> Forall op_tok p -> api_apply o indent p doc = ROut out ->
  exists tr, result_tree o p t = Some tr /\ out = output o indent tr /\ tok tr /\ root_shape tr /\
    ((Text.tdepth tr <= max_depth)%N ->
       (wsb indent = true ->
          parse out = Some (escape_tree (o_esc o) tr) /\ valid_gen out = true /\
          exists t', parse out = Some t' /\ den t' = den tr) /\
       (indent <> [] -> exists out0, api_apply o [] p doc = ROut out0 /\ indent_go indent out0 = Some out)).
Proof. exact api_apply_output_general. Qed.
Print Assumptions C15_apply_output_wellformed.

Theorem C15_decoded_patch_values : forall bs p, api_decode bs = Some p -> Forall op_tok p.
Proof. exact api_decode_tok. Qed.
Print Assumptions C15_decoded_patch_values.

Theorem C15_apply_output_decoded : forall o indent patch p doc t out,
  api_decode patch = Some p -> parse doc = Some t -> wsb indent = true ->
  api_apply o indent p doc = ROut out ->
  exists tr, result_tree o p t = Some tr /\ out = output o indent tr /\
    ((Text.tdepth tr <= max_depth)%N -> valid_gen out = true /\ exists t', parse out = Some t' /\ den t' = den tr).
Proof. exact api_apply_output_decoded. Qed.
Print Assumptions C15_apply_output_decoded.

(* the empty patch: no hypothesis on the nesting *)
Theorem C15_apply_output_empty_patch : forall o indent doc t out,
  parse doc = Some t -> wsb indent = true -> api_apply o indent [] doc = ROut out ->
  valid_gen out = true /\ exists t', parse out = Some t'.
Proof. exact api_apply_output_nil. Qed.
Print Assumptions C15_apply_output_empty_patch.

(* in the domain of the simulation (C01): the bytes are a JSON text whose value IS the RFC 6902 result,
   provided that result is nested within the reader's limit; ApplyIndent = Indent of Apply *)
Theorem C15_apply_output_is_rfc_result : forall o indent p doc t,
  plain_opts o -> parse doc = Some t -> root_container t = true -> tnodup t = true ->
  Forall op_dom p -> Forall op_tok p ->
  copies_fit (dia o) (den t) (map den_op p) = true ->
  wsb indent = true ->
  match rfc_apply (dia o) (den t) (map den_op p) with
  | Done j =>
      (odepth j <= max_depth)%N ->
      exists out t', api_apply o indent p doc = ROut out /\ parse out = Some t' /\ den t' = j /\ valid_gen out = true /\
        (indent <> [] -> exists out0, api_apply o [] p doc = ROut out0 /\ indent_go indent out0 = Some out)
  | Failed i cz => exists e, api_apply o indent p doc = RErr (Some i) e /\ cause_rel cz e
  end.
Proof. exact api_apply_output_sim. Qed.
Print Assumptions C15_apply_output_is_rfc_result.

(* the invariant behind it, for arbitrary operations, paths and options: the raw messages stored in
   the document stay made of tokens the reader accepts *)
Theorem C15_engine_keeps_tokens : forall o p i st st',
  stok st -> Forall op_tok p -> apply_from o i st p = AOk st' -> ntok (root_node (s_root st')).
Proof. exact apply_from_ntok. Qed.
Print Assumptions C15_engine_keeps_tokens.

(* member names are written as bodies the reader accepts whatever bytes they hold *)
Theorem C15_any_name_is_written_wellformed : forall esc s, body_ok (quote esc s).
Proof. exact body_ok_quote. Qed.
Print Assumptions C15_any_name_is_written_wellformed.

(* the nesting hypothesis is needed: a document nested 10000 deep and a decoded copy *)
Theorem C15_nesting_hypothesis_needed :
  match api_decode (B "[{""op"":""copy"",""from"":""/a"",""path"":""/b/-""}]") with
  | Some p =>
      match api_apply (ex_opts true) [] p ex_deep_doc with
      | ROut out => parse out = None /\ parse ex_deep_doc <> None
      | _ => False
      end
  | None => False
  end.
Proof. exact ex_result_too_deep. Qed.
Print Assumptions C15_nesting_hypothesis_needed.

(* the empty document is the one input for which Apply's result is not a JSON text *)
Theorem C15_empty_document : forall o indent p, api_apply o indent p [] = ROut [] /\ parse [] = None.
Proof. exact api_apply_empty_doc. Qed.
Print Assumptions C15_empty_document.

(* ---- MergePatch, MergeMergePatches, CreateMergePatch: every successful result is a JSON text ---- *)
Theorem C15_merge_output_wellformed : forall mm doc patch out,
  api_merge mm doc patch = MOut out -> valid_gen out = true.
Proof. exact api_merge_output_valid. Qed.
Print Assumptions C15_merge_output_wellformed.

Theorem C15_create_output_wellformed : forall a b out,
  api_create a b = MOut out -> exists t', parse out = Some t' /\ valid_gen out = true.
Proof. exact api_create_output_general. Qed.
Print Assumptions C15_create_output_wellformed.

Example C15_nonvacuous :
  match api_decode (B "[{""op"":""add"",""path"":""/k<"",""value"":""a&b""}]") with
  | Some p =>
      match api_apply (mkOpts true 0 false false true [] None) [] p (B "{""x>"":""<""}"),
            api_apply (mkOpts true 0 false false false [] None) [] p (B "{""x>"":""<""}") with
      | ROut on, ROut off =>
          off = B "{""x>"":""<"",""k<"":""a&b""}" /\ has_raw on = false /\ has_raw off = true /\
          option_map den (parse on) = option_map den (parse off) /\ parse on <> None
      | _, _ => False
      end
  | None => False
  end.
Proof. vm_compute. repeat split; try reflexivity; discriminate. Qed.

(* ---- the main theorems applied: every hypothesis of C15_apply_output_wellformed (with its nesting
   hypothesis and a non-empty white-space indent) and of C15_apply_output_is_rfc_result discharged on the
   document and patch of C15_nonvacuous (names and values with < > &), EscapeHTML on, indent of two spaces:
   the bytes ApplyIndent returns are read back as the escaped result tree, the scanner accepts them, their
   value is the RFC 6902 result, and they are Indent of the bytes Apply returns. ---- *)
From JP Require PointerDomain.
Definition C15_ex_doc := B "{""x>"":""<""}".
Definition C15_ex_patch := B "[{""op"":""add"",""path"":""/k<"",""value"":""a&b""}]".
Definition C15_ex_o := mkOpts true 0 false false true [] None.
Definition C15_ex_ind := B "  ".
Definition C15_ex_t : tjson := Eval vm_compute in match parse C15_ex_doc with Some t => t | None => TNull end.
Definition C15_ex_p : list operation := Eval vm_compute in match api_decode C15_ex_patch with Some p => p | None => [] end.
Definition C15_ex_out : bytes :=
  Eval vm_compute in match api_apply C15_ex_o C15_ex_ind C15_ex_p C15_ex_doc with ROut out => out | _ => [] end.
Definition C15_ex_result : ojson := OObj [(B "x>", OStr (B "<")); (B "k<", OStr (B "a&b"))].

Example C15_main_theorem_applies :
  (exists tr, result_tree C15_ex_o C15_ex_p C15_ex_t = Some tr /\ C15_ex_out = output C15_ex_o C15_ex_ind tr /\
     tok tr /\ root_shape tr /\
     parse C15_ex_out = Some (escape_tree true tr) /\ valid_gen C15_ex_out = true /\
     (exists t', parse C15_ex_out = Some t' /\ den t' = den tr) /\
     (exists out0, api_apply C15_ex_o [] C15_ex_p C15_ex_doc = ROut out0 /\ indent_go C15_ex_ind out0 = Some C15_ex_out)) /\
  (exists out t', api_apply C15_ex_o C15_ex_ind C15_ex_p C15_ex_doc = ROut out /\ parse out = Some t' /\
     den t' = C15_ex_result /\ valid_gen out = true).
Proof.
  assert (P : parse C15_ex_doc = Some C15_ex_t) by (vm_compute; reflexivity).
  assert (E : api_decode C15_ex_patch = Some C15_ex_p) by (vm_compute; reflexivity).
  assert (A : api_apply C15_ex_o C15_ex_ind C15_ex_p C15_ex_doc = ROut C15_ex_out) by (vm_compute; reflexivity).
  assert (OT : Forall op_tok C15_ex_p) by exact (C15_decoded_patch_values _ _ E).
  split.
  - destruct (C15_apply_output_wellformed C15_ex_o C15_ex_ind C15_ex_p C15_ex_doc C15_ex_t C15_ex_out P OT A)
      as [tr [R [O [T [Sh G]]]]].
    assert (D : (Text.tdepth tr <= max_depth)%N).
    { vm_compute in R. injection R as <-. vm_compute. discriminate. }
    destruct (G D) as [G1 G2]. destruct (G1 eq_refl) as [P1 [V X]].
    exists tr. split; [exact R|]. split; [exact O|]. split; [exact T|]. split; [exact Sh|].
    split; [exact P1|]. split; [exact V|]. split; [exact X|]. apply G2. discriminate.
  - pose proof (C15_apply_output_is_rfc_result C15_ex_o C15_ex_ind C15_ex_p C15_ex_doc C15_ex_t) as H.
    assert (R : rfc_apply (dia C15_ex_o) (den C15_ex_t) (map den_op C15_ex_p) = Done C15_ex_result) by (vm_compute; reflexivity).
    rewrite R in H.
    destruct H as [out [t' [H1 [H2 [H3 [H4 _]]]]]].
    + repeat split.
    + exact P.
    + reflexivity.
    + vm_compute; reflexivity.
    + apply (PointerDomain.decoded_in_domain_op_dom C15_ex_patch); [exact E | vm_compute; reflexivity | vm_compute; reflexivity].
    + exact OT.
    + vm_compute; reflexivity.
    + reflexivity.
    + vm_compute. discriminate.
    + exists out, t'. split; [exact H1|]. split; [exact H2|]. split; [exact H3 | exact H4].
Qed.
Print Assumptions C15_main_theorem_applies.

(* ---- "test operations that pass leave the output bytes identical to those of the same patch without
   them" (TestTransparent.v).  DOMAIN: the simulation domain of C01 plus the clause's own quantifier —
   the document and the values stored by the non-test operations are spelled as the encoder spells them
   (canonical_spelling); test values may be spelled in any way.  The hypothesis is needed:
   C15_test_respells_member_names. ---- *)
From JP Require TestTransparent.

(* in that domain the bytes Apply returns are a function of the RFC 6902 result alone *)
Theorem C15_output_is_canonical_encoding_of_rfc_result : forall o indent p doc t,
  plain_opts o -> parse doc = Some t -> root_container t = true -> tnodup t = true ->
  Forall op_dom p ->
  copies_fit (dia o) (den t) (map den_op p) = true ->
  canonical_spelling (o_esc o) t = true ->
  Forall (TestTransparent.stored_canon (o_esc o)) p ->
  match rfc_apply (dia o) (den t) (map den_op p) with
  | Done j => api_apply o indent p doc = ROut (output o indent (TestTransparent.cenc (o_esc o) j))
  | Failed i cz => exists e, api_apply o indent p doc = RErr (Some i) e /\ cause_rel cz e
  end.
Proof. exact TestTransparent.api_apply_canonical_bytes. Qed.
Print Assumptions C15_output_is_canonical_encoding_of_rfc_result.

Theorem C15_passing_tests_transparent : forall o indent p doc t out,
  plain_opts o -> parse doc = Some t -> root_container t = true -> tnodup t = true ->
  Forall op_dom p ->
  copies_fit (dia o) (den t) (map den_op p) = true ->
  canonical_spelling (o_esc o) t = true ->
  Forall (TestTransparent.stored_canon (o_esc o)) p ->
  api_apply o indent p doc = ROut out ->
  api_apply o indent (filter TestTransparent.not_test p) doc = ROut out.
Proof. exact TestTransparent.passing_tests_transparent. Qed.
Print Assumptions C15_passing_tests_transparent.

(* the same on the boolean domain the harness evaluates, for a decoded patch *)
Theorem C15_passing_tests_transparent_decoded : forall o indent patch p doc t out,
  plain_opts o ->
  api_decode patch = Some p -> in_domain_C01 p = true -> forallb PointerDomain.op_small p = true ->
  parse doc = Some t -> root_container t = true -> tnodup t = true ->
  copies_fit (dia o) (den t) (map den_op p) = true ->
  canonical_spelling (o_esc o) t = true -> forallb (TestTransparent.stored_canonb (o_esc o)) p = true ->
  api_apply o indent p doc = ROut out ->
  api_apply o indent (filter TestTransparent.not_test p) doc = ROut out.
Proof. exact TestTransparent.passing_tests_transparent_decoded. Qed.
Print Assumptions C15_passing_tests_transparent_decoded.

(* conversely, adding tests to a patch that succeeds can only make it fail: never other bytes *)
Theorem C15_tests_only_pass_or_fail : forall o indent p doc t out,
  plain_opts o -> parse doc = Some t -> root_container t = true -> tnodup t = true ->
  Forall op_dom p ->
  copies_fit (dia o) (den t) (map den_op p) = true ->
  canonical_spelling (o_esc o) t = true ->
  Forall (TestTransparent.stored_canon (o_esc o)) p ->
  api_apply o indent (filter TestTransparent.not_test p) doc = ROut out ->
  api_apply o indent p doc = ROut out \/ exists i e, api_apply o indent p doc = RErr (Some i) e.
Proof. exact TestTransparent.tests_only_pass_or_fail. Qed.
Print Assumptions C15_tests_only_pass_or_fail.

(* the spelling hypothesis is needed: a passing test below a member whose NAME is spelled with an escape
   the encoder would not use makes the decoder re-spell that name *)
Example C15_test_respells_member_names :
  match api_decode TestTransparent.ex1_patch, parse TestTransparent.ex1_doc with
  | Some p, Some t =>
      api_apply (TestTransparent.tt_opts false) [] p TestTransparent.ex1_doc = ROut (B "{""a"":{""/"":1}}") /\
      api_apply (TestTransparent.tt_opts false) [] (filter TestTransparent.not_test p) TestTransparent.ex1_doc
        = ROut (B "{""a"":{""\/"":1}}") /\
      canonical_spelling false t = false
  | _, _ => False
  end.
Proof. vm_compute. repeat split; reflexivity. Qed.

(* ---- "in valid UTF-8 (given UTF-8 input)" (Utf8Out.v).  utf8_text is Codec.utf8: the byte string is a
   concatenation of well-formed UTF-8 sequences as Go's utf8.Valid / DecodeRune understand it.  Every
   options record; no domain restriction on paths or operations. ---- *)
From JP Require Utf8Out.

(* the encoder writes UTF-8 whatever the Go string holds (ill-formed bytes become the U+FFFD escape) *)
Theorem C15_encoder_writes_utf8 : forall esc s, Utf8Out.utf8_text (quote esc s).
Proof. exact Utf8Out.utf8_quote. Qed.
Print Assumptions C15_encoder_writes_utf8.

Theorem C15_apply_output_utf8 : forall o indent p doc out,
  Utf8Out.utf8_text doc -> Forall Utf8Out.op_utf8 p -> Utf8Out.utf8_text indent ->
  api_apply o indent p doc = ROut out -> Utf8Out.utf8_text out.
Proof. exact Utf8Out.api_apply_utf8. Qed.
Print Assumptions C15_apply_output_utf8.

(* document and patch given as UTF-8 texts, the indent made of white space *)
Theorem C15_apply_output_utf8_decoded : forall o indent patch p doc out,
  Utf8Out.utf8_text doc -> Utf8Out.utf8_text patch -> api_decode patch = Some p -> wsb indent = true ->
  api_apply o indent p doc = ROut out -> Utf8Out.utf8_text out.
Proof. exact Utf8Out.api_apply_utf8_decoded. Qed.
Print Assumptions C15_apply_output_utf8_decoded.

Theorem C15_merge_output_utf8 : forall mm doc patch out,
  Utf8Out.utf8_text doc -> Utf8Out.utf8_text patch -> api_merge mm doc patch = MOut out -> Utf8Out.utf8_text out.
Proof. exact Utf8Out.api_merge_utf8. Qed.
Print Assumptions C15_merge_output_utf8.

(* CreateMergePatch: every string and name of the result is written by the encoder — no input hypothesis *)
Theorem C15_create_output_utf8 : forall a b out, api_create a b = MOut out -> Utf8Out.utf8_text out.
Proof. exact Utf8Out.api_create_utf8. Qed.
Print Assumptions C15_create_output_utf8.

(* the input hypothesis is needed: an ill-formed byte inside a document string passes through verbatim *)
Example C15_utf8_input_needed :
  parse Utf8Out.ex_bad_doc <> None /\ ~ Utf8Out.utf8_text Utf8Out.ex_bad_doc /\
  match api_apply (ex_opts true) [] [] Utf8Out.ex_bad_doc with
  | ROut out => out = Utf8Out.ex_bad_doc /\ ~ Utf8Out.utf8_text out
  | _ => False
  end.
Proof. exact Utf8Out.ex_utf8_input_needed. Qed.

(* ---- the string encoder itself: encodeState.string (and its twin stringBytes, checked to be the same
   function) RE-TRANSLATED from v5/internal/json/encode.go on every run (tools/goquote2v -> gen/QuoteGen.v:
   the loop as a step function with a range guard on every index and slice expression, the tables of
   gen/TablesGen.v) and proved equal to the model's quote for EVERY byte string (QuoteTie.v); the loop
   never runs out of fuel and never indexes out of range.  utf8.DecodeRune is modelled (Utf8Rune.v). ---- *)
From JP Require QuoteTie.
From JP.gen Require QuoteGen.

Theorem C15_go_string_encoder_is_quote : forall esc s,
  QuoteGen.quote_full_gen esc s = [x22] ++ quote esc s ++ [x22].
Proof. exact QuoteTie.quote_full_gen_is_quote. Qed.
Print Assumptions C15_go_string_encoder_is_quote.

Theorem C15_go_string_encoder_appends : forall esc s out0,
  QuoteGen.quote_run esc s out0 = QuoteGen.QOk (out0 ++ [x22] ++ quote esc s ++ [x22]).
Proof. exact QuoteTie.quote_run_is_quote. Qed.
Print Assumptions C15_go_string_encoder_appends.

Theorem C15_go_string_encoder_total : forall esc s out0,
  QuoteGen.quote_run esc s out0 <> QuoteGen.QFuel /\ QuoteGen.quote_run esc s out0 <> QuoteGen.QPanic.
Proof. exact QuoteTie.quote_run_total. Qed.
Print Assumptions C15_go_string_encoder_total.

(* ---- ApplyIndent's re-indentation: Indent of indent.go as re-translated on every run is the model's indent_go ---- *)
From JP Require IndentTie.
From JP.gen Require IndentGen.
Theorem C15_go_indent_is_model : forall indent bs, IndentGen.indent_gen [] indent bs = Scan.indent_go indent bs.
Proof. exact IndentTie.indent_gen_is_model. Qed.
Print Assumptions C15_go_indent_is_model.

(* ---- the string decoder, re-translated from decode.go on every run, is the model's unquote on every accepted
   body and never panics (UnquoteTie.v; see Properties/C17.v) ---- *)
From JP Require UnquoteTie.
From JP.gen Require UnquoteGen.
Theorem C15_go_string_decoder_is_unquote : forall body, sbody body ->
  UnquoteGen.unquote_full_gen ([x22] ++ body ++ [x22]) = UnquoteGen.UOk (unquote body).
Proof. exact UnquoteTie.unquote_full_gen_is_unquote. Qed.
Print Assumptions C15_go_string_decoder_is_unquote.
