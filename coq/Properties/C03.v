(* C03 — CreateMergePatch: a minimal patch that reproduces the target.  The first group of theorems is
   about the difference function `diff` (Rfc7396.v), which the correspondence ties to CreateMergePatch's
   output on every run.  The second, larger group is about the model of the function itself
   (ImplMerge.api_create): what it prints on two objects and on two arrays of objects, the members and
   number literals of the output tree, the rejections.  The last group is about the Go algorithm modelled
   statement by statement (CreateImpl.v), which is proved to be that model (C03_go_model_is_model). *)
From JP Require Import Bytes Json Rfc7396 JsonFacts MergeFacts.
From JP Require Import Text Strings Den ImplMerge Codec CreateFacts.

(* applying the difference of A and B to A per RFC 7396 gives B, whenever B has no null member *)
Theorem C03_roundtrip : forall a b,
  onodup a = true -> onodup b = true -> no_null_member b = true -> is_obj a = true -> is_obj b = true ->
  jeq (merge_patch a (diff a b)) b = true.
Proof. intros a b. exact (diff_roundtrip b a). Qed.
Print Assumptions C03_roundtrip.

(* the patch is {} exactly when A and B are equal *)
Theorem C03_empty_iff_equal : forall a b,
  onodup a = true -> onodup b = true -> is_obj a = true -> is_obj b = true ->
  (diff a b = OObj [] <-> jeq a b = true).
Proof. intros a b. exact (diff_empty_iff b a). Qed.
Print Assumptions C03_empty_iff_equal.

(* every member the patch mentions differs between A and B at that path; removed members appear
   as null; every other value is B's own value, verbatim (number literals included), or the
   difference of two objects (to which this theorem applies again) *)
Theorem C03_minimal : forall ams bms k v,
  NoDup (map fst ams) -> NoDup (map fst bms) ->
  Forall (fun kv => onodup (snd kv) = true) ams -> Forall (fun kv => onodup (snd kv) = true) bms ->
  aget k (members_of (diff (OObj ams) (OObj bms))) = Some v ->
  ~ lookup_rel (fun x y => jeq x y = true) (aget k ams) (aget k bms) /\
  (   (aget k bms = None /\ v = ONull /\ aget k ams <> None)
   \/ (aget k bms = Some v)
   \/ (exists av bv, aget k ams = Some av /\ aget k bms = Some bv /\ is_obj av = true /\ is_obj bv = true /\
                     v = diff av bv)).
Proof. exact diff_mentions. Qed.
Print Assumptions C03_minimal.

(* a member of A that B lacks is removed by a null *)
Theorem C03_removed_is_null : forall ams bms k av,
  NoDup (map fst bms) -> aget k ams = Some av -> aget k bms = None ->
  aget k (members_of (diff (OObj ams) (OObj bms))) = Some ONull.
Proof.
  intros ams bms k av N Ha Hb. rewrite diff_obj. simpl. rewrite diff_patch_lookup, Hb, Ha by auto. reflexivity.
Qed.
Print Assumptions C03_removed_is_null.

(* a fresh or re-typed member carries B's value unchanged *)
Theorem C03_value_verbatim : forall ams bms k bv,
  NoDup (map fst bms) -> aget k bms = Some bv -> aget k ams = None ->
  aget k (members_of (diff (OObj ams) (OObj bms))) = Some bv.
Proof.
  intros ams bms k bv N Hb Ha. rewrite diff_obj. simpl. rewrite diff_patch_lookup, Hb, Ha by auto. reflexivity.
Qed.
Print Assumptions C03_value_verbatim.

Example C03_nonvacuous :
  let a := OObj [(B "a", OObj [(B "x", ONum (B "1.0")); (B "y", ONum (B "2"))]); (B "k", OStr (B "s")); (B "n", ONum (B "1e400"))] in
  let b := OObj [(B "n", ONum (B "1e400")); (B "a", OObj [(B "x", ONum (B "1")); (B "w", OArr [ONum (B "12345678901234567890123")])])] in
  onodup a && onodup b && no_null_member b && is_obj a && is_obj b = true /\
  diff a b = OObj [(B "a", OObj [(B "x", ONum (B "1")); (B "w", OArr [ONum (B "12345678901234567890123")]); (B "y", ONull)]); (B "k", ONull)] /\
  jeq (merge_patch a (diff a b)) b = true.
Proof. vm_compute. repeat split; reflexivity. Qed.

(* ---- the model of CreateMergePatch (ImplMerge.api_create) itself ----
   tsb t: every string body of the tree is one the scanner accepts (Codec.v); tnodup t: no duplicate
   member names after decoding. *)

(* on two objects the model prints the sorted, HTML-escaped encoding of the reference difference *)
Theorem C03_model_is_diff : forall a b ams bms,
  parse a = Some (TObj ams) -> parse b = Some (TObj bms) ->
  api_create a b = MOut (print true (encode_sorted (diff (den (TObj ams)) (den (TObj bms))))).
Proof. exact api_create_obj. Qed.
Print Assumptions C03_model_is_diff.

(* that encoding decodes back to the value it encodes, members reordered *)
Theorem C03_encoding_roundtrip : forall j, onodup j = true -> outf8 j ->
  onodup (den (encode_sorted j)) = true /\ jeq (den (encode_sorted j)) j = true.
Proof. exact encode_sorted_den. Qed.
Print Assumptions C03_encoding_roundtrip.

Theorem C03_encoding_wellformed : forall j, outf8 j -> tsb (encode_sorted j).
Proof. exact encode_sorted_tsb. Qed.
Print Assumptions C03_encoding_wellformed.

Theorem C03_decoded_is_utf8 : forall t, tsb t -> outf8 (den t).
Proof. exact tsb_outf8. Qed.
Print Assumptions C03_decoded_is_utf8.

(* end to end on two objects: the output tree P is well formed, decodes to the reference difference,
   applying it to A per RFC 7396 gives B (when B has no null member), and it is {} exactly when
   A and B are equal *)
Theorem C03_model_correct : forall a b ams bms,
  parse a = Some (TObj ams) -> parse b = Some (TObj bms) ->
  tnodup (TObj ams) = true -> tnodup (TObj bms) = true -> tsb (TObj ams) -> tsb (TObj bms) ->
  exists p,
    api_create a b = MOut (print true p) /\
    p = encode_sorted (diff (den (TObj ams)) (den (TObj bms))) /\
    tsb p /\ tnodup p = true /\
    jeq (den p) (diff (den (TObj ams)) (den (TObj bms))) = true /\
    (no_null_member (den (TObj bms)) = true -> jeq (merge_patch (den (TObj ams)) (den p)) (den (TObj bms)) = true) /\
    (p = TObj [] <-> jeq (den (TObj ams)) (den (TObj bms)) = true).
Proof. exact api_create_correct. Qed.
Print Assumptions C03_model_correct.

(* two arrays of objects of equal length: element by element *)
Theorem C03_model_arrays : forall a b la lb,
  parse a = Some (TArr la) -> parse b = Some (TArr lb) -> length la = length lb ->
  Forall (fun x => is_obj (den x) = true /\ tnodup x = true /\ tsb x) la ->
  Forall (fun x => is_obj (den x) = true /\ tnodup x = true /\ tsb x) lb ->
  exists ps,
    api_create a b = MOut (print true (TArr ps)) /\
    Forall2 (fun p xy =>
               p = encode_sorted (diff (den (fst xy)) (den (snd xy))) /\
               tsb p /\ tnodup p = true /\
               (no_null_member (den (snd xy)) = true ->
                jeq (merge_patch (den (fst xy)) (den p)) (den (snd xy)) = true) /\
               (p = TObj [] <-> jeq (den (fst xy)) (den (snd xy)) = true))
            ps (combine la lb).
Proof. exact api_create_arr_correct. Qed.
Print Assumptions C03_model_arrays.

(* what the array case computes in general (create_elems: element-wise create_object, as far as both
   lists go; as_obj reads null as the empty object) *)
Theorem C03_model_arrays_exact : forall a b la lb,
  parse a = Some (TArr la) -> parse b = Some (TArr lb) ->
  api_create a b =
  if (length la =? length lb)%nat then
    match create_elems la lb with
    | Some ps => MOut (print true (TArr ps))
    | None => MErr MBadDoc
    end
  else MErr MBadDoc.
Proof. exact api_create_arr. Qed.
Print Assumptions C03_model_arrays_exact.

(* every member of the output tree (looked up by decoded name): a null for a member of A that B
   lacks, or the encoding of B's own value, or the output for two nested objects; and that member
   differs between A and B *)
Theorem C03_output_mentions : forall ams bms,
  tnodup (TObj ams) = true -> tnodup (TObj bms) = true -> tsb (TObj ams) -> tsb (TObj bms) ->
  forall pms k v,
  encode_sorted (diff (den (TObj ams)) (den (TObj bms))) = TObj pms -> tget k pms = Some v ->
  ~ lookup_rel (fun x y => jeq x y = true) (aget k (members_of (den (TObj ams)))) (aget k (members_of (den (TObj bms)))) /\
  (   (aget k (members_of (den (TObj bms))) = None /\ v = TNull /\ aget k (members_of (den (TObj ams))) <> None)
   \/ (exists bv, aget k (members_of (den (TObj bms))) = Some bv /\ v = encode_sorted bv)
   \/ (exists av bv, aget k (members_of (den (TObj ams))) = Some av /\ aget k (members_of (den (TObj bms))) = Some bv /\
                     is_obj av = true /\ is_obj bv = true /\ v = encode_sorted (diff av bv))).
Proof. exact create_output_mentions. Qed.
Print Assumptions C03_output_mentions.

Theorem C03_output_removed_is_null : forall ams bms,
  tnodup (TObj ams) = true -> tnodup (TObj bms) = true -> tsb (TObj ams) -> tsb (TObj bms) ->
  forall pms k,
  encode_sorted (diff (den (TObj ams)) (den (TObj bms))) = TObj pms ->
  aget k (members_of (den (TObj ams))) <> None -> aget k (members_of (den (TObj bms))) = None ->
  tget k pms = Some TNull.
Proof. exact create_output_removed. Qed.
Print Assumptions C03_output_removed_is_null.

(* number literals are carried over unchanged *)
Theorem C03_output_number_verbatim : forall ams bms,
  tnodup (TObj ams) = true -> tnodup (TObj bms) = true -> tsb (TObj ams) -> tsb (TObj bms) ->
  forall pms k lit,
  encode_sorted (diff (den (TObj ams)) (den (TObj bms))) = TObj pms ->
  aget k (members_of (den (TObj bms))) = Some (ONum lit) -> aget k (members_of (den (TObj ams))) <> Some (ONum lit) ->
  tget k pms = Some (TNum lit).
Proof. exact create_output_number_verbatim. Qed.
Print Assumptions C03_output_number_verbatim.

(* at any depth: every number literal in the output tree is a number literal of B *)
Theorem C03_output_numbers_from_B : forall a b lit,
  In lit (tnums (encode_sorted (diff a b))) -> In lit (onums b).
Proof. exact create_output_numbers. Qed.
Print Assumptions C03_output_numbers_from_B.

(* merge_patch respects structural equality of patches (used to transport the round trip) *)
Theorem C03_merge_respects_jeq : forall p p' d,
  onodup d = true -> onodup p = true -> onodup p' = true -> jeq p p' = true ->
  jeq (merge_patch d p) (merge_patch d p') = true.
Proof. exact merge_patch_jeq_patch. Qed.
Print Assumptions C03_merge_respects_jeq.

(* a null root is read as the empty object *)
Theorem C03_null_root_is_empty_object : forall a b ta tb oa ob,
  parse a = Some ta -> parse b = Some tb -> as_obj ta = Some oa -> as_obj tb = Some ob ->
  api_create a b = MOut (print true (encode_sorted (diff oa ob))).
Proof. exact api_create_objlike. Qed.
Print Assumptions C03_null_root_is_empty_object.

Theorem C03_rejects_unparsable : forall a b, parse a = None \/ parse b = None -> api_create a b = MErr MBadDoc.
Proof. exact api_create_unparsable. Qed.
Print Assumptions C03_rejects_unparsable.

Theorem C03_rejects_array_with_nonarray : forall a b ta tb,
  parse a = Some ta -> parse b = Some tb -> is_tarr ta <> is_tarr tb -> api_create a b = MErr MBadTypes.
Proof. exact api_create_mixed. Qed.
Print Assumptions C03_rejects_array_with_nonarray.

Theorem C03_rejects_nonobject : forall a b ta tb,
  parse a = Some ta -> parse b = Some tb -> is_tarr ta = false -> is_tarr tb = false ->
  as_obj ta = None \/ as_obj tb = None -> api_create a b = MErr MBadDoc.
Proof. exact api_create_nonobject. Qed.
Print Assumptions C03_rejects_nonobject.

Theorem C03_rejects_unequal_lengths : forall a b la lb,
  parse a = Some (TArr la) -> parse b = Some (TArr lb) -> length la <> length lb ->
  api_create a b = MErr MBadDoc.
Proof. exact api_create_arr_length. Qed.
Print Assumptions C03_rejects_unequal_lengths.

Theorem C03_rejects_nonobject_element : forall a b la lb i x y,
  parse a = Some (TArr la) -> parse b = Some (TArr lb) ->
  nth_error la i = Some x -> nth_error lb i = Some y -> as_obj x = None \/ as_obj y = None ->
  api_create a b = MErr MBadDoc.
Proof. exact api_create_arr_bad_elem. Qed.
Print Assumptions C03_rejects_nonobject_element.

Example C03_model_nonvacuous :
  let a := B "{""a"":{""x"":1.0,""y"":2},""k"":""s<"",""n"":1e400}" in
  let b := B "{""n"":1e400,""a"":{""x"":1,""w"":[12345678901234567890123]},""z"":""<>""}" in
  api_create a b = MOut (B "{""a"":{""w"":[12345678901234567890123],""x"":1,""y"":null},""k"":null,""z"":""\u003c\u003e""}") /\
  api_create (B "[{""a"":1},null]") (B "[{""a"":2},{""b"":null}]") = MOut (B "[{""a"":2},{""b"":null}]") /\
  api_create (B "[{""a"":1}]") (B "{}") = MErr MBadTypes /\
  api_create (B "3") (B "{}") = MErr MBadDoc /\
  api_create (B "[{},{}]") (B "[{}]") = MErr MBadDoc.
Proof. vm_compute. repeat split; reflexivity. Qed.

From JP Require StrInv.
(* ---- the main theorems applied: every hypothesis of C03_model_correct discharged on two object texts
   (escapes in a string, a number outside float range, a removed member, an unchanged nested object, an array
   that grows; the target has no null member), and C03_roundtrip / C03_empty_iff_equal on the values they
   denote.  tsb (the scanner accepts every string body) is a theorem for parsed texts (StrInv.parse_tsb). ---- *)
Definition C03_ex_a := B "{""a"":{""x"":1.0,""y"":2,""e"":{}},""k"":""s\n<"",""n"":1e400,""arr"":[1,{""q"":null}],""same"":{""z"":[1.0]}}".
Definition C03_ex_b := B "{""n"":1e400,""a"":{""x"":1,""w"":[12345678901234567890123],""e"":{}},""z"":""<>\/"",""arr"":[1,{""q"":3},2],""same"":{""z"":[1.0]}}".
Definition C03_ex_ams : list (bytes * tjson) := match parse C03_ex_a with Some (TObj ms) => ms | _ => [] end.
Definition C03_ex_bms : list (bytes * tjson) := match parse C03_ex_b with Some (TObj ms) => ms | _ => [] end.

Example C03_main_theorem_applies :
  (exists p, api_create C03_ex_a C03_ex_b = MOut (print true p) /\
             p = encode_sorted (diff (den (TObj C03_ex_ams)) (den (TObj C03_ex_bms))) /\
             tsb p /\ tnodup p = true /\
             jeq (merge_patch (den (TObj C03_ex_ams)) (den p)) (den (TObj C03_ex_bms)) = true /\
             p <> TObj []) /\
  jeq (merge_patch (den (TObj C03_ex_ams)) (diff (den (TObj C03_ex_ams)) (den (TObj C03_ex_bms)))) (den (TObj C03_ex_bms)) = true.
Proof.
  assert (Pa : parse C03_ex_a = Some (TObj C03_ex_ams)) by (vm_compute; reflexivity).
  assert (Pb : parse C03_ex_b = Some (TObj C03_ex_bms)) by (vm_compute; reflexivity).
  assert (Na : tnodup (TObj C03_ex_ams) = true) by (vm_compute; reflexivity).
  assert (Nb : tnodup (TObj C03_ex_bms) = true) by (vm_compute; reflexivity).
  assert (Nn : no_null_member (den (TObj C03_ex_bms)) = true) by (vm_compute; reflexivity).
  assert (Ne : jeq (den (TObj C03_ex_ams)) (den (TObj C03_ex_bms)) = false) by (vm_compute; reflexivity).
  split; [|exact (C03_roundtrip _ _ Na Nb Nn eq_refl eq_refl)].
  destruct (C03_model_correct _ _ _ _ Pa Pb Na Nb (StrInv.parse_tsb _ _ Pa) (StrInv.parse_tsb _ _ Pb))
    as [p [H1 [H2 [H3 [H4 [_ [H6 H7]]]]]]].
  exists p. repeat (split; [assumption|]). split; [exact (H6 Nn)|].
  intro E. apply H7 in E. rewrite Ne in E. discriminate E.
Qed.
Print Assumptions C03_main_theorem_applies.

(* ---- the Go algorithm itself (CreateImpl.v): matchesValue / matchesArray / getDiff modelled statement by
   statement over Go maps (an OObj whose names are distinct; iteration order = list order) ---- *)
From JP Require CreateImpl.

(* matchesValue is structural equality (Go ranges over its second argument: no hypothesis this way round) *)
Theorem C03_go_matchesValue_swap : forall b a, CreateImpl.matches_value_go a b = jeq b a.
Proof. exact CreateImpl.matches_value_go_swap. Qed.
Print Assumptions C03_go_matchesValue_swap.

Theorem C03_go_matchesValue : forall a b,
  onodup a = true -> onodup b = true -> CreateImpl.matches_value_go a b = jeq a b.
Proof. exact CreateImpl.matches_value_go_jeq. Qed.
Print Assumptions C03_go_matchesValue.

(* getDiff computes exactly the reference difference, member order included *)
Theorem C03_go_getDiff_is_diff : forall am bm,
  onodup (OObj am) = true -> onodup (OObj bm) = true ->
  CreateImpl.get_diff_go (OObj am) (OObj bm) = CreateImpl.GoMap (members_of (diff (OObj am) (OObj bm))).
Proof. exact CreateImpl.get_diff_go_diff. Qed.
Print Assumptions C03_go_getDiff_is_diff.

(* ... and for any iteration order of the Go maps, at any depth, the same value *)
Theorem C03_go_getDiff_any_order : forall a a' b b',
  MergeOrder.operm a a' -> MergeOrder.operm b b' -> onodup a = true -> onodup b = true ->
  is_obj a = true -> is_obj b = true ->
  exists ms, CreateImpl.get_diff_go a' b' = CreateImpl.GoMap ms /\ onodup (OObj ms) = true /\
             jeq (diff a b) (OObj ms) = true.
Proof. exact CreateImpl.get_diff_go_any_order. Qed.
Print Assumptions C03_go_getDiff_any_order.

(* the panic branches of getDiff (default: of the type switch, failed type assertions) are dead on decoded JSON *)
Theorem C03_go_getDiff_never_panics : forall am bm,
  CreateImpl.get_diff_go (OObj am) (OObj bm) <> CreateImpl.GoPanic.
Proof. exact CreateImpl.get_diff_go_no_panic. Qed.
Print Assumptions C03_go_getDiff_never_panics.

(* CreateMergePatch built from the Go-shaped functions is the model all theorems above are about *)
Theorem C03_go_model_is_model : forall a b,
  (forall ta, parse a = Some ta -> tnodup ta = true) ->
  (forall tb, parse b = Some tb -> tnodup tb = true) ->
  CreateImpl.api_create_go a b = Some (api_create a b).
Proof. exact CreateImpl.api_create_go_eq. Qed.
Print Assumptions C03_go_model_is_model.
