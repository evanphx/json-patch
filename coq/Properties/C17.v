(* C17 — the embedded codec is faithful and order-aware.
   Proved on the model of the codec's string layer (Strings.v: unquoteBytes, encodeState.string)
   over the escape tables re-translated from tables.go on every run: decode after encode is the
   identity on valid UTF-8; encode-decode of a decoded string gives the same string (strings keep
   their code points); HTML escaping changes spelling only; decoding yields valid UTF-8; the key
   list is the member names in document order.
   Compared only, not proved (stated as such, DESIGN section 6/11): agreement with the standard
   library's encoding/json on reflection-driven encoding/decoding (struct tags, omitempty,
   embedding, streams).  Compact and Indent through the scanner loop are proved
   (C17_compact_is_print, C17_indent_is_pp) and tied to indent.go (C17_go_compact_is_model,
   C17_go_indent_is_model). *)
From JP Require Import Bytes Json Text Strings Den ImplV5 Codec Scan ScanFacts.

Theorem C17_decode_encode_string : forall esc s, utf8 s -> unquote (quote esc s) = s.
Proof. exact unquote_quote. Qed.
Print Assumptions C17_decode_encode_string.

Theorem C17_strings_keep_code_points : forall esc b, sbody b -> unquote (quote esc (unquote b)) = unquote b.
Proof. exact unquote_quote_unquote. Qed.
Print Assumptions C17_strings_keep_code_points.

Theorem C17_escape_switch_changes_nothing_else : forall b, sbody b ->
  unquote (quote true (unquote b)) = unquote (quote false (unquote b)).
Proof. exact escape_switch_same_value. Qed.
Print Assumptions C17_escape_switch_changes_nothing_else.

Theorem C17_htmlescape_keeps_value : forall t, tsb t -> den (escape_tree true t) = den t.
Proof. exact escape_tree_den. Qed.
Print Assumptions C17_htmlescape_keeps_value.

Theorem C17_decoded_strings_are_utf8 : forall b, sbody b -> utf8 (unquote b).
Proof. exact sbody_unquote_utf8. Qed.
Print Assumptions C17_decoded_strings_are_utf8.

Theorem C17_keys_in_document_order : forall ms, fst (doc_of ms) = map (fun kv => unquote (fst kv)) ms.
Proof. exact keys_in_document_order. Qed.
Print Assumptions C17_keys_in_document_order.

(* numbers keep their literal: the value of a number is its literal text, untouched by den *)
Theorem C17_numbers_keep_literal : forall lit, den (TNum lit) = ONum lit.
Proof. reflexivity. Qed.
Print Assumptions C17_numbers_keep_literal.

(* every code point survives: encoding any scalar value below U+110000 that is not a surrogate
   gives valid UTF-8 *)
Theorem C17_encode_rune_valid : forall v rest,
  (v < 1114112)%N -> is_surrogate v = false -> utf8 rest -> utf8 (encode_rune v ++ rest).
Proof. exact encode_rune_utf8. Qed.
Print Assumptions C17_encode_rune_valid.

(* Compact (with either escape setting) of the loop model over the scanner translated from
   scanner.go is the compact print of the text's parse tree — it changes only insignificant white
   space and, with escaping, the spelling of < > & U+2028 U+2029 — and fails exactly on ill-formed
   text; both escape settings print the same tree *)
Theorem C17_compact_is_print : forall esc bs,
  compact_go esc bs = match parse bs with Some t => Some (print esc t) | None => None end.
Proof. exact compact_go_spec. Qed.
Print Assumptions C17_compact_is_print.

(* Indent of a well-formed text is the indented print of its parse tree followed by the white space
   that followed the value (Go's Indent keeps trailing white space: see indent_keeps_trailing_space) *)
Theorem C17_indent_is_pp : forall ind bs t, parse bs = Some t ->
  exists rest, suffix rest bs /\ skip_ws rest = [] /\ indent_go ind bs = Some (pp false ind 0 t ++ rest).
Proof. exact indent_go_parse. Qed.
Print Assumptions C17_indent_is_pp.

Theorem C17_indent_is_pp_exact : forall ind bs t, parse bs = Some t -> ends_ws bs = false ->
  indent_go ind bs = Some (pp false ind 0 t).
Proof. exact indent_go_pp_exact. Qed.
Print Assumptions C17_indent_is_pp_exact.

Theorem C17_indent_rejects_illformed : forall ind bs, parse bs = None -> indent_go ind bs = None.
Proof. exact indent_go_none. Qed.
Print Assumptions C17_indent_rejects_illformed.

(* ---- wiring of OutputFacts.v / PrintParse.v: what Compact / Indent write is a JSON text with the value of
   the input, and decoding then encoding a well-formed text reproduces its tree / value ---- *)
From JP Require Import PrintParse OutputFacts.

Theorem C17_compact_output_value : forall esc bs out, compact_go esc bs = Some out ->
  exists t, parse bs = Some t /\ parse out = Some (escape_tree esc t) /\ den (escape_tree esc t) = den t /\
            valid_gen out = true.
Proof. exact compact_output_value. Qed.
Print Assumptions C17_compact_output_value.

Theorem C17_indent_output_value : forall ind bs out, wsb ind = true -> indent_go ind bs = Some out ->
  exists t, parse bs = Some t /\ parse out = Some t /\ valid_gen out = true.
Proof. exact indent_output_value. Qed.
Print Assumptions C17_indent_output_value.

(* decode then encode then decode: the same tree (no escaping) / the same value (HTML escaping) *)
Theorem C17_decode_encode_decode : forall bs t, parse bs = Some t -> parse (print false t) = Some t.
Proof. exact parse_print_parse. Qed.
Print Assumptions C17_decode_encode_decode.

Theorem C17_decode_encode_decode_esc : forall bs t, parse bs = Some t ->
  exists t', parse (print true t) = Some t' /\ den t' = den t.
Proof. exact parse_print_parse_esc. Qed.
Print Assumptions C17_decode_encode_decode_esc.

(* a body with a two-byte character, a four-byte character, a lone surrogate escape, an escape
   and an HTML character *)
Example C17_nonvacuous :
  let b := [x61; xc3; xa9; xf0; x9f; x98; x80; x5c; x75; x64; x38; x30; x30; x78; x5c; x6e; x3c] in
  unquote b = [x61; xc3; xa9; xf0; x9f; x98; x80; xef; xbf; xbd; x78; x0a; x3c] /\
  quote false (unquote b) = [x61; xc3; xa9; xf0; x9f; x98; x80; xef; xbf; xbd; x78; x5c; x6e; x3c] /\
  quote true (unquote b) = [x61; xc3; xa9; xf0; x9f; x98; x80; xef; xbf; xbd; x78; x5c; x6e; x5c; x75; x30; x30; x33; x63] /\
  unquote (quote true (unquote b)) = unquote b.
Proof. vm_compute. repeat split; reflexivity. Qed.

(* ---- the fork's string encoder, re-translated from encode.go on every run, is the model's quote
   (QuoteTie.v; see Properties/C15.v) ---- *)
From JP Require QuoteTie.
From JP.gen Require QuoteGen.
Theorem C17_go_string_encoder_is_quote : forall esc s,
  QuoteGen.quote_full_gen esc s = [x22] ++ quote esc s ++ [x22].
Proof. exact QuoteTie.quote_full_gen_is_quote. Qed.
Print Assumptions C17_go_string_encoder_is_quote.

(* ---- Compact and Indent themselves: compact / newline / Indent of v5/internal/json/indent.go RE-TRANSLATED on
   every run (tools/goindent2v -> gen/IndentGen.v: the range loops as structural recursion over the bytes, a
   range guard on every index and slice expression, the scanner calls as the translated step_fn of
   gen/ScannerGen.v) and proved equal to the model's compact_go / indent_go for EVERY byte string, every
   buffer content and every pooled scanner; the guards never fail (IndentTie.v).  With C17_compact_is_print /
   C17_indent_is_pp above (what compact_go / indent_go compute) this ties the statements to the source. ---- *)
From JP Require Scan IndentTie.
From JP.gen Require IndentGen.

Theorem C17_go_compact_is_model : forall esc bs, IndentGen.compact_gen esc bs = Scan.compact_go esc bs.
Proof. exact IndentTie.compact_gen_is_model. Qed.
Print Assumptions C17_go_compact_is_model.

Theorem C17_go_indent_is_model : forall indent bs, IndentGen.indent_gen [] indent bs = Scan.indent_go indent bs.
Proof. exact IndentTie.indent_gen_is_model. Qed.
Print Assumptions C17_go_indent_is_model.

Theorem C17_go_compact_appends : forall pooled esc src out0,
  IndentGen.compact_run pooled src esc out0 =
  match Scan.compact_go esc src with Some o => IndentGen.ROk (out0 ++ o) | None => IndentGen.RErr out0 end.
Proof. exact IndentTie.compact_run_is_model. Qed.
Print Assumptions C17_go_compact_appends.

Theorem C17_go_indent_appends : forall pooled ind src out0,
  IndentGen.indent_run pooled src [] ind out0 =
  match Scan.indent_go ind src with Some o => IndentGen.ROk (out0 ++ o) | None => IndentGen.RErr out0 end.
Proof. exact IndentTie.indent_run_is_model. Qed.
Print Assumptions C17_go_indent_appends.

(* ---- the string decoder itself: unquoteBytes and getu4 of v5/internal/json/decode.go RE-TRANSLATED on every run
   (tools/gounquote2v -> gen/UnquoteGen.v: the output buffer as a byte list of the allocated length with the write
   index, a range guard on every index, slice and EncodeRune write, bytes with uint8 wrap-around) and proved
   (UnquoteTie.v): on every body the scanner accepts it returns the model's unquote; on EVERY byte string it
   neither indexes out of range nor runs out of fuel.  utf8.DecodeRune / EncodeRune and the utf16 functions
   are modelled (Utf8Rune.v, Utf16Rune.v). ---- *)
From JP Require UnquoteTie.
From JP.gen Require UnquoteGen.

Theorem C17_go_string_decoder_is_unquote : forall body, sbody body ->
  UnquoteGen.unquote_full_gen ([x22] ++ body ++ [x22]) = UnquoteGen.UOk (unquote body).
Proof. exact UnquoteTie.unquote_full_gen_is_unquote. Qed.
Print Assumptions C17_go_string_decoder_is_unquote.

Theorem C17_go_string_decoder_never_panics : forall s,
  UnquoteGen.unquote_full_gen s <> UnquoteGen.UPanic /\ UnquoteGen.unquote_full_gen s <> UnquoteGen.UFuel.
Proof. exact UnquoteTie.unquote_full_gen_no_panic. Qed.
Print Assumptions C17_go_string_decoder_never_panics.
