(* C08 — a failing Apply returns nothing and says why (v5). *)
From JP Require Import Bytes Json Text Strings Den Pointer Rfc6902 ImplV5 Domain ApplyFacts ImplFacts Depth ApplySim.
From JP Require Import Abs RefFacts AllowEnsureFacts CauseFacts.
From JP Require EnsureSim.

(* operations after the first failing one have no effect on the outcome: the result is the first
   failing operation's error, at its index, whatever follows *)
Theorem C08_first_failure : forall o p1 op p2 st st' e,
  apply_from o 0 st p1 = AOk st' -> step o st' op = Err e ->
  apply_from o 0 st (p1 ++ op :: p2) = AErr (length p1) e.
Proof. intros. now apply (first_failure o p1 op p2 st st' e 0). Qed.
Print Assumptions C08_first_failure.

(* a failing patch returns no document: the byte-level result of the model is an error value that
   carries no bytes, at the index of the first failing operation *)
Theorem C08_error_no_document : forall o indent p1 op p2 doc r st' e,
  load_doc o doc = Ok r -> apply_from o 0 (mkState r 0) p1 = AOk st' -> step o st' op = Err e ->
  apply_tree o indent (p1 ++ op :: p2) doc = RErr (Some (length p1)) e.
Proof.
  intros o indent p1 op p2 doc r st' e L A S. unfold apply_tree. rewrite L.
  now rewrite (C08_first_failure o p1 op p2 _ st' e A S).
Qed.
Print Assumptions C08_error_no_document.

(* errors.Is(err, ErrTestFailed) only when the first failing operation is a test *)
Theorem C08_test_failed_only_by_test : forall o st op,
  step o st op = Err ETestFailed -> op_kind op = KTest.
Proof. exact test_failed_only_by_test. Qed.
Print Assumptions C08_test_failed_only_by_test.

(* *AccumulatedCopySizeError only when it is a copy that pushed the total over a positive limit *)
Theorem C08_copy_limit_only_by_copy : forall o st op l a,
  step o st op = Err (ECopyLimit l a) ->
  op_kind op = KCopy /\ (0 < o_limit o)%Z /\ l = o_limit o /\ (o_limit o < a)%Z.
Proof. exact step_copy_limit. Qed.
Print Assumptions C08_copy_limit_only_by_copy.

(* the cause, against the reference: in the stated domain Apply fails at the reference's first
   failing operation, and the error class corresponds to the reference's cause of failure.
   copies_fit: no copy the reference run reaches has a source nested deeper than deepCopy accepts
   (otherwise the patch fails at that copy, with deepCopy's error: C01_copy_too_deep_rejects_patch) *)
Theorem C08_cause : forall o indent p doc t i cz,
  plain_opts o -> parse doc = Some t -> root_container t = true -> tnodup t = true ->
  Forall op_dom p -> copies_fit (dia o) (den t) (map den_op p) = true ->
  rfc_apply (dia o) (den t) (map den_op p) = Failed i cz ->
  exists e, api_apply o indent p doc = RErr (Some i) e /\
    (e = ETestFailed <-> cz = FTest) /\
    (cz = FMissingMember \/ cz = FUnreachable -> e = EMissing) /\
    is_copy_limit e = false.
Proof.
  intros o indent p doc t i cz PO P RC T D F R.
  pose proof (api_apply_sim o indent p doc t PO P RC T D F) as S. rewrite R in S.
  destruct S as [e [S1 S2]]. exists e. split; [exact S1 | exact (cause_rel_classes cz e S2)].
Qed.
Print Assumptions C08_cause.

(* a patch whose operations all succeed never returns an error from the loop.
   The lemma ApplyFacts.all_succeed asks every operation to succeed on EVERY state: a hypothesis the
   state with the null root refutes for every operation with a non-empty path, so it holds of almost
   no patch.  The clause is therefore stated three times with hypotheses a patch can satisfy:
   - C08_all_succeed below: the operations succeed on the states THE RUN REACHES (model alone, every
     option setting, no domain);
   - C08_done_limit further down: in the domain of the simulation the reference (Rfc6902.rfc_apply)
     running the patch to the end means Apply returns a document, or the copy-size limit error;
   - C08_done_no_error after it: with no positive copy-size limit, a document. *)
Theorem C08_all_succeed : forall o p i st,
  (forall p1 op p2 st1, p = p1 ++ op :: p2 -> apply_from o i st p1 = AOk st1 -> exists st2, step o st1 op = Ok st2) ->
  exists st', apply_from o i st p = AOk st'.
Proof.
  intros o p. induction p as [|q p IH]; intros i st H; [cbn [apply_from]; eauto|].
  destruct (H [] q p st eq_refl eq_refl) as [st2 E]. cbn [apply_from]. rewrite E. apply IH.
  intros p1 op p2 st1 Hp A. apply (H (q :: p1) op p2 st1); [rewrite Hp; reflexivity|].
  cbn [apply_from]. rewrite E. exact A.
Qed.
Print Assumptions C08_all_succeed.

(* ==== the cause/class statements WITH the options (CauseFacts.v) ==== *)

(* the limit error, on the model alone, every option setting, no domain: Apply returns it exactly when
   the first failing operation is a copy that reaches deepCopy (copy_probe) with a size that pushes
   the running total over a positive limit (copy_over); it carries that limit and that total *)
Theorem C08_limit_error_iff : forall o p i st k l a,
  apply_from o i st p = AErr k (ECopyLimit l a) <->
  exists p1 op p2 st1, p = p1 ++ op :: p2 /\ k = (i + length p1)%nat /\ apply_from o i st p1 = AOk st1 /\
                       copy_over o st1 op = Some a /\ l = o_limit o.
Proof.
  intros o p i st k l a.
  split.
  - intro H. apply apply_err_split in H as [p1 [op [p2 [st1 [H1 [H2 [H3 H4]]]]]]].
    apply step_limit_iff in H4. exists p1, op, p2, st1. tauto.
  - intros [p1 [op [p2 [st1 [-> [-> [H3 [H4 ->]]]]]]]]. eapply first_failure; eauto.
    apply step_limit_iff. auto.
Qed.
Print Assumptions C08_limit_error_iff.

(* the limit is consulted at one point only: an operation under limit l is the limit error when
   copy_over says so, and otherwise exactly the operation under limit 0; a successful copy adds
   deepCopy's size to the running total, every other operation leaves it *)
Theorem C08_step_split : forall o st op,
  step o st op =
  match copy_over o st op with
  | Some total => Err (ECopyLimit (o_limit o) total)
  | None => step (set_limit o 0) st op
  end.
Proof. exact step_split. Qed.
Print Assumptions C08_step_split.

Theorem C08_step_acc : forall o st op st',
  step o st op = Ok st' ->
  match op_kind op with
  | KCopy => exists sz, copy_probe o st op = Some sz /\ s_acc st' = (s_acc st + sz)%Z
  | _ => s_acc st' = s_acc st
  end.
Proof.
  intros o st op st'.
  intro H. destruct (op_kind op) eqn:K; try (apply (step_acc_noncopy o st op st'); [congruence | exact H]).
  unfold step in H. rewrite K in H. apply op_copy_acc; exact H.
Qed.
Print Assumptions C08_step_acc.

(* when a copy of the stated domain trips the limit, against the reference: exactly when the
   reference resolves the source and reaches the destination parent (copy_reaches), and the running
   total plus deepCopy's size of a node denoting the source value exceeds a positive limit (over) *)
Theorem C08_copy_over_ref : forall o st op,
  sgood st -> op_dom op -> op_kind op = KCopy -> copy_fits (dia o) (sval st) (den_op op) = true ->
  match copy_reaches (dia o) (sval st) op with
  | Some j => exists v, aval v = j /\ ngood v /\ copy_probe o st op = Some (snd (deep_copy o v)) /\
                copy_over o st op = if over o st (snd (deep_copy o v))
                                    then Some (s_acc st + snd (deep_copy o v))%Z else None
  | None => copy_over o st op = None
  end.
Proof. exact copy_over_ref. Qed.
Print Assumptions C08_copy_over_ref.

(* one operation under any copy-size limit (the two other options off): the limit error at a copy
   the reference performs or rejects for its destination index only; otherwise as the reference *)
Theorem C08_step_limit : forall o st op,
  sgood st -> lim_opts o -> op_dom op ->
  copy_fits (dia o) (sval st) (den_op op) = true ->
  match copy_over o st op with
  | Some total =>
      step o st op = Err (ECopyLimit (o_limit o) total) /\ op_kind op = KCopy /\
      (0 < o_limit o)%Z /\ (o_limit o < total)%Z /\
      (exists j v, copy_reaches (dia o) (sval st) op = Some j /\ aval v = j /\ ngood v /\
                   total = (s_acc st + snd (deep_copy o v))%Z) /\
      ((exists j', rfc_step (dia o) (sval st) (den_op op) = Rfc6902.Ok j') \/
       rfc_step (dia o) (sval st) (den_op op) = Rfc6902.Fail FIndex)
  | None =>
      match rfc_step (dia o) (sval st) (den_op op) with
      | Rfc6902.Ok j' => exists st', step o st op = Ok st' /\ sval st' = j' /\ sgood st'
      | Rfc6902.Fail cz => exists e, step o st op = Err e /\ cause_rel cz e
      end
  end.
Proof.
  intros o st op G [Al En] D F. rewrite step_split. destruct (copy_over o st op) as [total|] eqn:E.
  - split; [reflexivity|]. destruct (copy_over_inv o st op total E) as [K [sz [P [-> [L1 L2]]]]].
    split; [exact K|]. split; [exact L1|]. split; [exact L2|].
    pose proof (copy_over_ref o st op G D K F) as R.
    destruct (copy_reaches (dia o) (sval st) op) as [j|] eqn:CR; [|congruence].
    destruct R as [v [R1 [R2 [R3 _]]]]. split.
    + exists j, v. split; auto. split; auto. split; auto. congruence.
    + eapply copy_reaches_step; eauto.
  - pose proof (step_skip_sim (set_limit o 0) st op G (fun _ => En) eq_refl D F) as S.
    change (o_allow (set_limit o 0)) with (o_allow o) in S. rewrite Al in S. exact S.
Qed.
Print Assumptions C08_step_limit.

(* whole patches under any limit: the model run agrees with the reference run, or is stopped by the
   limit at a copy before which every operation agreed with the reference (limit_stop) *)
Theorem C08_apply_limit : forall o, lim_opts o -> forall p i st,
  sgood st -> Forall op_dom p ->
  copies_fit (dia o) (sval st) (map den_op p) = true ->
  match rfc_apply_from (dia o) i (sval st) (map den_op p) with
  | Done doc => (exists st', apply_from o i st p = AOk st' /\ sval st' = doc /\ sgood st') \/ limit_stop o i st p
  | Failed j cz => (exists e, apply_from o i st p = AErr j e /\ cause_rel cz e) \/ limit_stop o i st p
  end.
Proof. exact apply_sim_limit. Qed.
Print Assumptions C08_apply_limit.

(* C08_cause with any copy-size limit: the reference fails at operation k with cause cz; Apply fails
   there with the corresponding class, or was stopped by the limit at a copy at or before k (at k
   only when the reference rejects that copy for its destination index) *)
Theorem C08_cause_limit : forall o indent p doc t,
  lim_opts o -> parse doc = Some t -> root_container t = true -> tnodup t = true ->
  Forall op_dom p -> copies_fit (dia o) (den t) (map den_op p) = true ->
  forall k cz, rfc_apply (dia o) (den t) (map den_op p) = Failed k cz ->
  (exists e, api_apply o indent p doc = RErr (Some k) e /\ cause_rel cz e /\
             (e = ETestFailed <-> cz = FTest) /\
             (cz = FMissingMember \/ cz = FUnreachable -> e = EMissing) /\
             is_copy_limit e = false) \/
  (exists k' total op, (k' <= k)%nat /\ (k' = k -> cz = FIndex) /\
             (0 < o_limit o)%Z /\ (o_limit o < total)%Z /\
             nth_error p k' = Some op /\ op_kind op = KCopy /\
             api_apply o indent p doc = RErr (Some k') (ECopyLimit (o_limit o) total)).
Proof.
  intros o indent p doc t LO P RC T D F k cz R.
  pose proof (api_verdict_limit o indent p doc t LO P RC T D F) as V. rewrite R in V.
  destruct (apply_from o 0 (init_state o t) p) as [st'|k0 e|k0]; [destruct V as [n [_ [V _]]]; discriminate V | | destruct V].
  destruct V as [H V]. destruct (is_copy_limit e).
  - right. destruct V as [_ [total [op [-> [Z1 [Z2 [N [K Q]]]]]]]]. destruct (Q k cz eq_refl) as [Q1 Q2].
    exists k0, total, op. auto 10.
  - left. destruct V as [cz0 [[= <- <-] C]]. exists e. split; [exact H|]. split; [exact C | exact (cause_rel_classes cz e C)].
Qed.
Print Assumptions C08_cause_limit.

(* a patch the reference runs to the end returns no error except the limit error *)
Theorem C08_done_limit : forall o indent p doc t,
  lim_opts o -> parse doc = Some t -> root_container t = true -> tnodup t = true ->
  Forall op_dom p -> copies_fit (dia o) (den t) (map den_op p) = true ->
  forall j, rfc_apply (dia o) (den t) (map den_op p) = Done j ->
  (exists n, api_apply o indent p doc = ROut (output o indent (render (o_esc o) n)) /\ aval n = j /\ ngood n) \/
  (exists k' total op, (0 < o_limit o)%Z /\ (o_limit o < total)%Z /\
             nth_error p k' = Some op /\ op_kind op = KCopy /\
             api_apply o indent p doc = RErr (Some k') (ECopyLimit (o_limit o) total)).
Proof.
  intros o indent p doc t LO P RC T D F j R.
  pose proof (api_verdict_limit o indent p doc t LO P RC T D F) as V. rewrite R in V.
  destruct (apply_from o 0 (init_state o t) p) as [st'|k0 e|k0]; [| | destruct V].
  - left. destruct V as [n [H [[= ->] N]]]. eauto.
  - right. destruct V as [H V]. destruct (is_copy_limit e); [|destruct V as [cz [V _]]; discriminate V].
    destruct V as [_ [total [op [-> [Z1 [Z2 [N [K _]]]]]]]]. exists k0, total, op. auto 10.
Qed.
Print Assumptions C08_done_limit.

(* hence, with no positive copy-size limit: a patch the reference runs to the end (every operation
   succeeds on the document the preceding ones produced) returns a document and no error *)
Theorem C08_done_no_error : forall o indent p doc t,
  lim_opts o -> (o_limit o <= 0)%Z -> parse doc = Some t -> root_container t = true -> tnodup t = true ->
  Forall op_dom p -> copies_fit (dia o) (den t) (map den_op p) = true ->
  forall j, rfc_apply (dia o) (den t) (map den_op p) = Done j ->
  exists n, api_apply o indent p doc = ROut (output o indent (render (o_esc o) n)) /\ aval n = j /\ ngood n.
Proof.
  intros o indent p doc t LO L P RC T D F j R.
  destruct (C08_done_limit o indent p doc t LO P RC T D F j R) as [H | [k' [total [op [H _]]]]]; [exact H|].
  exfalso. apply (Z.lt_irrefl 0). apply (Z.lt_le_trans _ _ _ H L).
Qed.
Print Assumptions C08_done_no_error.

(* the three classes, read off the error of a failing Apply (any limit):
   (a) ErrTestFailed exactly when the first failing operation is a test and the reference fails
       there because the comparison came out unequal;
   (b) the limit error exactly when the patch was stopped by the limit (limit_stop);
   (c) the reference fails at that operation for an absent member or an unreachable parent:
       ErrMissing *)
Theorem C08_error_classes_limit : forall o indent p doc t,
  lim_opts o -> parse doc = Some t -> root_container t = true -> tnodup t = true ->
  Forall op_dom p -> copies_fit (dia o) (den t) (map den_op p) = true ->
  forall k e, api_apply o indent p doc = RErr (Some k) e ->
  (e = ETestFailed <->
     (exists op, nth_error p k = Some op /\ op_kind op = KTest) /\
     rfc_apply (dia o) (den t) (map den_op p) = Failed k FTest) /\
  (is_copy_limit e = true <-> limit_stop o 0 (init_state o t) p) /\
  (forall cz, rfc_apply (dia o) (den t) (map den_op p) = Failed k cz ->
              cz = FMissingMember \/ cz = FUnreachable -> e = EMissing).
Proof.
  intros o indent p doc t LO P RC T D F k e H.
  pose proof (api_verdict_limit o indent p doc t LO P RC T D F) as V.
  apply (api_err o indent p doc t k e P RC T) in H. rewrite H in V. destruct V as [_ V].
  destruct (is_copy_limit e) eqn:L.
  - destruct V as [LS [total [op [_ [_ [_ [_ [_ Q]]]]]]]].
    (* stopped at k: if the reference fails there, then for the copy's destination index *)
    assert (N : forall cz, rfc_apply (dia o) (den t) (map den_op p) = Failed k cz -> cz = FIndex)
      by (intros cz R; exact (proj2 (Q k cz R) eq_refl)).
    split; [|split]; [|tauto|].
    + split; [intros ->; discriminate L | intros [_ R]; discriminate (N _ R)].
    + intros cz R [-> | ->]; discriminate (N _ R).
  - destruct V as [cz [R C]]. rewrite R. split; [|split].
    + rewrite (cause_rel_test_iff cz e C). split; [|intros [_ [= <-]]; reflexivity].
      intros ->. split; [|reflexivity]. cbn [cause_rel] in C. subst e.
      destruct (apply_test_failed_kind o p 0%nat _ k H) as [op Q]. rewrite Nat.sub_0_r in Q. eauto.
    + split; [discriminate|]. intros [k' [total [_ [_ L6]]]]%limit_stop_err. rewrite L6 in H. injection H as <- <-. discriminate L.
    + intros cz0 [= <-] M. exact (cause_rel_missing cz e C M).
Qed.
Print Assumptions C08_error_classes_limit.

(* AllowMissingPathOnRemove on (limit 0): the causes are those of the patch without the skipped
   removes: its reference run fails at the same operation, and the classes correspond *)
Theorem C08_allow_classes : forall o p i st k1 e,
  allow_opts o -> sgood st -> Forall op_dom p ->
  copies_fit (dia o) (sval st) (map den_op (strip (dia o) (sval st) p)) = true ->
  apply_from o i st p = AErr k1 e ->
  exists k cz,
    rfc_apply_from (dia o) i (sval st) (map den_op (strip (dia o) (sval st) p)) = Failed k cz /\
    cause_rel cz e /\
    nth_error p (k1 - i) = nth_error (strip (dia o) (sval st) p) (k - i) /\
    (e = ETestFailed <-> cz = FTest) /\
    (cz = FMissingMember \/ cz = FUnreachable -> e = EMissing) /\
    is_copy_limit e = false.
Proof.
  intros o p i st k1 e.
  intros AO G D F H. pose proof (allow_strip_ref o AO p i i st G D F) as A.
  destruct (rfc_apply_from (dia o) i (sval st) (map den_op (strip (dia o) (sval st) p))) as [doc|k cz].
  - destruct A as [st' [A1 _]]. congruence.
  - destruct A as [k1' [e' [A1 [A2 [A3 [A4 A5]]]]]]. rewrite A1 in H. inversion H; subst.
    exists k, cz. split; [reflexivity|]. split; [exact A2|]. split; [exact A5 | exact (cause_rel_classes cz e A2)].
Qed.
Print Assumptions C08_allow_classes.

(* EnsurePathExistsOnAdd off, AllowMissingPathOnRemove on or off, any limit, on bytes: the classes
   against the reference run of the patch without the removes the option forgives (stripb; the
   patch itself when the option is off: stripb_false) *)
Theorem C08_classes_ensure_off : forall o indent p doc t k1 e,
  o_ensure o = false -> parse doc = Some t -> root_container t = true -> tnodup t = true ->
  Forall op_dom p ->
  copies_fit (dia o) (den t) (map den_op (stripb (o_allow o) (dia o) (den t) p)) = true ->
  api_apply o indent p doc = RErr (Some k1) e ->
  let p' := stripb (o_allow o) (dia o) (den t) p in
  let ref := rfc_apply (dia o) (den t) (map den_op p') in
  (e = ETestFailed <-> exists k, ref = Failed k FTest /\ nth_error p k1 = nth_error p' k) /\
  (is_copy_limit e = true <-> limit_stop_s o 0 0 (init_state o t) p) /\
  (forall k cz, ref = Failed k cz -> cz = FMissingMember \/ cz = FUnreachable ->
     (e = EMissing /\ nth_error p k1 = nth_error p' k) \/ is_copy_limit e = true) /\
  ((exists k cz, ref = Failed k cz /\ cause_rel cz e /\ nth_error p k1 = nth_error p' k) \/
   is_copy_limit e = true).
Proof.
  intros o indent p doc t k1 e En P RC T D F H. destruct (api_start o doc t P RC T) as [c [_ [_ [G SV]]]].
  apply (api_err o indent p doc t k1 e P RC T) in H. unfold rfc_apply. rewrite <- SV in *.
  pose proof (EnsureSim.verdict_noensure o p _ k1 e En G D F H) as V. cbv zeta.
  destruct (is_copy_limit e) eqn:L.
  - destruct V as [LS [op [N K]]]. split; [|split; [|split]]; auto; [|tauto].
    split; [intros ->; discriminate L|]. intros [k [R E]]. exfalso.
    (* the reference fails with FTest at a test operation only; the patch was stopped at a copy *)
    destruct (rr_failed_nth (plain_run (dia o)) _ _ _ _ _ R) as [_ [op' [doc' [Q1 Q2]]]].
    rewrite Nat.sub_0_r, <- E, N in Q1. injection Q1 as <-.
    apply rfc_step_ftest in Q2. unfold den_op in Q2. cbn [rkind] in Q2. rewrite K in Q2. discriminate.
  - destruct V as [k [cz [R [C N]]]]. rewrite R. split; [|split; [|split]].
    + rewrite (cause_rel_test_iff cz e C). split; [intros ->; eauto | intros [k0 [[= <- <-] _]]; reflexivity].
    + split; [discriminate|]. intros [p1 [op [p2 [st1 [total [_ [_ [_ [_ [_ [L6 _]]]]]]]]]]]. rewrite L6 in H. injection H as <- <-. discriminate L.
    + intros k0 cz0 [= <- <-] M. left. split; [exact (cause_rel_missing cz e C M) | exact N].
    + left. eauto.
Qed.
Print Assumptions C08_classes_ensure_off.

(* EnsurePathExistsOnAdd on.  Where the missing parents can be created (ens succeeds) the add is the
   reference's add on the document with the parents created, and its error class is that add's *)
Theorem C08_ensure_add_classes : forall o st op r c j1 cz,
  s_root st = RCon c -> cgood c -> o_ensure o = true ->
  op_str op (B "path") = Ok (x2f :: r) -> Forall ctok (map decode_token (split_slash r)) -> val_good op ->
  ens (dia o) (ptoks r) (cval c) = Some j1 ->
  at_parent (dia o) (ptoks r) j1 (add_leaf (dia o) (ref_value op)) = Rfc6902.Fail cz ->
  exists e, op_add o st op = Err e /\ cause_rel cz e /\ plain_err e = true.
Proof.
  intros o st op r c j1 cz.
  intros Hr G En Hp D Vg H R. pose proof (ensure_add_sim o st op r c j1 Hr G En Hp D Vg H) as S.
  rewrite R in S. destruct S as [e [S1 S2]]. exists e. split; [exact S1|]. split; [exact S2|].
  eapply op_add_nocl; eauto.
Qed.
Print Assumptions C08_ensure_add_classes.

(* an add whose path passes, before its last token, through an existing member that is neither a
   container nor null (the reference: FUnreachable): ErrMissing with the option, as without it.
   (Before fix 584e880 of the library this returned ErrInvalid: the ErrMissing clause was false under
   EnsurePathExistsOnAdd.) *)
Theorem C08_ensure_through_scalar : forall o st op r c ps t rest x,
  s_root st = RCon c -> cgood c -> o_ensure o = true ->
  op_str op (B "path") = Ok (x2f :: r) -> Forall tok_dom (map decode_token (split_slash r)) ->
  ptoks r = ps ++ t :: rest -> rest <> [] ->
  descend (dia o) (ps ++ [t]) (cval c) = Some x -> is_container x = false -> x <> ONull ->
  op_add o st op = Err EMissing /\
  at_parent (dia o) (ptoks r) (cval c) (add_leaf (dia o) (ref_value op)) = Rfc6902.Fail FUnreachable.
Proof.
  intros o st op r c ps t rest x.
  intros Hr G En Hp D E NE Hd Cx NN.
  pose proof (through_scalar_parent (dia o) r ps t rest x (cval c) E NE Hd Cx) as DR.
  split.
  - rewrite ptoks_eq in E.
    destruct (ensure_scalar o (split_slash r) c ps t rest x G D E NE Hd Cx NN) as [c1 [E1 [E2 E3]]].
    rewrite (op_add_eq o st op _ _ c Hp Hr), En, ensure_path_slash, E1.
    match goal with |- context [find o c1 (x2f :: r) ?f] => pose proof (find_spec o c1 r f E3 D) as FS end.
    rewrite E2 in FS. unfold dest_reachable in DR.
    destruct (descend (dia o) (map decode_token (path_parts r)) (cval c)) as [p|]; [rewrite DR in FS|];
      destruct FS as [c' [F1 _]]; rewrite F1; reflexivity.
  - apply dest_unreachable_ref; [|exact DR].
    intros p t0 Cp. apply (proj1 (leaf_noncontainer (dia o) p t0 Cp)).
Qed.
Print Assumptions C08_ensure_through_scalar.

(* with the option on, ensurePathExists never fails on a path of the C14 domain and leaves a good
   document c1 (the one ens describes whenever ens succeeds); the add is the reference's add on it *)
Theorem C08_ensure_add_general : forall o st op r c,
  s_root st = RCon c -> cgood c -> o_ensure o = true ->
  op_str op (B "path") = Ok (x2f :: r) -> Forall ctok (map decode_token (split_slash r)) -> val_good op ->
  exists c1, ensure_path o c (x2f :: r) = (None, c1) /\ cgood c1 /\
    (forall j1, ens (dia o) (ptoks r) (cval c) = Some j1 -> cval c1 = j1) /\
    match at_parent (dia o) (ptoks r) (cval c1) (add_leaf (dia o) (ref_value op)) with
    | Rfc6902.Ok j' => exists st', op_add o st op = Ok st' /\ sval st' = j' /\ sgood st' /\ s_acc st' = s_acc st
    | Rfc6902.Fail cz => exists e, op_add o st op = Err e /\ cause_rel cz e
    end.
Proof.
  intros o st op r c.
  intros Hr G En Hp D Vg. rewrite ensure_path_slash.
  destruct (ensure_spec o (split_slash r) c G D) as [c1 [E1 [E3 V]]]. exists c1.
  split; [exact E1|]. split; [exact E3|]. split; [rewrite ptoks_eq; intros j1 H; rewrite H in V; exact V|].
  apply add_sim_acc. rewrite <- ensure_path_slash in E1.
  exact (ensured_add_sim o st op r c c1 Hr En Hp E1 E3 (ctok_dom _ D) Vg).
Qed.
Print Assumptions C08_ensure_add_general.

(* hence the classes an add can report with the option on: ErrMissing, or an index error for its
   last token; never ErrInvalid *)
Theorem C08_ensure_add_errs : forall o st op r c e,
  s_root st = RCon c -> cgood c -> o_ensure o = true ->
  op_str op (B "path") = Ok (x2f :: r) -> Forall ctok (map decode_token (split_slash r)) -> val_good op ->
  op_add o st op = Err e -> e = EMissing \/ e = EInvalidIndex \/ e = EAtoi.
Proof.
  intros o st op r c e.
  intros Hr G En Hp D Vg H.
  destruct (C08_ensure_add_general o st op r c Hr G En Hp D Vg) as [c1 [_ [_ [_ S]]]].
  destruct (at_parent (dia o) (ptoks r) (cval c1) (add_leaf (dia o) (ref_value op))) as [j'|cz] eqn:R.
  - destruct S as [st' [S1 _]]. congruence.
  - destruct S as [e' [S1 S2]]. rewrite S1 in H. inversion H; subst e'.
    destruct (add_causes _ _ _ _ _ R) as [-> | ->]; cbn [cause_rel] in S2; tauto.
Qed.
Print Assumptions C08_ensure_add_errs.

(* the ErrMissing clause under EnsurePathExistsOnAdd: the reference's add, on the document with the
   missing parents created (ens) or on the document itself when an existing scalar is on the way,
   fails for an unreachable parent: ErrMissing.  (The hypothesis also admits the cause "absent
   member", as the clause names it; at_parent with add_leaf never returns it, so for an add that
   disjunct is vacuous.) *)
Theorem C08_ensure_add_missing : forall o st op r c doc1 cz,
  s_root st = RCon c -> cgood c -> o_ensure o = true ->
  op_str op (B "path") = Ok (x2f :: r) -> Forall ctok (map decode_token (split_slash r)) -> val_good op ->
  (ens (dia o) (ptoks r) (cval c) = Some doc1 \/
   (doc1 = cval c /\ exists ps t rest x, ptoks r = ps ++ t :: rest /\ rest <> [] /\
       descend (dia o) (ps ++ [t]) (cval c) = Some x /\ is_container x = false /\ x <> ONull)) ->
  at_parent (dia o) (ptoks r) doc1 (add_leaf (dia o) (ref_value op)) = Rfc6902.Fail cz ->
  cz = FMissingMember \/ cz = FUnreachable ->
  op_add o st op = Err EMissing.
Proof.
  intros o st op r c doc1 cz.
  intros Hr G En Hp D Vg [H|[-> [ps [t [rest [x [E [NE [Hd [Cx NN]]]]]]]]]] R C.
  - destruct (C08_ensure_add_classes o st op r c doc1 cz Hr G En Hp D Vg H R) as [e [S1 [S2 _]]].
    rewrite (cause_rel_missing cz e S2 C) in S1. exact S1.
  - exact (proj1 (C08_ensure_through_scalar o st op r c ps t rest x Hr G En Hp (ctok_dom _ D) E NE Hd Cx NN)).
Qed.
Print Assumptions C08_ensure_add_missing.

(* the formerly wrong input: {"a":1}, [{"op":"add","path":"/a/b","value":1}], option on: ErrMissing *)
Example C08_ensure_repaired :
  match api_decode (B "[{""op"":""add"",""path"":""/a/b"",""value"":1}]"), parse (B "{""a"":1}") with
  | Some p, Some t =>
      api_apply (mkOpts false 0 false true false [] None) [] p (B "{""a"":1}") = RErr (Some 0%nat) EMissing /\
      api_apply (mkOpts false 0 false false false [] None) [] p (B "{""a"":1}") = RErr (Some 0%nat) EMissing /\
      rfc_apply (mkDialect false) (den t) (map den_op p) = Failed 0 FUnreachable
  | _, _ => False
  end.
Proof. vm_compute. repeat split; reflexivity. Qed.

(* non-vacuity of the limit clauses: {"a":[1],"b":"xxxxxxxxxx"}, test /a/0 1, copy /b -> /c (12 bytes),
   remove /zz: limit 3 stops at the copy; limit 12 lets it pass and the remove is reported missing *)
Example C08_limit_nonvacuous :
  match api_decode (B "[{""op"":""test"",""path"":""/a/0"",""value"":1},{""op"":""copy"",""from"":""/b"",""path"":""/c""},{""op"":""remove"",""path"":""/zz""}]") with
  | Some p =>
      api_apply (mkOpts false 3 false false false [] None) [] p (B "{""a"":[1],""b"":""xxxxxxxxxx""}") = RErr (Some 1%nat) (ECopyLimit 3 12) /\
      api_apply (mkOpts false 12 false false false [] None) [] p (B "{""a"":[1],""b"":""xxxxxxxxxx""}") = RErr (Some 2%nat) EMissing
  | None => False
  end.
Proof. vm_compute. split; reflexivity. Qed.

(* non-vacuity: {"a":[1]}: test /a/0 1, remove /b (absent member: missing), add /c 2 *)
Example C08_nonvacuous :
  match api_decode (B "[{""op"":""test"",""path"":""/a/0"",""value"":1},{""op"":""remove"",""path"":""/b""},{""op"":""add"",""path"":""/c"",""value"":2}]") with
  | Some p => api_apply (mkOpts true 0 false false true [] None) [] p (B "{""a"":[1]}") = RErr (Some 1%nat) EMissing
  | None => False
  end.
Proof. vm_compute. reflexivity. Qed.

(* ---- the main theorem applied: every hypothesis of C08_cause_limit discharged on the document and patch of
   C08_limit_nonvacuous, under two copy-size limits, so that BOTH branches of its conclusion occur: the
   reference fails at operation 2 (remove of an absent member); with limit 12 the copy (12 bytes) passes and
   Apply reports ErrMissing at 2; with limit 3 Apply is stopped by the limit at the copy, operation 1.
   And C08_done_no_error on the patch without its failing last operation. ---- *)
From JP Require PointerDomain.
Definition C08_ex_doc := B "{""a"":[1],""b"":""xxxxxxxxxx""}".
Definition C08_ex_patch := B "[{""op"":""test"",""path"":""/a/0"",""value"":1},{""op"":""copy"",""from"":""/b"",""path"":""/c""},{""op"":""remove"",""path"":""/zz""}]".
Definition C08_ex_patch2 := B "[{""op"":""test"",""path"":""/a/0"",""value"":1},{""op"":""copy"",""from"":""/b"",""path"":""/c""}]".
Definition C08_ex_t : tjson := match parse C08_ex_doc with Some t => t | None => TNull end.
Definition C08_ex_p : list operation := match api_decode C08_ex_patch with Some p => p | None => [] end.
Definition C08_ex_p2 : list operation := match api_decode C08_ex_patch2 with Some p => p | None => [] end.
Definition C08_ex_o (l : Z) := mkOpts false l false false false [] None.

Example C08_main_theorem_applies :
  (exists e, api_apply (C08_ex_o 12) [] C08_ex_p C08_ex_doc = RErr (Some 2%nat) e /\ cause_rel FMissingMember e /\
             e = EMissing /\ is_copy_limit e = false) /\
  (exists k' total op, (k' < 2)%nat /\ (3 < total)%Z /\ nth_error C08_ex_p k' = Some op /\ op_kind op = KCopy /\
             api_apply (C08_ex_o 3) [] C08_ex_p C08_ex_doc = RErr (Some k') (ECopyLimit 3 total)) /\
  (exists n, api_apply (C08_ex_o 0) [] C08_ex_p2 C08_ex_doc = ROut (output (C08_ex_o 0) [] (render false n)) /\
             aval n = OObj [(B "a", OArr [ONum (B "1")]); (B "b", OStr (B "xxxxxxxxxx")); (B "c", OStr (B "xxxxxxxxxx"))] /\
             ngood n).
Proof.
  assert (P : parse C08_ex_doc = Some C08_ex_t) by (vm_compute; reflexivity).
  assert (RC : root_container C08_ex_t = true) by reflexivity.
  assert (T : tnodup C08_ex_t = true) by (vm_compute; reflexivity).
  assert (D : Forall op_dom C08_ex_p)
    by (apply (PointerDomain.decoded_in_domain_op_dom C08_ex_patch); vm_compute; reflexivity).
  assert (D2 : Forall op_dom C08_ex_p2)
    by (apply (PointerDomain.decoded_in_domain_op_dom C08_ex_patch2); vm_compute; reflexivity).
  assert (LO : forall l, lim_opts (C08_ex_o l)) by (intro l; split; reflexivity).
  assert (F : forall l, copies_fit (dia (C08_ex_o l)) (den C08_ex_t) (map den_op C08_ex_p) = true)
    by (intro l; vm_compute; reflexivity).
  assert (R : forall l, rfc_apply (dia (C08_ex_o l)) (den C08_ex_t) (map den_op C08_ex_p) = Failed 2 FMissingMember)
    by (intro l; vm_compute; reflexivity).
  split; [|split].
  - destruct (C08_cause_limit (C08_ex_o 12) [] C08_ex_p C08_ex_doc C08_ex_t (LO _) P RC T D (F _) 2%nat FMissingMember (R _))
      as [[e [H1 [H2 [_ [H4 H5]]]]] | [k' [total [op [_ [_ [_ [_ [_ [_ H]]]]]]]]]].
    + exists e. split; [exact H1|]. split; [exact H2|]. split; [apply H4; left; reflexivity | exact H5].
    + exfalso. vm_compute in H. discriminate H.
  - destruct (C08_cause_limit (C08_ex_o 3) [] C08_ex_p C08_ex_doc C08_ex_t (LO _) P RC T D (F _) 2%nat FMissingMember (R _))
      as [[e [H1 _]] | [k' [total [op [H1 [H2 [_ [H4 [H5 [H6 H7]]]]]]]]]].
    + exfalso. vm_compute in H1. discriminate H1.
    + exists k', total, op. split.
      * destruct (Nat.eq_dec k' 2) as [E|E]; [apply H2 in E; discriminate E|].
        apply Nat.le_neq. split; assumption.
      * split; [exact H4|]. split; [exact H5|]. split; [exact H6 | exact H7].
  - apply (C08_done_no_error (C08_ex_o 0) [] C08_ex_p2 C08_ex_doc C08_ex_t (LO _)); try assumption;
      vm_compute; first [reflexivity | discriminate].
Qed.
Print Assumptions C08_main_theorem_applies.

(* ---- "all option combinations": EnsurePathExistsOnAdd on, together with AllowMissingPathOnRemove on or off
   and ANY copy limit (EnsureSim.v).  The reference rfc_opt_step creates missing parents before an add, skips
   a remove of an absent target when the allow option is on, and is rfc_step otherwise.  Outcome of Apply: the
   reference's document, or the reference's first failure with its cause class, or the copy-limit error at a
   copy not later than that. ---- *)
Theorem C08_all_options_whole_patch : forall o indent p doc t,
  o_ensure o = true -> parse doc = Some t -> root_container t = true -> tnodup t = true ->
  Forall EnsureSim.ens_op_dom p ->
  EnsureSim.opt_run_fits (o_allow o) (dia o) (den t) p = true ->
  match EnsureSim.rfc_opt_apply_from (o_allow o) (dia o) 0 (den t) p with
  | Done j => (exists n, api_apply o indent p doc = ROut (output o indent (render (o_esc o) n)) /\ aval n = j /\ ngood n) \/
              (exists k total, api_apply o indent p doc = RErr (Some k) (ECopyLimit (o_limit o) total) /\
                               (0 < o_limit o)%Z /\ (o_limit o < total)%Z)
  | Failed i cz => (exists e, api_apply o indent p doc = RErr (Some i) e /\ cause_rel cz e) \/
                   (exists k total, api_apply o indent p doc = RErr (Some k) (ECopyLimit (o_limit o) total) /\
                                    (k <= i)%nat /\ (0 < o_limit o)%Z /\ (o_limit o < total)%Z)
  end.
Proof. exact EnsureSim.api_apply_opt_sim. Qed.
Print Assumptions C08_all_options_whole_patch.

Theorem C08_all_options_cause : forall o indent p doc t i cz,
  o_ensure o = true -> parse doc = Some t -> root_container t = true -> tnodup t = true ->
  Forall EnsureSim.ens_op_dom p -> EnsureSim.opt_run_fits (o_allow o) (dia o) (den t) p = true ->
  EnsureSim.rfc_opt_apply_from (o_allow o) (dia o) 0 (den t) p = Failed i cz ->
  exists k e, api_apply o indent p doc = RErr (Some k) e /\ (k <= i)%nat /\
    (is_copy_limit e = false ->
       k = i /\ (e = ETestFailed <-> cz = FTest) /\ (cz = FMissingMember \/ cz = FUnreachable -> e = EMissing)) /\
    (is_copy_limit e = true -> (0 < o_limit o)%Z).
Proof. exact EnsureSim.opt_cause. Qed.
Print Assumptions C08_all_options_cause.

Definition C08_all_options_applies := EnsureSim.opt_cause_applies.
Check C08_all_options_applies.
