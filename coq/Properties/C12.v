(* C12 — the accumulated copy-size limit: the v5 model first, then (V4LimitFacts.v) the same statements
   about the model of the legacy package, whose limit is the package variable. *)
From JP Require Import Bytes Json Text ImplV5 ApplyFacts.

(* the limit error is raised only by a copy, only under a positive limit, and only when the running
   total (this copy included) exceeds it: "never while the total is within it" *)
Theorem C12_error_only_when_exceeded : forall o p st j l a,
  apply_from o 0 st p = AErr j (ECopyLimit l a) ->
  exists op, nth_error p j = Some op /\ op_kind op = KCopy /\
             (0 < o_limit o)%Z /\ l = o_limit o /\ (o_limit o < a)%Z.
Proof.
  intros o p st j l a H. apply apply_limit_error in H as [op [N [_ R]]].
  rewrite Nat.sub_0_r in N. eauto.
Qed.
Print Assumptions C12_error_only_when_exceeded.

(* a limit of 0 disables the check *)
Theorem C12_zero_disables : forall o p st j l a,
  o_limit o = 0%Z -> apply_from o 0 st p <> AErr j (ECopyLimit l a).
Proof.
  intros o p st j l a Z H. apply apply_limit_error in H as [op [_ [_ [_ [P _]]]]]. rewrite Z in P.
  exact (Z.lt_irrefl _ P).
Qed.
Print Assumptions C12_zero_disables.

(* operations other than copy never count towards the total *)
Theorem C12_others_do_not_count : forall o st op st',
  op_kind op <> KCopy -> step o st op = Ok st' -> s_acc st' = s_acc st.
Proof. exact step_acc_noncopy. Qed.
Print Assumptions C12_others_do_not_count.

(* "as soon as": a patch that runs to the end under a positive limit kept the total within it at
   every step, so the first copy that exceeds the limit is the one that stops the patch *)
Theorem C12_total_within_limit : forall o p st st',
  apply_from o 0 st p = AOk st' -> (0 < o_limit o)%Z -> (s_acc st <= o_limit o)%Z -> (s_acc st' <= o_limit o)%Z.
Proof.
  intros o p. generalize 0%nat. induction p as [|op p IH]; intros i st st'; simpl.
  - intro H; inversion H; subst; auto.
  - destruct (step o st op) as [st1| |] eqn:E; try discriminate. intros H L A. eapply IH; eauto.
    destruct (op_kind op) eqn:K; try (erewrite step_acc_noncopy; eauto; congruence).
    unfold step in E. rewrite K in E. eapply op_copy_within; eauto.
Qed.
Print Assumptions C12_total_within_limit.

(* a patch stopped by the limit returns no document *)
Theorem C12_no_document : forall o indent p doc r j l a,
  load_doc o doc = Ok r -> apply_from o 0 (mkState r 0) p = AErr j (ECopyLimit l a) ->
  apply_tree o indent p doc = RErr (Some j) (ECopyLimit l a).
Proof. intros o indent p doc r j l a L A. unfold apply_tree. now rewrite L, A. Qed.
Print Assumptions C12_no_document.

(* ---- the size counted is the length of the value's spelling in the output (SizeFacts.v) ---- *)
From JP Require Import Strings Scan PrintParse Totality CauseFacts SizeFacts.

(* escaping an escaped tree again changes nothing: the raw node a copy stores is printed, with the
   same escape setting, exactly as its source value *)
Theorem C12_copy_spelled_as_source : forall o v,
  print (o_esc o) (render (o_esc o) (fst (deep_copy o v))) = print (o_esc o) (render (o_esc o) v).
Proof. exact deep_copy_spelling. Qed.
Print Assumptions C12_copy_spelled_as_source.

(* the size counted for a value that is not a null is the length of the spelling of the stored copy *)
Theorem C12_counted_size_is_spelling_length : forall o v,
  is_null v = false ->
  snd (deep_copy o v) = zlen (print (o_esc o) (render (o_esc o) (fst (deep_copy o v)))).
Proof. exact deep_copy_counts_spelling. Qed.
Print Assumptions C12_counted_size_is_spelling_length.

(* a copied null: as the code counts (o_nullsz = None) 0 for a nil node and 4 for a stored raw null;
   with a fixed setting z every null counts z; in the accepted settings it counts 0 or 4 and is
   spelled null *)
Theorem C12_null_as_code : forall o v,
  o_nullsz o = None -> is_null v = true ->
  snd (deep_copy o v) = match v with NNil => 0%Z | _ => 4%Z end.
Proof. exact deep_copy_null_code. Qed.
Print Assumptions C12_null_as_code.

Theorem C12_null_fixed : forall o v z,
  o_nullsz o = Some z -> is_null v = true -> snd (deep_copy o v) = z.
Proof. exact deep_copy_null_fixed. Qed.
Print Assumptions C12_null_fixed.

Theorem C12_null_0_or_4 : forall o v,
  (o_nullsz o = None \/ o_nullsz o = Some 0%Z \/ o_nullsz o = Some 4%Z) -> is_null v = true ->
  (snd (deep_copy o v) = 0%Z \/ snd (deep_copy o v) = 4%Z) /\
  print (o_esc o) (render (o_esc o) (fst (deep_copy o v))) = B "null" /\ is_null (fst (deep_copy o v)) = true.
Proof. exact deep_copy_null_0_or_4. Qed.
Print Assumptions C12_null_0_or_4.

(* the compact text of a tree contains the compact text of every node in it as a contiguous
   substring (infix s t: t = pre ++ s ++ post): the spelling of a copy in the output is well defined *)
Theorem C12_descendant_is_substring : forall esc cp root,
  subnode cp root -> infix (print esc (render esc cp)) (print esc (render esc root)).
Proof. exact subnode_output. Qed.
Print Assumptions C12_descendant_is_substring.

(* one successful copy (stinv: the invariant of every reachable state, Totality.v; inner_nonempty: no
   reference token of the destination before the last is empty): the node stored is in the new tree,
   spelled as the source, a contiguous part of the compact text of the new tree, and what was added
   to the total is the length of that spelling *)
Theorem C12_copy_step_spelling : forall o st op st' path,
  stinv st -> op_str op (B "path") = Ok path -> inner_nonempty path ->
  op_copy o st op = Ok st' ->
  exists v cp sz,
    deep_copy o v = (cp, sz) /\ s_acc st' = (s_acc st + sz)%Z /\
    print (o_esc o) (render (o_esc o) cp) = print (o_esc o) (render (o_esc o) v) /\
    subnode cp (root_node (s_root st')) /\
    infix (print (o_esc o) (render (o_esc o) cp)) (print (o_esc o) (render (o_esc o) (root_node (s_root st')))) /\
    (is_null v = false -> sz = zlen (print (o_esc o) (render (o_esc o) cp))).
Proof. exact copy_step_spelling. Qed.
Print Assumptions C12_copy_step_spelling.

(* the copy at position length p1 of a patch that runs to the end *)
Theorem C12_copy_in_patch_output : forall o p1 op p2 st0 stf path,
  stinv st0 -> forallb op_ok p1 = true -> op_kind op = KCopy ->
  op_str op (B "path") = Ok path -> inner_nonempty path ->
  apply_from o 0 st0 (p1 ++ op :: p2) = AOk stf ->
  exists st1 st2 v cp sz,
    apply_from o 0 st0 p1 = AOk st1 /\ step o st1 op = Ok st2 /\
    apply_from o (S (length p1)) st2 p2 = AOk stf /\
    deep_copy o v = (cp, sz) /\ s_acc st2 = (s_acc st1 + sz)%Z /\
    print (o_esc o) (render (o_esc o) cp) = print (o_esc o) (render (o_esc o) v) /\
    (is_null v = false -> sz = zlen (print (o_esc o) (render (o_esc o) cp))) /\
    subnode cp (root_node (s_root st2)) /\
    (forall t, subnode cp (root_node (s_root stf)) -> marshal_root o (s_root stf) = Ok t ->
               infix (print (o_esc o) (render (o_esc o) cp)) (output o [] t)).
Proof. exact copy_in_patch_output. Qed.
Print Assumptions C12_copy_in_patch_output.

(* the copy is the last operation: the bytes returned contain its spelling *)
Theorem C12_copy_last_output : forall o st op st' path t,
  stinv st -> op_kind op = KCopy -> op_str op (B "path") = Ok path -> inner_nonempty path ->
  step o st op = Ok st' -> marshal_root o (s_root st') = Ok t ->
  exists v cp sz,
    deep_copy o v = (cp, sz) /\ s_acc st' = (s_acc st + sz)%Z /\
    infix (print (o_esc o) (render (o_esc o) cp)) (output o [] t) /\
    print (o_esc o) (render (o_esc o) cp) = print (o_esc o) (render (o_esc o) v) /\
    (is_null v = false -> sz = zlen (print (o_esc o) (render (o_esc o) cp))).
Proof. exact copy_last_output. Qed.
Print Assumptions C12_copy_last_output.

(* indented output: the codec's Compact of it is the compact text *)
Theorem C12_compact_of_indented : forall esc ind t,
  wsb ind = true -> twf t -> compact_go esc (pp esc ind 0 t) = Some (print esc t).
Proof. exact compact_of_indented. Qed.
Print Assumptions C12_compact_of_indented.

(* inner_nonempty cannot be dropped: a copy to //b is counted but what it adds is not kept *)
Theorem C12_empty_token_counts_but_is_lost :
  match api_decode (B "[{""op"":""copy"",""from"":""/a"",""path"":""//b""}]") with
  | Some p =>
      api_apply (mkOpts true 4 false false false [] None) [] p (B "{""a"":""<x>""}") = RErr (Some 0%nat) (ECopyLimit 4 5) /\
      api_apply (mkOpts true 0 false false false [] None) [] p (B "{""a"":""<x>""}") = ROut (B "{""a"":""<x>""}")
  | None => False
  end.
Proof. exact copy_empty_token_counts_but_is_lost. Qed.
Print Assumptions C12_empty_token_counts_but_is_lost.

(* non-vacuity of the step theorem: {"a":"<x>","c":{}}, copy /a to /c/b with EscapeHTML on: the
   hypotheses hold, 15 is added, and the node stored is a proper descendant of the new root whose
   spelling has 15 bytes and is the escaped spelling of the source *)
Example C12_spelling_nonvacuous :
  let o := mkOpts true 0 false false true [] None in
  let op : operation := [(B "op", Some (TStr (B "copy"))); (B "from", Some (TStr (B "/a"))); (B "path", Some (TStr (B "/c/b")))] in
  let d := TObj [(B "a", TStr (B "<x>")); (B "c", TObj [])] in
  exists r st', load_doc o d = Ok r /\ stinv (mkState r 0) /\
    op_str op (B "path") = Ok (B "/c/b") /\ inner_nonempty (B "/c/b") /\
    op_copy o (mkState r 0) op = Ok st' /\ s_acc st' = 15%Z /\
    exists cp, subnode cp (root_node (s_root st')) /\ cp <> root_node (s_root st') /\
               zlen (print true (render true cp)) = 15%Z /\
               print true (render true cp) = print true (TStr (B "<x>")).
Proof.
  cbv zeta. eexists. eexists. split; [vm_compute; reflexivity|].
  split; [apply (load_doc_stinv (mkOpts true 0 false false true [] None) (TObj [(B "a", TStr (B "<x>")); (B "c", TObj [])])); vm_compute; reflexivity|].
  split; [vm_compute; reflexivity|].
  split. { vm_compute. repeat constructor. discriminate. }
  split; [vm_compute; reflexivity|]. split; [reflexivity|].
  eexists. split.
  - cbn [s_root root_node node_of_con].
    eapply subnode_step; [exists (B "c"); split; [right; left; reflexivity | vm_compute; reflexivity]|].
    eapply subnode_step; [exists (B "b"); split; [left; reflexivity | vm_compute; reflexivity]|].
    apply subnode_refl.
  - split; [discriminate|]. split; vm_compute; reflexivity.
Qed.

(* non-vacuity: {"a":"<x>"} copied twice; the value is spelled "<x>" (15 bytes) with
   EscapeHTML on and "<x>" (5 bytes) with it off; limits just below and at the total *)
Example C12_nonvacuous :
  match api_decode (B "[{""op"":""copy"",""from"":""/a"",""path"":""/b""},{""op"":""copy"",""from"":""/a"",""path"":""/c""}]") with
  | Some p =>
      api_apply (mkOpts true 29 false false true [] None) [] p (B "{""a"":""<x>""}") = RErr (Some 1%nat) (ECopyLimit 29 30) /\
      (exists out, api_apply (mkOpts true 30 false false true [] None) [] p (B "{""a"":""<x>""}") = ROut out) /\
      api_apply (mkOpts true 9 false false false [] None) [] p (B "{""a"":""<x>""}") = RErr (Some 1%nat) (ECopyLimit 9 10) /\
      (exists out, api_apply (mkOpts true 10 false false false [] None) [] p (B "{""a"":""<x>""}") = ROut out)
  | None => False
  end.
Proof. vm_compute. repeat split; try reflexivity; eexists; reflexivity. Qed.

(* ---- the main theorems applied, on the document and two-copy patch of C12_nonvacuous (EscapeHTML on: each
   copy counts 15 bytes): C12_error_only_when_exceeded and C12_no_document under limit 29 (the run stops at
   the second copy with total 30), C12_total_within_limit under limit 30 (the run ends, total within it),
   C12_zero_disables under limit 0 ---- *)
Definition C12_ex_doc := B "{""a"":""<x>""}".
Definition C12_ex_patch := B "[{""op"":""copy"",""from"":""/a"",""path"":""/b""},{""op"":""copy"",""from"":""/a"",""path"":""/c""}]".
Definition C12_ex_p : list operation := match api_decode C12_ex_patch with Some p => p | None => [] end.
Definition C12_ex_o (l : Z) := mkOpts true l false false true [] None.
Definition C12_ex_r : root := match parse C12_ex_doc with
                              | Some t => match load_doc (C12_ex_o 0) t with Ok r => r | _ => RNull end
                              | None => RNull end.
Definition C12_ex_t : tjson := match parse C12_ex_doc with Some t => t | None => TNull end.

Example C12_main_theorem_applies :
  (exists op, nth_error C12_ex_p 1 = Some op /\ op_kind op = KCopy /\ (0 < 29)%Z /\ (29 < 30)%Z) /\
  apply_tree (C12_ex_o 29) [] C12_ex_p C12_ex_t = RErr (Some 1%nat) (ECopyLimit 29 30) /\
  (exists st', apply_from (C12_ex_o 30) 0 (mkState C12_ex_r 0) C12_ex_p = AOk st' /\ (s_acc st' <= 30)%Z) /\
  (forall j l a, apply_from (C12_ex_o 0) 0 (mkState C12_ex_r 0) C12_ex_p <> AErr j (ECopyLimit l a)).
Proof.
  assert (E : apply_from (C12_ex_o 29) 0 (mkState C12_ex_r 0) C12_ex_p = AErr 1 (ECopyLimit 29 30)) by (vm_compute; reflexivity).
  split; [|split; [|split]].
  - destruct (C12_error_only_when_exceeded (C12_ex_o 29) C12_ex_p (mkState C12_ex_r 0) 1%nat 29%Z 30%Z E)
      as [op [H1 [H2 [H3 [_ H5]]]]].
    exists op. split; [exact H1|]. split; [exact H2|]. split; [exact H3 | exact H5].
  - apply (C12_no_document (C12_ex_o 29) [] C12_ex_p C12_ex_t C12_ex_r); [vm_compute; reflexivity | exact E].
  - destruct (apply_from (C12_ex_o 30) 0 (mkState C12_ex_r 0) C12_ex_p) as [st'| |] eqn:A;
      [|vm_compute in A; discriminate A|vm_compute in A; discriminate A].
    exists st'. split; [reflexivity|].
    apply (C12_total_within_limit (C12_ex_o 30) C12_ex_p (mkState C12_ex_r 0) st' A); [reflexivity | vm_compute; discriminate].
  - intros j l a. apply C12_zero_disables. reflexivity.
Qed.
Print Assumptions C12_main_theorem_applies.

(* ---- the legacy package (ImplV4.v: g_limit is the package variable AccumulatedCopySizeLimit).  No domain
   hypothesis: every operation list, state and setting. ---- *)
From JP Require Import ImplV4.
From JP Require V4LimitFacts.

Theorem C12_legacy_error_iff : forall g p i st k l a,
  apply4_from g i st p = (Err (ECopyLimit l a), k) <->
  exists p1 op p2 st1 v,
    p = p1 ++ op :: p2 /\ k = (i + length p1)%nat /\ apply4_from g i st p1 = (Ok st1, k) /\
    op_kind op = KCopy /\ V4LimitFacts.copy_src4 g st1 op = Some v /\
    (0 < g_limit g)%Z /\ l = g_limit g /\
    a = (acc4 st1 + snd (deep_copy4 g v))%Z /\ (g_limit g < a)%Z.
Proof. exact V4LimitFacts.v4_limit_error_iff. Qed.
Print Assumptions C12_legacy_error_iff.

Theorem C12_legacy_zero_disables : forall g p i st k l a,
  (g_limit g <= 0)%Z -> apply4_from g i st p <> (Err (ECopyLimit l a), k).
Proof. exact V4LimitFacts.v4_zero_disables. Qed.
Print Assumptions C12_legacy_zero_disables.

Theorem C12_legacy_others_do_not_count : forall g st op st',
  op_kind op <> KCopy -> step4 g st op = Ok st' -> acc4 st' = acc4 st.
Proof. exact V4LimitFacts.v4_others_do_not_count. Qed.
Print Assumptions C12_legacy_others_do_not_count.

Theorem C12_legacy_total_is_sum : forall g p i st st' j,
  apply4_from g i st p = (Ok st', j) -> acc4 st' = (acc4 st + V4LimitFacts.sizes4 g st p)%Z.
Proof. exact V4LimitFacts.v4_total_is_sum. Qed.
Print Assumptions C12_legacy_total_is_sum.

Theorem C12_legacy_total_within_limit : forall g p i st st' j,
  apply4_from g i st p = (Ok st', j) -> (0 < g_limit g)%Z -> (acc4 st <= g_limit g)%Z -> (acc4 st' <= g_limit g)%Z.
Proof. exact V4LimitFacts.v4_total_within_limit. Qed.
Print Assumptions C12_legacy_total_within_limit.

(* the size counted is the length of the copy as deepCopy spells it (HTML escaping always on, members of a
   decoded object sorted); a nil source counts 0 although it is written with the four bytes null
   (V4LimitFacts.v4_nil_counts_zero_spelled_with_four_bytes) — the property allows 0 or 4 for a copied null *)
Theorem C12_legacy_counted_size_is_spelling_length : forall g v, v <> NNil ->
  snd (deep_copy4 g v) = zlen (marshal4 v) /\
  snd (deep_copy4 g v) = zlen (marshal4 (fst (deep_copy4 g v))).
Proof. exact V4LimitFacts.v4_counted_size_is_spelling_length. Qed.
Print Assumptions C12_legacy_counted_size_is_spelling_length.

(* stopped by the limit, Apply returns the error and no document — and that is the only way it returns it *)
Theorem C12_legacy_no_document : forall g indent p doc j l a,
  api_apply4 g indent p doc = Err4 j (ECopyLimit l a) <->
  exists t c k, doc <> [] /\ parse doc = Some t /\ V4OutputFacts.start4 t = Some c /\ j = Some k /\
                apply4_from g 0 (mkState4 c 0) p = (Err (ECopyLimit l a), k).
Proof. exact V4LimitFacts.v4_limit_stops_with_no_document. Qed.
Print Assumptions C12_legacy_no_document.

(* the spelling counted is the spelling in the output (compact output, the copy being the last operation) *)
Theorem C12_legacy_copy_in_output : forall g p1 op doc t c out,
  parse doc = Some t -> V4OutputFacts.start4 t = Some c -> op_kind op = KCopy ->
  api_apply4 g [] (p1 ++ [op]) doc = Out4 out ->
  exists st1 st2 v cp sz,
    apply4_from g 0 (mkState4 c 0) p1 = (Ok st1, length p1) /\ step4 g st1 op = Ok st2 /\
    V4LimitFacts.copy_src4 g st1 op = Some v /\ deep_copy4 g v = (cp, sz) /\ acc4 st2 = (acc4 st1 + sz)%Z /\
    marshal4 cp = marshal4 v /\ (v <> NNil -> sz = zlen (marshal4 cp)) /\
    SizeFacts.infix (marshal4 cp) out.
Proof. exact V4LimitFacts.v4_copy_last_output. Qed.
Print Assumptions C12_legacy_copy_in_output.

(* non-vacuity: {"a":"<x>"} with two copies of /a (15 bytes each, HTML-escaped): limits 20 and 29 stop at
   the second copy with total 30, limit 14 at the first, limits 30, 0 and -5 return the document *)
Definition C12_legacy_nonvacuous := V4LimitFacts.v4_nonvacuous.
Definition C12_legacy_main_theorems_apply := V4LimitFacts.v4_main_theorems_apply.
Check C12_legacy_nonvacuous.
