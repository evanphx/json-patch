(* C18 — legacy root package: RFC 6902 application (v4 API).
   The legacy model (ImplV4.v) shares the array index arithmetic with the v5 model (the two Go
   files have the same partialArray code); the theorems below instantiate the arithmetic theorems
   for the legacy container operations, for every array length and canonical token and both
   settings of the SupportNegativeIndices package variable.  The whole-patch refinement against
   Rfc6902.rfc_apply (up to member order) is proved in V4ApplySim.v (the legacy counterpart of
   ApplySim.v) and restated in the second half of this file.
   DOMAIN RESTRICTION of the byte-level simulation theorems (C18_apply_refines_rfc and those after it,
   C18_step, C18_apply_patch through sgood4 / op_dom4): EVERY string of the document (tplain) and of
   every operation value (raw4, in val_good4) is spelled escape-free: no backslash, valid UTF-8, and
   none of the characters the legacy encoder rewrites (less-than, greater-than, ampersand, U+2028,
   U+2029).  The legacy test operation and deepCopy compare and re-encode SPELLINGS, so outside this
   set the legacy result can differ from RFC 6902's (C19_Equal_compares_spellings shows it for Equal).
   This is NARROWER than the property's wording, which only sets aside "strings compared by test
   operations": here all strings are restricted, also those no test touches.  The index theorems of
   the first half, C18_first_failure, the totality statements of C04 and the output theorems
   C18_step_keeps_tokens / C18_output_general carry no such restriction.
   FURTHER HYPOTHESES of the simulation (since the model tells the four null-like nodes of the package
   apart, ImplV4.v / V4NullWalk.v): (1) a test operation below the root carries a value member
   (has_value4, inside op_dom4); (2) no copy is handed the operation value null (copy_clean4 for a
   step, the boolean no_null_copy4 for a run; C18_null_copy_deviation shows the package succeeding
   where RFC 6902 fails when this is violated; every patch without copy satisfies it). *)
From JP Require V4ApplySim TotalityV4 V4Domain StrInv.
From JP Require Import Bytes Json Text Strings Den Pointer Rfc6902 ImplV5 ImplV4 ImplFacts.

Theorem C18_get_index : forall g (ns : list node) t,
  tok_small t -> tok_canonical t ->
  match idx_existing (mkDialect (g_neg g)) (Rfc6902.zlen ns) t with
  | Some i => con4_get g (DAry ns) t = Ok (nth i ns NNil) /\ (i < length ns)%nat
  | None => exists e, con4_get g (DAry ns) t = Err e /\ (e = EInvalidIndex \/ e = EAtoi)
  end.
Proof. exact V4ApplySim.con4_get_index. Qed.
Print Assumptions C18_get_index.

Theorem C18_add_index : forall g (ns : list node) t v,
  tok_small t -> add_tok t ->
  match idx_insert (mkDialect (g_neg g)) (Rfc6902.zlen ns) t with
  | Some i => con4_add g (DAry ns) t v = Ok (DAry (insert_at i v ns)) /\ (i <= length ns)%nat
  | None => exists e, con4_add g (DAry ns) t v = Err e /\ (e = EInvalidIndex \/ e = EAtoi)
  end.
Proof. exact V4ApplySim.con4_add_index. Qed.
Print Assumptions C18_add_index.

Theorem C18_remove_index : forall g (ns : list node) t,
  tok_small t -> tok_canonical t ->
  match idx_existing (mkDialect (g_neg g)) (Rfc6902.zlen ns) t with
  | Some i => con4_remove g (DAry ns) t = Ok (DAry (remove_at i ns)) /\ (i < length ns)%nat
  | None => exists e, con4_remove g (DAry ns) t = Err e /\ (e = EInvalidIndex \/ e = EAtoi)
  end.
Proof. exact V4ApplySim.con4_remove_index. Qed.
Print Assumptions C18_remove_index.

(* the array add can never reach the panicking slice expression *)
Theorem C18_array_add_never_panics : forall g ns key v, con4_add g (DAry ns) key v <> Panic.
Proof.
  intros g ns key v. cbn [con4_add]. pose proof (ary_add_never_panics (o5 g) ns key v) as H.
  destruct (ary_add (o5 g) ns key v); congruence.
Qed.
Print Assumptions C18_array_add_never_panics.

(* operations after the first failing one have no effect: the loop stops at the first error *)
Theorem C18_first_failure : forall g p1 op p2 st i st' j e,
  apply4_from g i st p1 = (Ok st', j) -> step4 g st' op = Err e ->
  apply4_from g i st (p1 ++ op :: p2) = (Err e, j).
Proof.
  intros g p1 op p2 st i st' j e H S. rewrite TotalityV4.apply4_from_app, H. cbn [apply4_from]. rewrite S. reflexivity.
Qed.
Print Assumptions C18_first_failure.

(* ---- the simulation against RFC 6902 (V4ApplySim.v) ---- *)
From JP Require Import Domain JsonFacts Abs EqualFacts RefFacts ApplyFacts ApplySim Codec V4ApplySim.

(* the pointer walk of the legacy findObject reaches exactly the container the reference descends
   to; lazy parsing on the way never changes the value (aval4: members in map order) *)
Theorem C18_walk : forall g parts c,
  cgood4 c -> Forall tok_dom4 (map decode_token parts) ->
  match descend (d4 g) (map decode_token parts) (cval4 c) with
  | Some p =>
      if is_container p then
        exists cp (back : con4 -> con4), cval4 cp = p /\ cgood4 cp /\
          (forall A (f : con4 -> A * con4), walk4 g parts c f = (Some (fst (f cp)), back (snd (f cp)))) /\
          (forall cp', cgood4 cp' ->
             cval4 (back cp') = rebuild (d4 g) (map decode_token parts) (cval4 c) (cval4 cp') /\ cgood4 (back cp'))
      else exists c', (forall A (f : con4 -> A * con4), walk4 g parts c f = (None, c')) /\ cval4 c' = cval4 c /\ cgood4 c'
  | None => exists c', (forall A (f : con4 -> A * con4), walk4 g parts c f = (None, c')) /\ cval4 c' = cval4 c /\ cgood4 c'
  end.
Proof. exact walk4_spec. Qed.
Print Assumptions C18_walk.

(* get never fails on an object: an absent member reads as the nil node *)
Theorem C18_get : forall g c key,
  cgood4 c -> tok_dom4 key ->
  match child_at (d4 g) (cval4 c) key with
  | Some j => exists v, con4_get g c key = Ok v /\ aval4 v = j /\ ngood4 v
  | None => match c with
            | DAry _ => exists e, con4_get g c key = Err e /\ (e = EInvalidIndex \/ e = EAtoi)
            | _ => con4_get g c key = Ok NNil
            end
  end.
Proof. exact con4_get_sim. Qed.
Print Assumptions C18_get.

(* the legacy Equal (strings compared by spelling) decides structural equality on plain spellings *)
Theorem C18_equal_is_structural : forall n o, ngood4 n -> ngood4 o -> node_equal4 n o = jeq (aval4 n) (aval4 o).
Proof. exact node_equal4_spec. Qed.
Print Assumptions C18_equal_is_structural.

(* deepCopy: the marshalled text (members sorted, HTML-escaped) is a well-formed raw message and
   denotes the same value up to member order: copy yields an independent duplicate *)
Theorem C18_copy_duplicates : forall v, ngood4 v ->
  rawok (enc4 v) /\ jeq (den (enc4 v)) (aval4 v) = true /\ (null4 v = false -> enc4 v <> TNull).
Proof. exact enc4_codec. Qed.
Print Assumptions C18_copy_duplicates.

(* one operation (all kinds but copy): the legacy step computes the reference step with the two
   documented deviations (rfc4_step) EXACTLY, member order included; same error class otherwise.
   op_dom4 asks a test below the root for a value member (RFC 6902 requires one): without it the
   package compares the nil POINTER and fails on a member holding the operation value null *)
Theorem C18_step_exact : forall g st op,
  sgood4 st -> op_dom4 op -> op_kind op <> KCopy ->
  match rfc4_step (d4 g) (sval4 st) (den_op op) with
  | Rfc6902.Ok j' => exists st', step4 g st op = Ok st' /\ sval4 st' = j' /\ sgood4 st' /\ acc4 st' = acc4 st
  | Rfc6902.Fail cz => exists e, step4 g st op = Err e /\ cause_rel cz e
  end.
Proof. exact step4_sim_nocopy. Qed.
Print Assumptions C18_step_exact.

(* one operation of any kind (copy included), up to member order.  A copy must not be handed the
   operation value null (copy_clean4: the node deepCopy receives is not raw_nil4, i.e. not a null that
   an earlier add / replace of the patch wrote): the package stores the raw TEXT null for it, and a
   later path through that member is walked like an empty object (C18_null_copy_deviation below) *)
Theorem C18_step : forall g st op doc,
  g_limit g = 0%Z -> sgood4 st -> veq (sval4 st) doc -> op_dom4 op ->
  (op_kind op = KCopy -> copy_clean4 g st op) ->
  match rfc4_step (d4 g) doc (den_op op) with
  | Rfc6902.Ok j' => exists st', step4 g st op = Ok st' /\ veq (sval4 st') j' /\ sgood4 st'
  | Rfc6902.Fail cz => exists e, step4 g st op = Err e /\ cause_rel cz e
  end.
Proof. exact step4_sim. Qed.
Print Assumptions C18_step.

(* where the deviating reference IS the RFC reference: everywhere except an absent object member
   reported for a replace or a copy *)
Theorem C18_deviation_only_absent_member : forall d doc o,
  (rfc_step d doc o = Rfc6902.Fail FMissingMember -> rkind o <> OpReplace /\ rkind o <> OpCopy) ->
  rfc4_step d doc o = rfc_step d doc o.
Proof. exact rfc4_step_agree. Qed.
Print Assumptions C18_deviation_only_absent_member.

(* the deviations themselves *)
Theorem C18_replace_absent_adds : forall g st op r ms,
  sgood4 st -> op_kind op = KReplace ->
  op_str op (B "path") = Ok (x2f :: r) -> Forall tok_dom4 (map decode_token (split_slash r)) -> val_good4 op ->
  descend (d4 g) (map decode_token (path_parts r)) (sval4 st) = Some (OObj ms) -> aget (path_key r) ms = None ->
  rfc_step (d4 g) (sval4 st) (den_op op) = Rfc6902.Fail FMissingMember /\
  exists st', step4 g st op = Ok st' /\ sgood4 st' /\
    sval4 st' = rebuild (d4 g) (map decode_token (path_parts r)) (sval4 st) (OObj (ms ++ [(path_key r, ref_value op)])).
Proof. exact step4_replace_absent_adds. Qed.
Print Assumptions C18_replace_absent_adds.

Theorem C18_copy_absent_copies_null : forall g st op rf r ms,
  sgood4 st -> op_kind op = KCopy -> g_limit g = 0%Z ->
  op_str op (B "from") = Ok (x2f :: rf) -> Forall tok_dom4 (map decode_token (split_slash rf)) ->
  op_str op (B "path") = Ok (x2f :: r) -> Forall tok_dom4 (map decode_token (split_slash r)) ->
  descend (d4 g) (map decode_token (path_parts rf)) (sval4 st) = Some (OObj ms) -> aget (path_key rf) ms = None ->
  get_at (d4 g) (ptoks rf) (sval4 st) = Rfc6902.Fail FMissingMember /\
  match at_parent (d4 g) (ptoks r) (sval4 st) (add_leaf (d4 g) ONull) with
  | Rfc6902.Ok j' => exists st', step4 g st op = Ok st' /\ sval4 st' = j' /\ sgood4 st'
  | Rfc6902.Fail cz => exists e, step4 g st op = Err e /\ cause_rel cz e
  end.
Proof. exact step4_copy_absent_copies_null. Qed.
Print Assumptions C18_copy_absent_copies_null.

(* a test of an absent member compares null (the reference's dialect says the same) *)
Theorem C18_test_absent : forall g st op r ms,
  sgood4 st -> op_kind op = KTest ->
  op_str op (B "path") = Ok (x2f :: r) -> Forall tok_dom4 (map decode_token (split_slash r)) -> val_good4 op ->
  descend (d4 g) (map decode_token (path_parts r)) (sval4 st) = Some (OObj ms) -> aget (path_key r) ms = None ->
  if onull (ref_value op)
  then exists st', step4 g st op = Ok st' /\ sval4 st' = sval4 st /\ sgood4 st'
  else step4 g st op = Err ETestFailed.
Proof. exact step4_test_absent. Qed.
Print Assumptions C18_test_absent.

(* ---- the THIRD deviation, found by the correspondence harness and observed on the package
   (V4NullWalk.v): it is NOT covered by the simulation but excluded by hypothesis (copy_clean4 for one
   copy, no_null_copy4 for a run: a boolean that evaluates the model).  The value null of an add /
   replace is a node with a nil raw message (raw_nil4); deepCopy stores for it the raw TEXT null
   (raw_null4), which is outside the invariant: findObject enters it (intoDoc unmarshals null into the
   nil map) where RFC 6902 says the path does not exist.  Nulls of the document, nulls inside composite
   values and absent members are nil nodes and ARE covered. ---- *)
Theorem C18_null_copy_outside_invariant : forall g, fst (deep_copy4 g raw_nil4) = raw_null4 /\ ~ ngood4 raw_null4.
Proof. exact deep_copy4_raw_nil. Qed.
Print Assumptions C18_null_copy_outside_invariant.

(* a patch without copy satisfies the hypothesis in every state; so does a copy of an absent member *)
Theorem C18_no_copy_is_clean : forall g p, Forall (fun op => op_kind op <> KCopy) p -> forall st, no_null_copy4 g st p = true.
Proof. exact no_copy_no_null_copy4. Qed.
Print Assumptions C18_no_copy_is_clean.

Theorem C18_copy_of_absent_is_clean : forall g st op rf r,
  sgood4 st ->
  op_str op (B "from") = Ok (x2f :: rf) -> Forall tok_dom4 (map decode_token (split_slash rf)) ->
  op_str op (B "path") = Ok (x2f :: r) -> Forall tok_dom4 (map decode_token (split_slash r)) ->
  get_at (d4 g) (ptoks rf) (sval4 st) = Rfc6902.Fail FMissingMember -> copy_clean4 g st op.
Proof. exact copy_clean4_absent. Qed.
Print Assumptions C18_copy_of_absent_is_clean.

(* the deviation itself: add null, copy it, test below the copy.  The reference stops at operation 2
   (the path goes through null), the package succeeds; the hypothesis no_null_copy4 is false here and
   no_deviation (the first two deviations) does not see it *)
Definition C18_dv_doc := B "{""b"":1}".
Definition C18_dv_patch := B "[{""op"":""add"",""path"":""/b"",""value"":null},{""op"":""copy"",""from"":""/b"",""path"":""/n""},{""op"":""test"",""path"":""/n/x"",""value"":null}]".
Definition C18_dv_t : tjson := match parse C18_dv_doc with Some t => t | None => TNull end.
Definition C18_dv_p : list operation := match api_decode4 C18_dv_patch with Some p => p | None => [] end.
Example C18_null_copy_deviation :
  rfc_apply (d4 (mkOpts4 true 0 None)) (den C18_dv_t) (map den_op C18_dv_p) = Failed 2 FUnreachable /\
  api_apply4 (mkOpts4 true 0 None) [] C18_dv_p C18_dv_doc = Out4 (B "{""b"":null,""n"":null}") /\
  no_deviation (d4 (mkOpts4 true 0 None)) (den C18_dv_t) (map den_op C18_dv_p) = true /\
  (forall c, api_start4 C18_dv_t = Some c -> no_null_copy4 (mkOpts4 true 0 None) (mkState4 c 0) C18_dv_p = false).
Proof.
  split; [vm_compute; reflexivity|]. split; [vm_compute; reflexivity|]. split; [vm_compute; reflexivity|].
  intros c Hc. vm_compute in Hc. inversion Hc; subst c. vm_compute. reflexivity.
Qed.

(* the reference does not depend on member order: related documents give related results and the
   same failure causes *)
Theorem C18_reference_respects_order : forall d a b o, rop_ok o -> veq a b -> req (rfc4_step d a o) (rfc4_step d b o).
Proof. exact rfc4_step_veq. Qed.
Print Assumptions C18_reference_respects_order.

(* whole patches, all six operations, on states: for a patch that avoids the deviations the loop
   ends exactly as RFC 6902 says: success with the RFC document up to member order and the index
   past the last operation, or the first failing operation's index with the corresponding error *)
Theorem C18_apply_patch : forall g p i st doc,
  g_limit g = 0%Z -> sgood4 st -> veq (sval4 st) doc -> Forall op_dom4 p ->
  no_deviation (d4 g) doc (map den_op p) = true -> no_null_copy4 g st p = true ->
  match rfc_apply_from (d4 g) i doc (map den_op p) with
  | Done doc' => exists st', apply4_from g i st p = (Ok st', (i + length p)%nat) /\ veq (sval4 st') doc' /\ sgood4 st'
  | Failed j cz => exists e, apply4_from g i st p = (Err e, j) /\ cause_rel cz e
  end.
Proof. exact apply4_rfc. Qed.
Print Assumptions C18_apply_patch.

(* Apply on bytes.  Domain: root object/array without duplicate names, strings plain (no escapes,
   no < > &), names as the scanner accepts them (tkeys; implied by Codec.tsb); operations in
   op_dom4; the patch avoids the deviations (true of every patch RFC 6902 evaluates successfully,
   C18_applicable_no_deviation); no copy-size limit *)
Theorem C18_apply_refines_rfc : forall g indent p doc t,
  g_limit g = 0%Z ->
  parse doc = Some t -> root_container t = true -> tnodup t = true -> tplain t -> tkeys t ->
  Forall op_dom4 p -> no_deviation (d4 g) (den t) (map den_op p) = true ->
  (forall c, api_start4 t = Some c -> no_null_copy4 g (mkState4 c 0) p = true) ->
  match rfc_apply (d4 g) (den t) (map den_op p) with
  | Done j => exists n, api_apply4 g indent p doc = Out4 (output4 indent (render4 n)) /\ veq (aval4 n) j /\ ngood4 n
  | Failed i cz => exists e, api_apply4 g indent p doc = Err4 (Some i) e /\ cause_rel cz e
  end.
Proof. exact api_apply4_sim. Qed.
Print Assumptions C18_apply_refines_rfc.

(* the hypothesis on the run follows from a boolean on the bytes that is part of the model file
   (ImplV4.api_no_null_copy4) *)
Theorem C18_clean_run_from_bytes : forall g p doc t,
  parse doc = Some t -> root_container t = true -> api_no_null_copy4 g p doc = true ->
  forall c, api_start4 t = Some c -> no_null_copy4 g (mkState4 c 0) p = true.
Proof. exact api_no_null_copy4_start. Qed.
Print Assumptions C18_clean_run_from_bytes.

(* without copy the result is the RFC document exactly (member order as RFC 6902 in Rfc6902.v) *)
Theorem C18_apply_refines_rfc_exact : forall g indent p doc t,
  parse doc = Some t -> root_container t = true -> tnodup t = true -> tplain t -> tkeys t ->
  Forall op_dom4 p -> no_copy p -> no_deviation (d4 g) (den t) (map den_op p) = true ->
  match rfc_apply (d4 g) (den t) (map den_op p) with
  | Done j => exists n, api_apply4 g indent p doc = Out4 (output4 indent (render4 n)) /\ aval4 n = j /\ ngood4 n
  | Failed i cz => exists e, api_apply4 g indent p doc = Err4 (Some i) e /\ cause_rel cz e
  end.
Proof. exact api_apply4_sim_nocopy. Qed.
Print Assumptions C18_apply_refines_rfc_exact.

(* every patch the reference evaluates successfully avoids the deviations; so does every patch
   whose first failure is not an absent member *)
Theorem C18_applicable_no_deviation : forall d p i doc j,
  rfc_apply_from d i doc p = Done j -> no_deviation d doc p = true.
Proof. exact done_no_deviation. Qed.
Print Assumptions C18_applicable_no_deviation.

Theorem C18_failed_no_deviation : forall d p i doc j cz,
  rfc_apply_from d i doc p = Failed j cz -> cz <> FMissingMember -> no_deviation d doc p = true.
Proof. exact failed_no_deviation. Qed.
Print Assumptions C18_failed_no_deviation.

(* names the scanner accepts satisfy the name condition *)
Theorem C18_names_ok : forall t, tsb t -> tkeys t.
Proof. exact tsb_tkeys. Qed.
Print Assumptions C18_names_ok.

(* non-vacuity of the simulation theorem: a document and a patch with all six operations, a
   negative index, "-", a test of an absent member, a copy of a parsed object: every hypothesis of
   C18_apply_refines_rfc holds, and its conclusion is the success branch *)
Definition C18_exdoc := B "{""a"":{""y"":1,""x"":""hi""},""b"":[1,2]}".
Definition C18_expatch := B "[{""op"":""add"",""path"":""/b/-"",""value"":{""k"":null}},{""op"":""copy"",""from"":""/a"",""path"":""/c""},{""op"":""test"",""path"":""/c"",""value"":{""x"":""hi"",""y"":1}},{""op"":""replace"",""path"":""/b/0"",""value"":7},{""op"":""move"",""from"":""/a/y"",""path"":""/z""},{""op"":""remove"",""path"":""/b/-1""},{""op"":""test"",""path"":""/q"",""value"":null}]".
Definition C18_ext : tjson := match parse C18_exdoc with Some t => t | None => TNull end.
Definition C18_exp : list operation := match api_decode4 C18_expatch with Some p => p | None => [] end.

Lemma C18_ex_dom : Forall op_dom4 C18_exp.
Proof. apply (V4Domain.decoded_op_dom4 C18_expatch); vm_compute; reflexivity. Qed.

(* the run of the example hands no operation value null to deepCopy *)
Lemma C18_ex_clean : forall c, api_start4 C18_ext = Some c -> no_null_copy4 (mkOpts4 true 0 None) (mkState4 c 0) C18_exp = true.
Proof. intros c Hc. vm_compute in Hc. inversion Hc; subst c. vm_compute. reflexivity. Qed.

(* the example lies in the domain of the simulation theorems, and the reference evaluates it *)
Lemma C18_ex_in_domain :
  parse C18_exdoc = Some C18_ext /\ root_container C18_ext = true /\ tnodup C18_ext = true /\ tplain C18_ext /\ tkeys C18_ext /\
  no_deviation (d4 (mkOpts4 true 0 None)) (den C18_ext) (map den_op C18_exp) = true /\
  rfc_apply (d4 (mkOpts4 true 0 None)) (den C18_ext) (map den_op C18_exp) =
    Done (den (match parse (B "{""a"":{""x"":""hi""},""b"":[7,2],""c"":{""y"":1,""x"":""hi""},""z"":1}") with Some t => t | None => TNull end)).
Proof.
  assert (P : parse C18_exdoc = Some C18_ext) by (vm_compute; reflexivity).
  split; [exact P|]. split; [reflexivity|]. split; [vm_compute; reflexivity|].
  split; [vm_compute; repeat split|]. split; [exact (tsb_tkeys _ (StrInv.parse_tsb _ _ P))|]. split; vm_compute; reflexivity.
Qed.

Example C18_sim_nonvacuous :
  exists n, api_apply4 (mkOpts4 true 0 None) [] C18_exp C18_exdoc = Out4 (output4 [] (render4 n)) /\
            veq (aval4 n) (den (match parse (B "{""a"":{""x"":""hi""},""b"":[7,2],""c"":{""y"":1,""x"":""hi""},""z"":1}") with Some t => t | None => TNull end)) /\
            ngood4 n.
Proof.
  destruct C18_ex_in_domain as [P [RC [T [Pl [K [ND R]]]]]].
  pose proof (C18_apply_refines_rfc (mkOpts4 true 0 None) [] C18_exp C18_exdoc C18_ext eq_refl P RC T Pl K C18_ex_dom ND C18_ex_clean) as H.
  rewrite R in H. exact H.
Qed.
Print Assumptions C18_sim_nonvacuous.

(* ---- byte-level output (V4OutputFacts.v): the bytes the legacy Apply / ApplyIndent return ---- *)
From JP Require Import Scan PrintParse OutputFacts V4OutputFacts.

(* the invariant: every raw message held by the legacy state is made of tokens the reader accepts;
   kept by every operation, for ARBITRARY operations, paths and package variables *)
Theorem C18_step_keeps_tokens : forall g st op st',
  stok4 st -> op_tok op -> step4 g st op = Ok st' -> stok4 st'.
Proof. exact step4_ntok. Qed.
Print Assumptions C18_step_keeps_tokens.

Theorem C18_decoded_patch_tokens : forall bs p, api_decode4 bs = Some p -> Forall op_tok p.
Proof. exact api_decode4_tok. Qed.
Print Assumptions C18_decoded_patch_tokens.

(* every parsed document, every patch whose values are tokens (every decoded patch), every setting of
   the package variables, every indent: the output is output4 of the result tree, which is made of
   tokens; if it nests at most max_depth deep and the indent is white space, the bytes are a JSON
   text that reads back as (the HTML-escaped spelling of) that tree, with the same value; and
   ApplyIndent's output is Indent of Apply's *)
Theorem C18_output_general : forall g indent p doc t out,
  parse doc = Some t -> Forall op_tok p -> api_apply4 g indent p doc = Out4 out ->
  exists tr, result4_tree g p t = Some tr /\ out = output4 indent tr /\ tok tr /\ root_shape tr /\
    ((Text.tdepth tr <= max_depth)%N ->
       (wsb indent = true ->
          parse out = Some (escape_tree true tr) /\ valid_gen out = true /\
          exists t', parse out = Some t' /\ den t' = den tr) /\
       (indent <> [] -> exists out0, api_apply4 g [] p doc = Out4 out0 /\ indent_go indent out0 = Some out)).
Proof. exact api_apply4_output_general. Qed.
Print Assumptions C18_output_general.

(* the tree written for a good node nests as deep as the value it denotes; values equal up to member
   order nest equally deep *)
Theorem C18_render_depth : forall n, ngood4 n -> Text.tdepth (render4 n) = odepth (aval4 n).
Proof. exact render4_depth. Qed.
Print Assumptions C18_render_depth.

Theorem C18_depth_respects_order : forall a b, veq a b -> odepth a = odepth b.
Proof. exact veq_depth. Qed.
Print Assumptions C18_depth_respects_order.

(* in the domain of C18_apply_refines_rfc, for patches whose values are tokens and a white-space
   indent: if the RFC 6902 result nests at most max_depth deep, the bytes returned are a JSON text
   that parses to a value without duplicate names equal, up to member order, to the RFC 6902 result *)
Theorem C18_apply_output_bytes : forall g indent p doc t,
  g_limit g = 0%Z ->
  parse doc = Some t -> root_container t = true -> tnodup t = true -> tplain t -> tkeys t ->
  Forall op_dom4 p -> Forall op_tok p -> no_deviation (d4 g) (den t) (map den_op p) = true ->
  (forall c, api_start4 t = Some c -> no_null_copy4 g (mkState4 c 0) p = true) ->
  wsb indent = true ->
  match rfc_apply (d4 g) (den t) (map den_op p) with
  | Done j =>
      (odepth j <= max_depth)%N ->
      exists out t', api_apply4 g indent p doc = Out4 out /\ parse out = Some t' /\
                     jeq (den t') j = true /\ onodup (den t') = true /\ valid_gen out = true /\
        (indent <> [] -> exists out0, api_apply4 g [] p doc = Out4 out0 /\ indent_go indent out0 = Some out)
  | Failed i cz => exists e, api_apply4 g indent p doc = Err4 (Some i) e /\ cause_rel cz e
  end.
Proof. exact api_apply4_output_bytes. Qed.
Print Assumptions C18_apply_output_bytes.

Theorem C18_apply_output_rfc : forall g indent p doc t j,
  g_limit g = 0%Z ->
  parse doc = Some t -> root_container t = true -> tnodup t = true -> tplain t -> tkeys t ->
  Forall op_dom4 p -> Forall op_tok p -> no_deviation (d4 g) (den t) (map den_op p) = true ->
  (forall c, api_start4 t = Some c -> no_null_copy4 g (mkState4 c 0) p = true) ->
  wsb indent = true ->
  rfc_apply (d4 g) (den t) (map den_op p) = Done j -> (odepth j <= max_depth)%N ->
  exists out t', api_apply4 g indent p doc = Out4 out /\ parse out = Some t' /\ veq (den t') j /\ valid_gen out = true.
Proof. exact api_apply4_output_rfc. Qed.
Print Assumptions C18_apply_output_rfc.

Lemma C18_ex_tokens : Forall op_tok C18_exp.
Proof. apply (api_decode4_tok C18_expatch). vm_compute. reflexivity. Qed.

(* non-vacuity: the document and patch of C18_sim_nonvacuous, indented with two spaces *)
Example C18_output_nonvacuous :
  exists out t', api_apply4 (mkOpts4 true 0 None) (B "  ") C18_exp C18_exdoc = Out4 out /\ parse out = Some t' /\
    veq (den t') (den (match parse (B "{""a"":{""x"":""hi""},""b"":[7,2],""c"":{""y"":1,""x"":""hi""},""z"":1}") with Some t => t | None => TNull end)) /\
    valid_gen out = true.
Proof.
  destruct C18_ex_in_domain as [P [RC [T [Pl [K [ND R]]]]]].
  apply (C18_apply_output_rfc (mkOpts4 true 0 None) (B "  ") C18_exp C18_exdoc C18_ext _ eq_refl P RC T Pl K C18_ex_dom
           C18_ex_tokens ND C18_ex_clean eq_refl R).
  vm_compute. intro H; discriminate H.
Qed.
Print Assumptions C18_output_nonvacuous.

Example C18_nonvacuous :
  match api_decode4 (B "[{""op"":""add"",""path"":""/a/-"",""value"":3},{""op"":""copy"",""from"":""/a"",""path"":""/b""},{""op"":""remove"",""path"":""/a/-3""},{""op"":""test"",""path"":""/b"",""value"":[1,2,3]}]") with
  | Some p => api_apply4 (mkOpts4 true 0 None) [] p (B "{""z"":1.50,""a"":[1,2]}") = Out4 (B "{""a"":[2,3],""b"":[1,2,3],""z"":1.50}")
  | None => False
  end.
Proof. vm_compute. reflexivity. Qed.

(* ---- the main theorems applied.  C18_sim_nonvacuous above applies C18_apply_refines_rfc and
   C18_output_nonvacuous applies C18_apply_output_rfc; here every hypothesis of C18_apply_output_bytes (the
   strongest byte-level statement: value equal up to member order AND no repeated name in what is read back)
   is discharged on the same document and seven-operation patch (all six kinds, a negative index, "-", a
   test of an absent member, a copy of a parsed object), indent of two spaces; the reference run is Done,
   its result nests 3 deep. ---- *)
Definition C18_ex_result : ojson :=
  den (match parse (B "{""a"":{""x"":""hi""},""b"":[7,2],""c"":{""y"":1,""x"":""hi""},""z"":1}") with Some t => t | None => TNull end).

Example C18_main_theorem_applies :
  exists out t', api_apply4 (mkOpts4 true 0 None) (B "  ") C18_exp C18_exdoc = Out4 out /\ parse out = Some t' /\
                 jeq (den t') C18_ex_result = true /\ onodup (den t') = true /\ valid_gen out = true /\
    exists out0, api_apply4 (mkOpts4 true 0 None) [] C18_exp C18_exdoc = Out4 out0 /\ indent_go (B "  ") out0 = Some out.
Proof.
  destruct C18_ex_in_domain as [P [RC [T [Pl [K [ND R]]]]]].
  pose proof (C18_apply_output_bytes (mkOpts4 true 0 None) (B "  ") C18_exp C18_exdoc C18_ext eq_refl P RC T Pl K C18_ex_dom
                C18_ex_tokens ND C18_ex_clean eq_refl) as H.
  rewrite R in H. destruct H as [out [t' [H1 [H2 [H3 [H4 [H5 H6]]]]]]]; [vm_compute; discriminate|].
  exists out, t'. split; [exact H1|]. split; [exact H2|]. split; [exact H3|]. split; [exact H4|]. split; [exact H5|].
    apply H6. discriminate.
Qed.
Print Assumptions C18_main_theorem_applies.

(* ---- the index arithmetic of the legacy partialArray.get/set/add/remove RE-TRANSLATED from the root
   patch.go on every run (tools/goidx4v -> gen/IndexGen4.v: Go int arithmetic with 64-bit wrap-around, a
   bounds test before every index and slice expression) and proved equal to the model (IndexTie4.v) for
   every token, both settings of SupportNegativeIndices and every array shorter than 2^63 ---- *)
From JP Require IndexTie4.
From JP.gen Require IndexGen4.

Theorem C18_go_get_is_model : forall g ns key,
  (zlen ns <= int64_max)%Z ->
  con4_get g (DAry ns) key =
  IndexTie4.res_node4 ns (IndexGen4.idx4_get_gen (g_neg g) (zlen ns) (atoi key) (bseq key)).
Proof. exact IndexTie4.con4_get_tie. Qed.
Print Assumptions C18_go_get_is_model.

Theorem C18_go_set_is_model : forall g ns key v,
  (zlen ns <= int64_max)%Z ->
  con4_set g (DAry ns) key v =
  IndexTie4.res_con4 ns v (IndexGen4.idx4_set_gen (g_neg g) (zlen ns) (atoi key) (bseq key)).
Proof. exact IndexTie4.con4_set_tie. Qed.
Print Assumptions C18_go_set_is_model.

Theorem C18_go_add_is_model : forall g ns key v,
  (zlen ns < int64_max)%Z ->
  con4_add g (DAry ns) key v =
  IndexTie4.res_con4 ns v (IndexGen4.idx4_add_gen (g_neg g) (zlen ns) (atoi key) (bseq key)).
Proof. exact IndexTie4.con4_add_tie. Qed.
Print Assumptions C18_go_add_is_model.

Theorem C18_go_remove_is_model : forall g ns key,
  (zlen ns <= int64_max)%Z ->
  con4_remove g (DAry ns) key =
  IndexTie4.res_con4 ns NNil (IndexGen4.idx4_remove_gen (g_neg g) (zlen ns) (atoi key) (bseq key)).
Proof. exact IndexTie4.con4_remove_tie. Qed.
Print Assumptions C18_go_remove_is_model.

(* the legacy set indexes out of range exactly for idx >= len — and replace, its only caller, asks get first *)
Theorem C18_set_panics_iff : forall g ns key v,
  con4_set g (DAry ns) key v = Panic <-> exists idx, atoi key = Some idx /\ (zlen ns <= idx)%Z.
Proof. exact IndexTie4.con4_set_panic_iff. Qed.
Print Assumptions C18_set_panics_iff.

Theorem C18_replace_never_reaches_it : forall g v c key, fst (IndexTie4.replace4_body g v c key) <> Panic.
Proof. exact IndexTie4.replace4_body_never_panics. Qed.
Print Assumptions C18_replace_never_reaches_it.

Theorem C18_replace_is_that_body : forall g st op b r,
  op_kind op = KReplace -> op_str op (B "path") = Ok (b :: r) ->
  step4 g st op =
  lift4 (find4 g (r4 st) (b :: r)
           (IndexTie4.replace4_body g (match op_value4 op with Some v => v | None => NNil end))) st
        (fun _ c2 => Ok (mkState4 c2 (acc4 st))).
Proof. exact IndexTie4.step4_replace_is_body. Qed.
Print Assumptions C18_replace_is_that_body.

(* ---- outputs are valid UTF-8 given UTF-8 input (Utf8Out.v), legacy Apply / ApplyIndent ---- *)
From JP Require Utf8Out.
Theorem C18_apply_output_utf8 : forall g indent p doc out,
  Utf8Out.utf8_text doc -> Forall Utf8Out.op_utf8 p -> Utf8Out.utf8_text indent ->
  api_apply4 g indent p doc = Out4 out -> Utf8Out.utf8_text out.
Proof. exact Utf8Out.api_apply4_utf8. Qed.
Print Assumptions C18_apply_output_utf8.
