(* TestTransparent.v — C15, the byte-identity clause for passing test operations:
   "test operations that pass leave the output bytes identical to those of the same patch without
   them", over documents (and operation values) whose strings and member names are spelled as the
   encoder itself spells them (Domain.canonical_spelling).

   Route:
   1. reference level (Rfc6902): a test operation that succeeds returns the document unchanged, so a
      patch that runs to the end runs to the same end without its tests (and copies_fit is kept).
   2. cenc esc : ojson -> tjson, the encoder's own spelling of a decoded value; for a node whose raw
      messages are canonically spelled (ncanon) and have no duplicate names (nwf) the tree Apply
      encodes is a function of the VALUE alone: render esc n = cenc esc (aval n).
   3. ncanon is an invariant of the engine: OutputFacts.RawInv (generic in the predicate on raw
      messages) for add/remove/replace/move/test, for every options record and arbitrary paths;
      for copy (deepCopy re-encodes: needs valid UTF-8 names, StrInv.nstr) in the domain of the
      simulation.
   4. hence, in the domain of ApplySim.api_apply_sim, Apply's bytes ARE output (cenc (RFC 6902 result)),
      and the bytes with and without the passing tests are the same.
   5. the spelling hypothesis is needed: a member name spelled with an escaped solidus below the
      top level is re-spelled by a passing test (Example spelling_hypothesis_needed). *)
From Coq Require Import Lia.
From JP Require Import Bytes Json Text Strings Den Pointer Rfc6902 ImplV5 DecodeFacts JsonFacts Abs EqualFacts
                       ImplFacts RefFacts ApplyFacts Codec StrInv Depth ApplySim Domain Totality OutputFacts.

(* ================================================================================================ *)
(* 1. the reference: a test that succeeds changes nothing                                            *)
(* ================================================================================================ *)
Lemma test_leaf_id d v p t p' : test_leaf d v p t = ROk p' -> p' = p.
Proof.
  unfold test_leaf. destruct p as [| | | |l|ms]; try discriminate.
  - destruct (idx_existing d (Rfc6902.zlen l) t); [|discriminate].
    destruct (jeq _ v); [|discriminate]. intro H; inversion H; reflexivity.
  - destruct (jeq _ v); [|discriminate]. intro H; inversion H; reflexivity.
Qed.

Lemma at_parent_id d (f : ojson -> bytes -> Rfc6902.res ojson) :
  (forall p t p', f p t = ROk p' -> p' = p) ->
  forall toks j j', at_parent d toks j f = ROk j' -> j' = j.
Proof.
  intro Hf. induction toks as [|t rest IH]; intros j j'; [discriminate|].
  destruct rest as [|t2 rest].
  - cbn [at_parent]. apply Hf.
  - rewrite at_parent_cons. destruct (child_at d j t) as [c|] eqn:E; [|discriminate].
    destruct (at_parent d (t2 :: rest) c f) as [c'|cz] eqn:A; [|discriminate].
    cbn [bind]. intro H; inversion H; subst j'. rewrite (IH _ _ A). apply put_child_same. exact E.
Qed.

Theorem rfc_test_id d j r j' : rkind r = OpTest -> rfc_step d j r = ROk j' -> j' = j.
Proof.
  intro K. unfold rfc_step. rewrite K. destruct (ptr_tokens (rpath r)) as [toks|]; [|discriminate].
  destruct toks as [|t toks].
  - destruct (jeq j _); [|discriminate]. intro H; inversion H; reflexivity.
  - apply at_parent_id. intros p t0 p'. apply test_leaf_id.
Qed.

Definition not_test (op : operation) : bool := match op_kind op with KTest => false | _ => true end.

Lemma not_test_false op : not_test op = false -> rkind (den_op op) = OpTest.
Proof. unfold not_test, den_op. cbn [rkind]. destruct (op_kind op); try discriminate; reflexivity. Qed.

(* a run that reaches the end reaches the same end without its tests; the side condition on copies
   is kept (the documents the remaining operations see are the same) *)
Theorem rfc_without_tests d : forall p i i' j r,
  rfc_apply_from d i j (map den_op p) = Done r ->
  rfc_apply_from d i' j (map den_op (filter not_test p)) = Done r /\
  (copies_fit d j (map den_op p) = true -> copies_fit d j (map den_op (filter not_test p)) = true).
Proof.
  induction p as [|op p IH]; intros i i' j r; cbn [map filter rfc_apply_from copies_fit].
  - intro H. split; [exact H | reflexivity].
  - destruct (rfc_step d j (den_op op)) as [j1|cz] eqn:St; [|discriminate]. intro H.
    destruct (not_test op) eqn:N.
    + cbn [map rfc_apply_from copies_fit]. rewrite St. destruct (IH (S i) (S i') j1 r H) as [I1 I2]. split; [exact I1|].
      intro F. apply andb_prop in F as [F1 F2]. rewrite F1. cbn [andb]. apply I2. exact F2.
    + pose proof (rfc_test_id d j (den_op op) j1 (not_test_false op N) St) as E. subst j1.
      destruct (IH (S i) i' j r H) as [I1 I2]. split; [exact I1|].
      intro F. apply andb_prop in F as [_ F2]. apply I2. exact F2.
Qed.

(* ================================================================================================ *)
(* 2. the encoder's own spelling of a value                                                          *)
(* ================================================================================================ *)
Fixpoint cenc (esc : bool) (j : ojson) : tjson :=
  match j with
  | ONull => TNull
  | OBool b => if b then TTrue else TFalse
  | ONum lit => TNum lit
  | OStr s => TStr (quote esc s)
  | OArr l => TArr (map (cenc esc) l)
  | OObj ms => TObj (map (fun kv => (quote esc (fst kv), cenc esc (snd kv))) ms)
  end.

Definition csp (esc : bool) (t : tjson) : Prop := canonical_spelling esc t = true.

Lemma csp_null esc : csp esc TNull. Proof. reflexivity. Qed.

Lemma csp_arr esc l : csp esc (TArr l) -> Forall (csp esc) l.
Proof. unfold csp. cbn [canonical_spelling]. rewrite forallb_forall, Forall_forall. auto. Qed.

Lemma csp_obj_full esc ms : csp esc (TObj ms) ->
  Forall (fun kv => quote esc (unquote (fst kv)) = fst kv /\ csp esc (snd kv)) ms.
Proof.
  unfold csp. cbn [canonical_spelling]. rewrite forallb_forall, Forall_forall. intros H kv Hk.
  specialize (H kv Hk). apply andb_prop in H as [H1 H2]. split; [apply bseq_eq; exact H1 | exact H2].
Qed.

Lemma csp_obj esc ms : csp esc (TObj ms) -> Forall (fun kv => csp esc (snd kv)) ms.
Proof. intro H. apply csp_obj_full in H. revert H. apply Forall_impl. intros kv [_ H]. exact H. Qed.

Lemma csp_str esc b : csp esc (TStr b) -> quote esc (unquote b) = b.
Proof. unfold csp. cbn [canonical_spelling]. apply bseq_eq. Qed.

(* a canonically spelled text without duplicate names IS the encoding of its value *)
Theorem csp_cenc esc t : csp esc t -> tnodup t = true -> t = cenc esc (den t).
Proof.
  induction t as [| | |lit|b|l IH|ms IH] using tjson_rect'; intros C T; try reflexivity.
  - cbn [den cenc]. now rewrite (csp_str esc b C).
  - cbn [den cenc]. f_equal. rewrite map_map. apply csp_arr in C. apply tnodup_arr in T.
    rewrite Forall_forall in IH, C, T. rewrite <- (map_id l) at 1. apply map_ext_in. intros x Hx. apply (IH x Hx); auto.
  - rewrite (den_obj_nodup ms T). cbn [cenc]. f_equal. unfold den_members. rewrite map_map. cbn [fst snd].
    apply csp_obj_full in C. apply tnodup_obj in T as [_ T].
    rewrite Forall_forall in IH, C, T. rewrite <- (map_id ms) at 1. apply map_ext_in. intros [k v] Hk.
    destruct (C _ Hk) as [C1 C2]. cbn [fst snd] in *. rewrite C1. f_equal. apply (IH _ Hk); [exact C2 | exact (T _ Hk)].
Qed.

(* nodes whose raw messages are canonically spelled *)
Definition ncanon (esc : bool) : node -> Prop := nall (csp esc).
Definition scanon (esc : bool) : state -> Prop := sall (csp esc).
Definition op_canon (esc : bool) : operation -> Prop := op_all (csp esc).

(* the tree Apply encodes is a function of the value of the node *)
Theorem render_cenc esc n : ncanon esc n -> nwf n -> render esc n = cenc esc (aval n).
Proof.
  induction n as [|t|keys obj IH|ns IH] using node_rect'; intros C W.
  - reflexivity.
  - cbn [render aval]. apply csp_cenc; [exact C | exact W].
  - apply (nall_doc (csp esc) keys obj) in C. apply nwf_doc in W as [_ W]. rewrite render_doc, aval_doc. cbn [cenc]. f_equal.
    unfold abs_members. rewrite map_map. cbn [fst snd]. apply map_ext. intro k. f_equal.
    destruct (aget k obj) as [v|] eqn:E; cbn [option_map or_null]; [|reflexivity].
    apply aget_In in E. rewrite Forall_forall in IH, C, W. apply (IH _ E); [exact (C _ E) | exact (W _ E)].
  - apply (nall_ary (csp esc) ns) in C. apply nwf_ary in W. cbn [render aval cenc]. f_equal. rewrite map_map.
    rewrite Forall_forall in IH, C, W. apply map_ext_in. intros x Hx. apply (IH x Hx); [exact (C x Hx) | exact (W x Hx)].
Qed.

Corollary render_value_only esc n n' :
  ncanon esc n -> ncanon esc n' -> nwf n -> nwf n' -> aval n = aval n' -> render esc n = render esc n'.
Proof. intros C C' W W' E. rewrite !render_cenc by assumption. now rewrite E. Qed.

(* ================================================================================================ *)
(* 3. canonical spelling is an invariant of the engine                                               *)
(* ================================================================================================ *)
(* ---- what deepCopy stores: HTML escaping does not change what the encoder wrote ---- *)
Lemma esc_body_quote esc k : esc_body esc (quote esc k) = quote esc k.
Proof. destruct esc; [apply he_quote | reflexivity]. Qed.

Lemma esc_body_canonical esc b : quote esc (unquote b) = b -> esc_body esc b = b.
Proof. intros E. rewrite <- E. apply esc_body_quote. Qed.

Lemma escape_tree_canonical esc t : csp esc t -> escape_tree esc t = t.
Proof.
  induction t as [| | |lit|b|l IH|ms IH] using tjson_rect'; intros C; rewrite escape_tree_eq; try reflexivity.
  - f_equal. apply esc_body_canonical, csp_str, C.
  - f_equal. apply csp_arr in C. rewrite Forall_forall in IH, C.
    rewrite <- (map_id l) at 2. apply map_ext_in. intros x Hx. exact (IH x Hx (C x Hx)).
  - f_equal. apply csp_obj_full in C. rewrite Forall_forall in IH, C.
    rewrite <- (map_id ms) at 2. apply map_ext_in. intros [k v] Hk.
    destruct (C _ Hk) as [C1 C2]. cbn [fst snd] in *. f_equal.
    + apply esc_body_canonical, C1.
    + exact (IH _ Hk C2).
Qed.

(* the re-encoding of a node: canonical, provided the names of its parsed objects are valid UTF-8 *)
Theorem csp_enc esc v : nstr v -> ncanon esc v -> csp esc (enc esc v).
Proof.
  induction v as [|t|keys obj IH|ns IH] using node_rect'; intros Sv C.
  - unfold enc. cbn [render]. rewrite escape_tree_eq. reflexivity.
  - unfold enc. cbn [render]. rewrite (escape_tree_canonical esc t C). exact C.
  - apply nstr_doc in Sv as [Uk Ss]. apply (nall_doc (csp esc) keys obj) in C. rewrite enc_doc.
    unfold csp. cbn [canonical_spelling]. apply forallb_forall. intros kv Hkv.
    apply in_map_iff in Hkv as [k [<- Hk]]. cbn [fst snd]. rewrite Forall_forall in IH, Uk, Ss, C.
    rewrite (esc_body_quote esc k), (unquote_quote esc k (Uk k Hk)), bseq_refl. cbn [andb].
    destruct (aget k obj) as [x|] eqn:E; cbn [option_map]; [|reflexivity].
    apply aget_In in E. apply (IH _ E); [exact (proj2 (Ss _ E)) | exact (C _ E)].
  - apply nstr_ary in Sv. apply (nall_ary (csp esc) ns) in C. rewrite enc_ary.
    unfold csp. cbn [canonical_spelling]. apply forallb_forall. intros t Ht.
    apply in_map_iff in Ht as [x [<- Hx]]. rewrite Forall_forall in IH, Sv, C. apply (IH x Hx); [exact (Sv x Hx) | exact (C x Hx)].
Qed.

Lemma ncanon_deep_copy o v : nstr v -> ncanon (o_esc o) v -> ncanon (o_esc o) (fst (deep_copy o v)).
Proof.
  intros Sv C. destruct v; cbn [deep_copy fst]; try exact I;
    apply (nall_raw (csp (o_esc o))); apply (csp_enc (o_esc o)); assumption.
Qed.

(* ---- every operation but copy: any options record, arbitrary paths, any esc ---- *)
Theorem step_canon_nocopy esc o st op st' :
  op_kind op <> KCopy -> scanon esc st -> (op_kind op <> KTest -> op_canon esc op) ->
  step o st op = Ok st' -> scanon esc st'.
Proof.
  intros NC Cs A H.
  exact (post_ok _ _ _ _ _ (step_post (nall_closed _ (csp_arr esc) (csp_obj esc)) (csp_null esc) (within_any _) o st op
           (fun _ => I) (fun _ _ _ _ => I) (fun _ _ => or_intror I) (fun K => match NC K with end) Cs A) H).
Qed.

Lemma find_get_good o c rf v c2 :
  cgood c -> Forall tok_dom (map decode_token (split_slash rf)) ->
  find o c (x2f :: rf) (get_fn o) = (FoundAt (Ok v), c2) -> ngood v /\ cgood c2.
Proof.
  intros G D E. pose proof (find_get_sim o c rf G D) as FG.
  destruct (get_at (dia o) _ (cval c)) as [j|cz].
  - destruct FG as [v' [c2' [F1 [_ [F3 [_ F5]]]]]]. rewrite F1 in E. inversion E; subst. split; assumption.
  - destruct FG as [e [c2' [[F1|[F1 _]] _]]]; rewrite F1 in E; discriminate.
Qed.

Lemma find_unit_good o c r u c2 :
  cgood c -> Forall tok_dom (map decode_token (split_slash r)) ->
  find o c (x2f :: r) unit_fn = (FoundAt u, c2) -> cgood c2.
Proof.
  intros G D E. pose proof (find_unit_sim o c r G D) as FU.
  destruct (descend (dia o) _ (cval c)) as [p|]; [destruct (is_container p)|].
  - destruct FU as [c2' [U1 [_ U3]]]. rewrite U1 in E. inversion E; subst. exact U3.
  - destruct FU as [c2' U1]. rewrite U1 in E. discriminate.
  - destruct FU as [c2' U1]. rewrite U1 in E. discriminate.
Qed.

(* the walks of copy (ApplyFacts.copy_src) keep the spelling: in the container they leave, and in the value found *)
Lemma op_copy_canon o st op st' c :
  s_root st = RCon c -> cgood c -> call (csp (o_esc o)) c ->
  (exists r, op_str op (B "path") = Ok (x2f :: r) /\ Forall tok_dom (map decode_token (split_slash r))) ->
  (exists from, op_str op (B "from") = Ok from /\ (ptr_ok from \/ from = [])) ->
  op_copy o st op = Ok st' -> scanon (o_esc o) st'.
Proof.
  intros Hr G C [r [Hp Dp]] [from [Hf Kf]]. rewrite op_copy_eq, Hf, Hr, Hp. change (list byte) with bytes.
  destruct (ptr_ok_tokens from Kf) as [ftoks Ht]. pose proof (copy_src_sim o c from r ftoks G Ht Kf Dp) as CS.
  destruct (copy_src o c from _) as [[[v c2] path]|e|] eqn:E; try discriminate.
  pose proof (nall_closed (csp (o_esc o)) (csp_arr _) (csp_obj _)) as Cl.
  epose proof (copy_src_post Cl (within_any _) o c from _ C (post_any _)) as CP. rewrite E in CP. destruct CP as (Cv & C2 & _).
  assert (Gv : ngood v /\ path = x2f :: r).
  { destruct (get_at (dia o) ftoks (cval c)); [destruct (dest_reachable (dia o) (cval c) r)|].
    - destruct CS as [v' [c2' [E' [_ [Gv _]]]]]. injection E' as -> -> ->. auto.
    - discriminate CS.
    - destruct CS as [e [E' _]]. discriminate E'. }
  destruct Gv as [Gv ->]. unfold copy_put.
  destruct (copy_too_deep o v); [discriminate|].
  pose proof (ncanon_deep_copy o v (proj2 (proj2 Gv)) Cv) as Hcp. destruct (deep_copy o v) as [cp sz]. cbn [fst] in Hcp.
  destruct ((0 <? o_limit o)%Z && (o_limit o <? s_acc st + sz)%Z); [discriminate|].
  exact (post_ok _ _ _ _ _ (finish_post Cl (within_any _) _ o c2 _ (add_fn o cp) (fun c0 key => add_fn_post Cl (within_any _) o cp c0 key Hcp) C2)).
Qed.

(* ---- one operation, in the domain of the simulation (no condition on the options) ---- *)
Theorem step_canon o st op st' :
  sgood st -> op_dom op -> scanon (o_esc o) st -> (op_kind op <> KTest -> op_canon (o_esc o) op) ->
  step o st op = Ok st' -> scanon (o_esc o) st'.
Proof.
  intros [c [Hr G]] [_ [path [Hp K]]] Cs A.
  destruct (op_kind op) eqn:Ek; try (apply step_canon_nocopy; [rewrite Ek; discriminate | exact Cs | rewrite Ek; exact A]).
  unfold step. rewrite Ek. destruct K as [[r [-> D]] Kf].
  apply (op_copy_canon o st op st' c Hr G).
  - unfold scanon, sall in Cs. rewrite Hr in Cs. exact Cs.
  - exists r. split; [exact Hp | exact D].
  - exact Kf.
Qed.

(* ================================================================================================ *)
(* 4. whole patches: the bytes Apply writes are the encoding of the RFC 6902 result                   *)
(* ================================================================================================ *)
(* the values that are stored: those of every operation but test *)
Definition stored_canon (esc : bool) (op : operation) : Prop := op_kind op <> KTest -> op_canon esc op.

(* the simulation (ApplySim.apply_sim) together with the spelling invariant *)
Theorem apply_sim_canon o : plain_opts o -> forall p i st,
  sgood st -> Forall op_dom p ->
  copies_fit (dia o) (sval st) (map den_op p) = true ->
  scanon (o_esc o) st -> Forall (stored_canon (o_esc o)) p ->
  match rfc_apply_from (dia o) i (sval st) (map den_op p) with
  | Done doc => exists st', apply_from o i st p = AOk st' /\ sval st' = doc /\ sgood st' /\ scanon (o_esc o) st'
  | Failed j cz => exists e, apply_from o i st p = AErr j e /\ cause_rel cz e
  end.
Proof.
  intros PO p i st G D F Cs A.
  apply (apply_from_sim0 o (plain_run (dia o)) (fun st => sgood st /\ scanon (o_esc o) st)
           (fun op => op_dom op /\ stored_canon (o_esc o) op)); [|split; assumption|apply Forall_and; assumption|exact F].
  intros st0 op [G0 Cs0] [Dop Aop] F1. pose proof (step_sim o st0 op G0 PO Dop F1) as Sim. cbn [rr_step plain_run].
  destruct (rfc_step (dia o) (sval st0) (den_op op)) as [j'|cz]; [|exact Sim].
  destruct Sim as [st' [S1 [S2 S3]]]. exists st'. repeat split; auto. exact (step_canon o st0 op st' G0 Dop Cs0 Aop S1).
Qed.

(* Apply on bytes, in the domain of ApplySim.api_apply_sim, for a document and stored values spelled as
   the encoder spells them: the output is a function of the RFC 6902 result alone *)
Theorem api_apply_canonical_bytes o indent p doc t :
  plain_opts o -> parse doc = Some t -> root_container t = true -> tnodup t = true ->
  Forall op_dom p ->
  copies_fit (dia o) (den t) (map den_op p) = true ->
  canonical_spelling (o_esc o) t = true ->
  Forall (stored_canon (o_esc o)) p ->
  match rfc_apply (dia o) (den t) (map den_op p) with
  | Done j => api_apply o indent p doc = ROut (output o indent (cenc (o_esc o) j))
  | Failed i cz => exists e, api_apply o indent p doc = RErr (Some i) e /\ cause_rel cz e
  end.
Proof.
  intros PO Pd RC T D F Ct A. destruct (api_apply_loop o indent p doc t Pd RC T) as [c [L [G [V ->]]]]. rewrite <- V in *.
  pose proof (load_doc_all (csp (o_esc o)) (csp_arr _) (csp_obj _) o t (RCon c) Ct L) as RA.
  pose proof (apply_sim_canon o PO p 0%nat (mkState (RCon c) 0) (sgood_con c _ G) D F RA A) as AS.
  unfold rfc_apply. change (sval (mkState (RCon c) 0)) with (cval c) in AS.
  destruct (rfc_apply_from (dia o) 0 (cval c) (map den_op p)) as [j|i cz].
  - destruct AS as [st' [-> [A2 [G' A5]]]]. destruct (apply_end_ok o indent st' G') as [-> [V' N]].
    rewrite <- A2, <- V'. do 2 f_equal. apply render_cenc; [|exact (proj1 N)].
    destruct G' as [c' [Hr' _]]. unfold scanon, sall in A5. rewrite Hr' in *. exact (proj2 A5).
  - destruct AS as [e [-> A2]]. exists e. auto.
Qed.

Lemma stored_canon_filter esc p : Forall (stored_canon esc) p -> Forall (stored_canon esc) (filter not_test p).
Proof. apply Forall_filter_keep. Qed.

(* test operations that pass leave the output bytes identical to those of the same patch without them *)
Theorem passing_tests_transparent o indent p doc t out :
  plain_opts o -> parse doc = Some t -> root_container t = true -> tnodup t = true ->
  Forall op_dom p ->
  copies_fit (dia o) (den t) (map den_op p) = true ->
  canonical_spelling (o_esc o) t = true ->
  Forall (stored_canon (o_esc o)) p ->
  api_apply o indent p doc = ROut out ->
  api_apply o indent (filter not_test p) doc = ROut out.
Proof.
  intros PO Pd RC T D F Ct A H.
  pose proof (api_apply_canonical_bytes o indent p doc t PO Pd RC T D F Ct A) as B1.
  unfold rfc_apply in B1.
  destruct (rfc_apply_from (dia o) 0 (den t) (map den_op p)) as [j|i cz] eqn:R.
  2:{ destruct B1 as [e [B1 _]]. rewrite B1 in H. discriminate. }
  destruct (rfc_without_tests (dia o) p 0%nat 0%nat (den t) j R) as [R' F'].
  pose proof (api_apply_canonical_bytes o indent (filter not_test p) doc t PO Pd RC T
                (Forall_filter_keep _ _ _ D) (F' F) Ct (stored_canon_filter _ _ A)) as B2.
  unfold rfc_apply in B2. rewrite R' in B2. rewrite B2, <- B1. exact H.
Qed.

(* the other direction: if the patch without its tests has output out, the patch with them has the
   same output, or it fails with an error at some operation (the statement does not say that the
   operation is a test); never other bytes, never a panic *)
Theorem tests_only_pass_or_fail o indent p doc t out :
  plain_opts o -> parse doc = Some t -> root_container t = true -> tnodup t = true ->
  Forall op_dom p ->
  copies_fit (dia o) (den t) (map den_op p) = true ->
  canonical_spelling (o_esc o) t = true ->
  Forall (stored_canon (o_esc o)) p ->
  api_apply o indent (filter not_test p) doc = ROut out ->
  api_apply o indent p doc = ROut out \/ exists i e, api_apply o indent p doc = RErr (Some i) e.
Proof.
  intros PO Pd RC T D F Ct A H.
  pose proof (api_apply_canonical_bytes o indent p doc t PO Pd RC T D F Ct A) as B1.
  unfold rfc_apply in B1.
  destruct (rfc_apply_from (dia o) 0 (den t) (map den_op p)) as [j|i cz] eqn:R.
  2:{ destruct B1 as [e [B1 _]]. right. eauto. }
  left. pose proof (passing_tests_transparent o indent p doc t _ PO Pd RC T D F Ct A B1) as B2.
  rewrite B2 in H. rewrite B1. exact H.
Qed.

(* any two patches in the domain with the same RFC 6902 result produce the same bytes *)
Corollary same_result_same_bytes o indent p q doc t j :
  plain_opts o -> parse doc = Some t -> root_container t = true -> tnodup t = true ->
  Forall op_dom p -> Forall op_dom q ->
  copies_fit (dia o) (den t) (map den_op p) = true -> copies_fit (dia o) (den t) (map den_op q) = true ->
  canonical_spelling (o_esc o) t = true ->
  Forall (stored_canon (o_esc o)) p -> Forall (stored_canon (o_esc o)) q ->
  rfc_apply (dia o) (den t) (map den_op p) = Done j -> rfc_apply (dia o) (den t) (map den_op q) = Done j ->
  api_apply o indent p doc = api_apply o indent q doc.
Proof.
  intros PO Pd RC T Dp Dq Fp Fq Ct Ap Aq Rp Rq.
  pose proof (api_apply_canonical_bytes o indent p doc t PO Pd RC T Dp Fp Ct Ap) as B1. rewrite Rp in B1.
  pose proof (api_apply_canonical_bytes o indent q doc t PO Pd RC T Dq Fq Ct Aq) as B2. rewrite Rq in B2.
  now rewrite B1, B2.
Qed.

(* ---- the same, on the boolean domain the harness evaluates, for a patch produced by DecodePatch ---- *)
From JP Require PointerDomain.

Definition stored_canonb (esc : bool) (op : operation) : bool :=
  match op_kind op with
  | KTest => true
  | _ => match aget (B "value") op with Some (Some t) => canonical_spelling esc t | _ => true end
  end.

Lemma stored_canonb_ok esc op : stored_canonb esc op = true -> stored_canon esc op.
Proof.
  unfold stored_canonb, stored_canon, op_canon, op_all, csp. intros H NT t E. rewrite E in H.
  destruct (op_kind op); try exact H. congruence.
Qed.

Theorem passing_tests_transparent_decoded o indent patch p doc t out :
  plain_opts o ->
  api_decode patch = Some p -> in_domain_C01 p = true -> forallb PointerDomain.op_small p = true ->
  parse doc = Some t -> root_container t = true -> tnodup t = true ->
  copies_fit (dia o) (den t) (map den_op p) = true ->
  canonical_spelling (o_esc o) t = true -> forallb (stored_canonb (o_esc o)) p = true ->
  api_apply o indent p doc = ROut out ->
  api_apply o indent (filter not_test p) doc = ROut out.
Proof.
  intros PO Dc D Sm Pd RC T F Ct A. apply passing_tests_transparent with (t := t); auto.
  - eapply PointerDomain.decoded_in_domain_op_dom; eauto.
  - rewrite forallb_forall in A. apply Forall_forall. intros op Hin. apply stored_canonb_ok. apply A. exact Hin.
Qed.

(* ================================================================================================ *)
(* 5. the spelling hypothesis is needed; the theorem is not vacuous                                   *)
(* ================================================================================================ *)
Definition tt_opts (esc : bool) : opts := mkOpts false 0 false false esc [] None.

(* a member name below the top level spelled with an escaped solidus (which the encoder never writes):
   the passing test parses the object and the encoder re-spells the name.  Every other hypothesis of
   passing_tests_transparent_decoded holds. *)
Definition ex1_doc : bytes := B "{""a"":{""\/"":1}}".
Definition ex1_patch : bytes := B "[{""op"":""test"",""path"":""/a"",""value"":{""/"":1}}]".

Example spelling_hypothesis_needed :
  match api_decode ex1_patch, parse ex1_doc with
  | Some p, Some t =>
      api_apply (tt_opts false) [] p ex1_doc = ROut (B "{""a"":{""/"":1}}") /\
      api_apply (tt_opts false) [] (filter not_test p) ex1_doc = ROut (B "{""a"":{""\/"":1}}") /\
      in_domain_C01 p = true /\ forallb PointerDomain.op_small p = true /\
      root_container t = true /\ tnodup t = true /\
      copies_fit (dia (tt_opts false)) (den t) (map den_op p) = true /\
      forallb (stored_canonb false) p = true /\
      canonical_spelling false t = false
  | _, _ => False
  end.
Proof. vm_compute. repeat split; reflexivity. Qed.

(* the same with an upper-case hex escape: the name is the control character U+001F, spelled
   backslash u 0 0 1 F in the document; the encoder writes backslash u 0 0 1 f *)
Definition ex2_name_upper : bytes := [x5c; x75; x30; x30; x31; x46].
Definition ex2_name_lower : bytes := [x5c; x75; x30; x30; x31; x66].
Definition ex2_doc : bytes := B "{""a"":{""" ++ ex2_name_upper ++ B """:1}}".
Definition ex2_patch : bytes := B "[{""op"":""test"",""path"":""/a"",""value"":{""" ++ ex2_name_lower ++ B """:1}}]".

Example spelling_hypothesis_needed_hex :
  match api_decode ex2_patch, parse ex2_doc with
  | Some p, Some t =>
      api_apply (tt_opts false) [] p ex2_doc = ROut (B "{""a"":{""" ++ ex2_name_lower ++ B """:1}}") /\
      api_apply (tt_opts false) [] (filter not_test p) ex2_doc = ROut ex2_doc /\
      canonical_spelling false t = false
  | _, _ => False
  end.
Proof. vm_compute. repeat split; reflexivity. Qed.

(* on the model only member names matter: a STRING spelled non-canonically is written as it was stored,
   with or without the test (the theorem nevertheless assumes the spelling of strings too: its proof goes
   through the decoded value, which forgets the spelling) *)
Definition ex4_doc : bytes := B "{""a"":[""\/"",""x<y""]}".
Example string_spelling_not_observed :
  match api_decode (B "[{""op"":""test"",""path"":""/a"",""value"":[""/"",""x<y""]}]") with
  | Some p =>
      api_apply (tt_opts false) [] p ex4_doc = ROut ex4_doc /\
      api_apply (tt_opts false) [] (filter not_test p) ex4_doc = ROut ex4_doc
  | None => False
  end.
Proof. vm_compute. split; reflexivity. Qed.

(* the theorem applied: every hypothesis discharged on a document spelled canonically and a patch with
   three passing tests (one of them on a freshly copied value) between an add, a copy and a remove *)
Definition ex3_doc : bytes := B "{""a"":{""b"":[1,""x/y""]},""c"":""d""}".
Definition ex3_patch : bytes :=
  B "[{""op"":""test"",""path"":""/a/b/1"",""value"":""x\/y""},{""op"":""add"",""path"":""/e"",""value"":{""k"":""v""}},{""op"":""test"",""path"":""/a"",""value"":{""b"":[1,""x/y""]}},{""op"":""copy"",""from"":""/a"",""path"":""/f""},{""op"":""test"",""path"":""/f/b/0"",""value"":1},{""op"":""remove"",""path"":""/c""}]".
Definition ex3_t : tjson := Eval vm_compute in match parse ex3_doc with Some t => t | None => TNull end.
Definition ex3_p : list operation := Eval vm_compute in match api_decode ex3_patch with Some p => p | None => [] end.
Definition ex3_out : bytes := B "{""a"":{""b"":[1,""x/y""]},""e"":{""k"":""v""},""f"":{""b"":[1,""x/y""]}}".

Example theorem_applies :
  length (filter not_test ex3_p) = 3%nat /\
  api_apply (tt_opts false) [] ex3_p ex3_doc = ROut ex3_out /\
  api_apply (tt_opts false) [] (filter not_test ex3_p) ex3_doc = ROut ex3_out.
Proof.
  assert (A : api_apply (tt_opts false) [] ex3_p ex3_doc = ROut ex3_out) by (vm_compute; reflexivity).
  split; [vm_compute; reflexivity|]. split; [exact A|].
  apply (passing_tests_transparent_decoded (tt_opts false) [] ex3_patch ex3_p ex3_doc ex3_t ex3_out);
    try exact A; try (vm_compute; reflexivity). repeat split.
Qed.

Print Assumptions rfc_without_tests.
Print Assumptions render_cenc.
Print Assumptions step_canon.
Print Assumptions api_apply_canonical_bytes.
Print Assumptions passing_tests_transparent.
Print Assumptions tests_only_pass_or_fail.
Print Assumptions same_result_same_bytes.
Print Assumptions passing_tests_transparent_decoded.
Print Assumptions theorem_applies.
